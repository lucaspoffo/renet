(* AcksP.v - theorems about the pending-ack range list
   (RenetClient::add_pending_ack / acked_largest as modelled in Renet/Conn.v).

   MAX_ACK_RANGES is used by name only; the single fact about its value that the
   proofs use is [MAX_ACK_RANGES_pos : 1 <= MAX_ACK_RANGES]. *)
From Coq Require Import NArith List Bool Lia ZifyBool ZifyN.
From RenetV Require Import Base BaseP Consts Varint Packet Channels Conn CodecSpec.
From RenetV Require PacketP.
Import ListNotations.
Open Scope N_scope.

Lemma MAX_ACK_RANGES_pos : 1 <= MAX_ACK_RANGES.
Proof. unfold MAX_ACK_RANGES. lia. Qed.

Local Opaque MAX_ACK_RANGES.

Lemma len_tl : forall A (l : list A), len (tl l) = len l - 1.
Proof. intros A [|x l]; cbn [tl]; rewrite ?len_cons, ?len_nil; lia. Qed.

Lemma len_zero : forall A (l : list A), len l = 0 -> l = [].
Proof. intros A l. apply len_0_nil. Qed.

Lemma ranges_wf_tl : forall l lo, ranges_wf lo l -> ranges_wf lo (tl l).
Proof.
  intros [|[a b] t] lo H; cbn [tl ranges_wf] in *; [exact I|].
  apply (PacketP.ranges_wf_mono (b + 1)); [lia | tauto].
Qed.

Lemma in_ranges_lo : forall l lo x, ranges_wf lo l -> in_ranges x l -> lo <= x.
Proof.
  induction l as [|[a b] t IH]; intros lo x Hwf Hin; cbn [ranges_wf in_ranges] in *.
  - contradiction.
  - destruct Hwf as (H1 & H2 & H3). destruct Hin as [Hin|Hin]; [lia|].
    specialize (IH _ _ H3 Hin). lia.
Qed.

Lemma in_ranges_app : forall l1 l2 x, in_ranges x (l1 ++ l2) <-> in_ranges x l1 \/ in_ranges x l2.
Proof.
  induction l1 as [|[a b] t IH]; intros l2 x; cbn [app in_ranges].
  - tauto.
  - rewrite IH. tauto.
Qed.

(* [ins s l] is the list after the `for` loop plus the trailing push, BEFORE the
   MAX_ACK_RANGES limit is applied. *)
Fixpoint ins (s : N) (l : list (N * N)) : list (N * N) :=
  match l with
  | [] => [(s, s + 1)]
  | (a, b) :: t =>
      if (a <=? s) && (s <? b) then l
      else if a =? s + 1 then (s, b) :: t
      else if b =? s then
        match t with
        | (a2, b2) :: t2 => if s + 1 =? a2 then (a, b2) :: t2 else (a, s + 1) :: t
        | [] => [(a, s + 1)]
        end
      else if s + 1 <? a then (s, s + 1) :: l
      else (a, b) :: ins s t
  end.

Lemma ack_loop_ins : forall l s,
  match ack_loop s l with
  | Some l' => ins s l = l'
  | None => ins s l = l ++ [(s, s + 1)] /\ ack_inserts s l = true
  end.
Proof.
  induction l as [|[a b] t IH]; intros s; cbn [ins ack_loop ack_inserts app]; [auto|].
  destruct ((a <=? s) && (s <? b)); [reflexivity|].
  destruct (a =? s + 1); [reflexivity|].
  destruct (b =? s).
  { destruct t as [|[a2 b2] t2]; [reflexivity|]. destruct (s + 1 =? a2); reflexivity. }
  destruct (s + 1 <? a); [reflexivity|].
  specialize (IH s). destruct (ack_loop s t); [rewrite IH; reflexivity|].
  destruct IH as [-> ->]. auto.
Qed.

Lemma add_pending_ack_ins : forall l s,
  add_pending_ack l s =
    match l with
    | [] => [(s, s + 1)]
    | _ => if ack_inserts s l then limit_ranges (ins s l) else ins s l
    end.
Proof.
  intros [|[a b] t] s; [reflexivity|].
  unfold add_pending_ack. pose proof (ack_loop_ins ((a, b) :: t) s) as H.
  destruct (ack_loop s ((a, b) :: t)); [rewrite H; reflexivity|].
  destruct H as [-> ->]. reflexivity.
Qed.

Lemma or_split_iff (P Q R T : Prop) : (P <-> Q \/ R) -> (P \/ T <-> Q \/ R \/ T).
Proof. tauto. Qed.

(* in each case the ranges beyond the ones touched are the same on both sides, so that what
   is left is arithmetic on the bounds *)
Lemma ins_spec : forall l lo s, ranges_wf lo l -> lo <= s ->
  ranges_wf lo (ins s l) /\ (forall x, in_ranges x (ins s l) <-> x = s \/ in_ranges x l).
Proof.
  induction l as [|[a b] t IH]; intros lo s Hwf Hlo.
  - cbn [ins ranges_wf in_ranges]. split; [lia|]. intros x. lia.
  - cbn [ins]. cbn [ranges_wf] in Hwf. destruct Hwf as (H1 & H2 & H3).
    destruct ((a <=? s) && (s <? b)) eqn:E1.
    { cbn [ranges_wf in_ranges]. split; [auto|]. intros x. apply or_split_iff. lia. }
    destruct (a =? s + 1) eqn:E2.
    { cbn [ranges_wf in_ranges]. split; [repeat split; [lia | lia | exact H3]|].
      intros x. apply or_split_iff. lia. }
    destruct (b =? s) eqn:E3.
    { destruct t as [|[a2 b2] t2].
      - cbn [ranges_wf in_ranges]. split; [lia|]. intros x. lia.
      - cbn [ranges_wf] in H3. destruct H3 as (H4 & H5 & H6).
        destruct (s + 1 =? a2) eqn:E4; cbn [ranges_wf in_ranges].
        + split; [repeat split; [lia | lia | exact H6]|]. intros x.
          rewrite <- (or_assoc (a <= x /\ x < b)). apply or_split_iff. lia.
        + split; [repeat split; [lia | lia | lia | lia | exact H6]|].
          intros x. apply or_split_iff. lia. }
    destruct (s + 1 <? a) eqn:E4.
    { cbn [ranges_wf in_ranges]. split; [repeat split; [lia | lia | lia | lia | exact H3]|].
      intros x. apply or_iff_compat_r. lia. }
    destruct (IH (b + 1) s H3 ltac:(lia)) as (IH1 & IH2).
    cbn [ranges_wf in_ranges]. split; [auto|].
    intros x. rewrite IH2. tauto.
Qed.

Lemma ins_len : forall l s,
  1 <= len (ins s l) /\ len (ins s l) <= len l + 1 /\
  (ack_inserts s l = false -> len (ins s l) <= len l) /\
  (ack_inserts s l = true -> len (ins s l) = len l + 1).
Proof.
  induction l as [|[a b] t IH]; intros s; cbn [ins ack_inserts].
  - rewrite !len_cons, !len_nil. repeat split; intros; try discriminate; lia.
  - destruct ((a <=? s) && (s <? b)).
    { rewrite len_cons. repeat split; intros; try discriminate; lia. }
    destruct (a =? s + 1).
    { rewrite !len_cons. repeat split; intros; try discriminate; lia. }
    destruct (b =? s).
    { destruct t as [|[a2 b2] t2]; [|destruct (s + 1 =? a2)];
        rewrite ?len_cons, ?len_nil; repeat split; intros; try discriminate; lia. }
    destruct (s + 1 <? a).
    { rewrite !len_cons. repeat split; intros; try discriminate; lia. }
    destruct (IH s) as (_ & I1 & I2 & I3). rewrite !len_cons.
    split; [lia|]. split; [lia|]. split; intros H; [specialize (I2 H)|specialize (I3 H)]; lia.
Qed.

Lemma limit_ranges_cases : forall l,
  (len l <= MAX_ACK_RANGES /\ limit_ranges l = l) \/
  (MAX_ACK_RANGES < len l /\ limit_ranges l = tl l).
Proof.
  intros l. unfold limit_ranges.
  destruct (MAX_ACK_RANGES <? len l) eqn:E; [right|left]; split; auto; lia.
Qed.

Lemma add_pending_ack_cases : forall l s,
  add_pending_ack l s = ins s l \/
  (ack_inserts s l = true /\ l <> [] /\ MAX_ACK_RANGES < len (ins s l) /\
   add_pending_ack l s = tl (ins s l)).
Proof.
  intros l s. rewrite add_pending_ack_ins.
  destruct l as [|[a b] t]; [left; reflexivity|].
  destruct (ack_inserts s ((a, b) :: t)) eqn:E; [|left; reflexivity].
  destruct (limit_ranges_cases (ins s ((a, b) :: t))) as [(_ & H)|(H1 & H2)]; rewrite ?H, ?H2.
  - left; reflexivity.
  - right. repeat split; auto. discriminate.
Qed.

(* [lo, hi) is the top block of the ranges: all of it is there and nothing at or above hi is
   ([lo = hi]: nothing at or above lo).  The limit removes only the lowest range, which ends below
   a gap, so the top block of what was received survives every insertion: [top_block_add]. *)
Definition top_block (l : list (N * N)) (lo hi : N) : Prop :=
  (forall x, lo <= x < hi -> in_ranges x l) /\ (forall x, in_ranges x l -> x < hi).

(* what the limit does to the set: add_pending_ack is the insertion cut from below, just above a
   number that is missing, and not above everything *)
Lemma add_pending_ack_upper l s : ranges_wf 0 l -> exists cut,
  (forall x, in_ranges x (add_pending_ack l s) <-> (x = s \/ in_ranges x l) /\ cut <= x) /\
  (cut = 0 \/ MAX_ACK_RANGES <= len l /\ ~ (cut - 1 = s \/ in_ranges (cut - 1) l) /\
              exists y, cut <= y /\ (y = s \/ in_ranges y l)).
Proof.
  intros Hwf.
  destruct (ins_spec l 0 s Hwf ltac:(lia)) as (W & D).
  destruct (add_pending_ack_cases l s) as [E|(_ & _ & Hlen & E)]; rewrite E.
  { exists 0. split; [|left; reflexivity]. intros x. rewrite D. intuition lia. }
  assert (Hfull : MAX_ACK_RANGES <= len l).
  { destruct (ins_len l s) as (_ & I1 & _). lia. }
  pose proof MAX_ACK_RANGES_pos as Hpos.
  (* the insertion has two ranges at least; the first one, [a, b), is dropped, b is the missing
     number and the cut is b + 1 *)
  destruct (ins s l) as [|[a b] [|[a2 b2] t]]; rewrite ?len_cons, ?len_nil in Hlen; try lia.
  cbn [tl]. cbn [ranges_wf] in W. destruct W as (_ & Hab & Hwt).
  assert (Hlo : forall x, in_ranges x ((a2, b2) :: t) -> b + 1 <= x).
  { intros x. apply in_ranges_lo. exact Hwt. }
  exists (b + 1). split; [|right; split; [exact Hfull|split]].
  - intros x. rewrite <- D. cbn [in_ranges]. split.
    + intros Hx. split; [right; exact Hx | apply Hlo; exact Hx].
    + intros [[Hx|Hx] Hb]; [lia | exact Hx].
  - rewrite <- D. replace (b + 1 - 1) with b by lia. cbn [in_ranges]. intros [Hb|Hb]; [lia|].
    specialize (Hlo b Hb). lia.
  - exists a2. split; [lia|]. apply D. cbn [in_ranges]. right. left. lia.
Qed.

Theorem top_block_add l s lo hi : ranges_wf 0 l -> lo < hi ->
  (forall x, lo <= x < hi -> x = s \/ in_ranges x l) -> (forall x, x = s \/ in_ranges x l -> x < hi) ->
  top_block (add_pending_ack l s) lo hi.
Proof.
  intros Hwf Hlt Hin Hsup.
  destruct (add_pending_ack_upper l s Hwf) as (cut & D & Hcut).
  (* a cut above lo would have the missing number cut - 1 in [lo, hi) *)
  assert (Hc : cut <= lo).
  { destruct Hcut as [->|(_ & Hgap & y & Hy & Hy')]; [lia|].
    destruct (N.le_gt_cases cut lo) as [Hle|Hgt]; [exact Hle|].
    exfalso. apply Hgap, Hin. specialize (Hsup y Hy'). lia. }
  split; intros x Hx.
  - apply D. split; [apply Hin; exact Hx | lia].
  - apply D in Hx. apply Hsup, Hx.
Qed.

Theorem add_pending_ack_wf_lo : forall l s lo,
  lo <= s -> ranges_wf lo l -> ranges_wf lo (add_pending_ack l s).
Proof.
  intros l s lo Hlo Hwf.
  destruct (ins_spec l lo s Hwf Hlo) as (H1 & _).
  destruct (add_pending_ack_cases l s) as [E|(_ & _ & _ & E)]; rewrite E; auto.
  apply ranges_wf_tl; auto.
Qed.

Theorem add_pending_ack_wf : forall l s, ranges_wf 0 l -> ranges_wf 0 (add_pending_ack l s).
Proof. intros l s H. apply add_pending_ack_wf_lo; [lia|auto]. Qed.

Theorem add_pending_ack_sound : forall l s x,
  ranges_wf 0 l -> in_ranges x (add_pending_ack l s) -> x = s \/ in_ranges x l.
Proof.
  intros l s x Hwf Hin.
  destruct (add_pending_ack_upper l s Hwf) as (cut & D & _).
  apply D in Hin. apply Hin.
Qed.

Theorem add_pending_ack_bound : forall l s,
  len l <= MAX_ACK_RANGES -> len (add_pending_ack l s) <= MAX_ACK_RANGES.
Proof.
  intros l s Hlen. pose proof MAX_ACK_RANGES_pos as Hpos.
  destruct (ins_len l s) as (_ & I1 & I2 & I3).
  rewrite add_pending_ack_ins. destruct l as [|[a b] t].
  - rewrite len_cons, len_nil. lia.
  - destruct (ack_inserts s ((a, b) :: t)) eqn:E.
    + destruct (limit_ranges_cases (ins s ((a, b) :: t))) as [(H1 & H2)|(H1 & H2)]; rewrite H2; auto.
      rewrite len_tl. lia.
    + specialize (I2 eq_refl). lia.
Qed.

Theorem add_pending_ack_nonempty : forall l s, add_pending_ack l s <> [].
Proof.
  intros l s. pose proof MAX_ACK_RANGES_pos as Hpos.
  destruct (ins_len l s) as (I0 & _).
  destruct (add_pending_ack_cases l s) as [E|(_ & _ & H & E)]; rewrite E; intros Hnil.
  - rewrite Hnil, len_nil in I0. lia.
  - apply (f_equal (@len _)) in Hnil. rewrite len_tl, len_nil in Hnil. lia.
Qed.

Theorem add_pending_ack_exact : forall l s, ranges_wf 0 l ->
  exists ins,
    ranges_wf 0 ins /\
    (forall x, in_ranges x ins <-> x = s \/ in_ranges x l) /\
    len ins <= len l + 1 /\
    (add_pending_ack l s = ins \/
     (MAX_ACK_RANGES < len ins /\ add_pending_ack l s = tl ins)).
Proof.
  intros l s Hwf. exists (ins s l).
  destruct (ins_spec l 0 s Hwf ltac:(lia)) as (H1 & H2).
  destruct (ins_len l s) as (_ & I1 & _).
  repeat split; auto; try apply H2.
  destruct (add_pending_ack_cases l s) as [E|(_ & _ & H & E)]; [left|right]; auto.
Qed.

Theorem add_pending_ack_iff : forall l s x,
  ranges_wf 0 l -> len l < MAX_ACK_RANGES ->
  (in_ranges x (add_pending_ack l s) <-> x = s \/ in_ranges x l).
Proof.
  intros l s x Hwf Hlen.
  destruct (add_pending_ack_upper l s Hwf) as (cut & D & [->|(Hfull & _)]); [|lia].
  rewrite D. intuition lia.
Qed.

Theorem add_pending_ack_complete : forall l s x,
  ranges_wf 0 l -> len l < MAX_ACK_RANGES ->
  (x = s \/ in_ranges x l) -> in_ranges x (add_pending_ack l s).
Proof. intros l s x Hwf Hlen. apply add_pending_ack_iff; assumption. Qed.

Lemma ins_tl_keeps : forall l lo s, ranges_wf lo l -> lo <= s ->
  ack_inserts s l = true -> l <> [] ->
  in_ranges s (tl (ins s l)) \/ (exists a b t, l = (a, b) :: t /\ s + 1 < a).
Proof.
  intros [|[a b] t] lo s Hwf Hlo Hins Hne; [congruence|].
  cbn [ins ack_inserts] in *. cbn [ranges_wf] in Hwf. destruct Hwf as (H1 & H2 & H3).
  destruct ((a <=? s) && (s <? b)) eqn:E1; [discriminate|].
  destruct (a =? s + 1) eqn:E2; [discriminate|].
  destruct (b =? s) eqn:E3; [discriminate|].
  destruct (s + 1 <? a) eqn:E4.
  - right. exists a, b, t. split; [reflexivity|lia].
  - left. cbn [tl]. apply (ins_spec t (b + 1) s H3 ltac:(lia)). left; reflexivity.
Qed.

(* strongest form: no assumption on MAX_ACK_RANGES, and [len l] need not be within the limit *)
Theorem add_pending_ack_keeps_new_strong : forall l s, ranges_wf 0 l ->
  in_ranges s (add_pending_ack l s) \/
  (exists a b t, l = (a, b) :: t /\ s + 1 < a /\ MAX_ACK_RANGES <= len l).
Proof.
  intros l s Hwf.
  destruct (ins_spec l 0 s Hwf ltac:(lia)) as (_ & H2).
  destruct (ins_len l s) as (_ & I1 & _).
  destruct (add_pending_ack_cases l s) as [E|(Hi & Hne & H & E)]; rewrite E.
  - left. apply H2. left; reflexivity.
  - destruct (ins_tl_keeps l 0 s Hwf ltac:(lia) Hi Hne) as [K|(a & b & t & K1 & K2)]; [left; auto|].
    right. exists a, b, t. repeat split; auto. lia.
Qed.

Theorem add_pending_ack_keeps_new : forall l s,
  ranges_wf 0 l -> len l <= MAX_ACK_RANGES -> 2 <= MAX_ACK_RANGES ->
  in_ranges s (add_pending_ack l s) \/
  (exists a b t, l = (a, b) :: t /\ s + 1 < a /\ len l = MAX_ACK_RANGES).
Proof.
  intros l s Hwf Hlen _.
  destruct (add_pending_ack_keeps_new_strong l s Hwf) as [K|(a & b & t & K1 & K2 & K3)]; [left; auto|].
  right. exists a, b, t. repeat split; auto. lia.
Qed.

(* the converse: in that situation the fresh number IS lost and the list is unchanged *)
Theorem add_pending_ack_drops_new : forall l s a b t,
  ranges_wf 0 l -> l = (a, b) :: t -> s + 1 < a -> MAX_ACK_RANGES <= len l ->
  add_pending_ack l s = l /\ ~ in_ranges s l.
Proof.
  intros l s a b t Hwf -> Hs Hlen. split.
  - rewrite add_pending_ack_ins. cbn [ack_inserts ins].
    destruct ((a <=? s) && (s <? b)) eqn:E1; [lia|].
    destruct (a =? s + 1) eqn:E2; [lia|].
    cbn [ranges_wf] in Hwf.
    destruct (b =? s) eqn:E3; [lia|].
    destruct (s + 1 <? a) eqn:E4; [|lia].
    unfold limit_ranges. rewrite len_cons.
    destruct (MAX_ACK_RANGES <? 1 + len ((a, b) :: t)) eqn:E5; [reflexivity|lia].
  - intros Hin. pose proof (in_ranges_lo _ _ _ Hwf Hin) as H0.
    cbn [in_ranges ranges_wf] in *. destruct Hwf as (H1 & H2 & H3).
    destruct Hin as [Hin|Hin]; [lia|].
    pose proof (in_ranges_lo _ _ _ H3 Hin). lia.
Qed.

Lemma feed_nil : forall l, feed l [] = l.
Proof. reflexivity. Qed.

Lemma feed_cons : forall l s ss, feed l (s :: ss) = feed (add_pending_ack l s) ss.
Proof. reflexivity. Qed.

Lemma feed_app : forall l ss1 ss2, feed l (ss1 ++ ss2) = feed (feed l ss1) ss2.
Proof. intros. unfold feed. apply fold_left_app. Qed.

Lemma feed_snoc : forall l ss s, feed l (ss ++ [s]) = add_pending_ack (feed l ss) s.
Proof. intros. rewrite feed_app. reflexivity. Qed.

Lemma feed_ind (P : list (N * N) -> Prop) ss l :
  (forall l s, In s ss -> P l -> P (add_pending_ack l s)) -> P l -> P (feed l ss).
Proof.
  revert l. induction ss as [|s ss IH]; intros l Hstep H; [exact H|].
  rewrite feed_cons. apply IH.
  - intros l' s' Hin. apply Hstep. right. exact Hin.
  - apply Hstep; [left; reflexivity | exact H].
Qed.

Theorem feed_wf_from : forall ss l, ranges_wf 0 l -> ranges_wf 0 (feed l ss).
Proof. intros ss l. apply feed_ind. intros l' s _. apply add_pending_ack_wf. Qed.

Theorem feed_wf : forall ss, ranges_wf 0 (feed [] ss).
Proof. intros. apply feed_wf_from. exact I. Qed.

Theorem feed_bound_from : forall ss l,
  len l <= MAX_ACK_RANGES -> len (feed l ss) <= MAX_ACK_RANGES.
Proof.
  intros ss l. apply (feed_ind (fun l => len l <= MAX_ACK_RANGES)). intros l' s _. apply add_pending_ack_bound.
Qed.

Theorem feed_bound : forall ss, len (feed [] ss) <= MAX_ACK_RANGES.
Proof. intros. apply feed_bound_from. rewrite len_nil. lia. Qed.

Theorem feed_nonempty_from : forall ss l, l <> [] \/ ss <> [] -> feed l ss <> [].
Proof.
  intros [|s ss] l H.
  - destruct H as [H|H]; [exact H|congruence].
  - rewrite feed_cons. apply (feed_ind (fun l => l <> [])); [|apply add_pending_ack_nonempty].
    intros l' s' _ _. apply add_pending_ack_nonempty.
Qed.

Theorem feed_nonempty : forall ss, ss <> [] -> feed [] ss <> [].
Proof. intros. apply feed_nonempty_from. right; auto. Qed.

Theorem feed_sound_from : forall ss l x, ranges_wf 0 l ->
  in_ranges x (feed l ss) -> in_ranges x l \/ In x ss.
Proof.
  induction ss as [|s ss IH]; intros l x Hwf Hin; [left; exact Hin|].
  rewrite feed_cons in Hin.
  destruct (IH _ _ (add_pending_ack_wf l s Hwf) Hin) as [H|H].
  - destruct (add_pending_ack_sound l s x Hwf H) as [->|H']; [right; left; reflexivity|left; auto].
  - right; right; auto.
Qed.

Theorem feed_sound : forall ss x, in_ranges x (feed [] ss) -> In x ss.
Proof.
  intros ss x H. destruct (feed_sound_from ss [] x I H) as [H'|H']; [contradiction|auto].
Qed.

(* exactness as long as the list stays below the limit BEFORE each insertion
   (only proper prefixes matter) *)
Theorem feed_exact_from_strong : forall ss l, ranges_wf 0 l ->
  (forall k, (k < length ss)%nat -> len (feed l (firstn k ss)) < MAX_ACK_RANGES) ->
  forall x, in_ranges x (feed l ss) <-> in_ranges x l \/ In x ss.
Proof.
  induction ss as [|s ss IH]; intros l Hwf Hk x.
  - rewrite feed_nil. cbn [In]. tauto.
  - rewrite feed_cons.
    assert (Hl : len l < MAX_ACK_RANGES).
    { apply (Hk 0%nat). cbn [length]. apply Nat.lt_0_succ. }
    rewrite IH.
    + rewrite add_pending_ack_iff by auto. cbn [In]. intuition congruence.
    + apply add_pending_ack_wf; auto.
    + intros k Hlt. apply (Hk (S k)). cbn [length]. lia.
Qed.

Theorem feed_exact_from : forall ss l, ranges_wf 0 l ->
  (forall k, len (feed l (firstn k ss)) < MAX_ACK_RANGES) ->
  forall x, in_ranges x (feed l ss) <-> in_ranges x l \/ In x ss.
Proof. intros ss l Hwf Hk. apply feed_exact_from_strong; auto. Qed.

Theorem feed_exact_strong : forall ss,
  (forall k, (k < length ss)%nat -> len (feed [] (firstn k ss)) < MAX_ACK_RANGES) ->
  forall x, in_ranges x (feed [] ss) <-> In x ss.
Proof.
  intros ss Hk x. rewrite (feed_exact_from_strong ss [] I Hk). cbn [in_ranges]. tauto.
Qed.

Theorem feed_exact : forall ss,
  (forall k, len (feed [] (firstn k ss)) < MAX_ACK_RANGES) ->
  forall x, in_ranges x (feed [] ss) <-> In x ss.
Proof. intros ss Hk. apply feed_exact_strong; auto. Qed.

(* the most recently received number is acknowledged unless it opened a new lowest
   range of a full list *)
Theorem feed_keeps_last : forall ss s,
  in_ranges s (feed [] (ss ++ [s])) \/
  (exists a b t, feed [] ss = (a, b) :: t /\ s + 1 < a /\ len (feed [] ss) = MAX_ACK_RANGES).
Proof.
  intros ss s. rewrite feed_snoc.
  destruct (add_pending_ack_keeps_new_strong (feed [] ss) s (feed_wf ss))
    as [K|(a & b & t & K1 & K2 & K3)]; [left; auto|].
  right. exists a, b, t. repeat split; auto. pose proof (feed_bound ss). lia.
Qed.

Theorem acked_largest_wf_lo : forall l k lo, ranges_wf lo l -> ranges_wf lo (acked_largest l k).
Proof.
  induction l as [|[a b] t IH]; intros k lo Hwf; cbn [acked_largest]; [exact I|].
  cbn [ranges_wf] in Hwf. destruct Hwf as (H1 & H2 & H3).
  destruct (k <? a) eqn:E1.
  { cbn [ranges_wf]; auto. }
  destruct (b <=? k) eqn:E2.
  { apply (PacketP.ranges_wf_mono (b + 1)); [lia|]. apply IH; auto. }
  destruct (b <=? k + 1) eqn:E3.
  { apply (PacketP.ranges_wf_mono (b + 1)); [lia|auto]. }
  cbn [ranges_wf]. repeat split; auto; lia.
Qed.

Theorem acked_largest_wf : forall l k, ranges_wf 0 l -> ranges_wf 0 (acked_largest l k).
Proof. intros. apply acked_largest_wf_lo; auto. Qed.

Theorem acked_largest_spec_lo : forall l k lo x, ranges_wf lo l ->
  (in_ranges x (acked_largest l k) <-> in_ranges x l /\ k < x).
Proof.
  induction l as [|[a b] t IH]; intros k lo x Hwf; cbn [acked_largest].
  - cbn [in_ranges]. tauto.
  - cbn [ranges_wf] in Hwf. destruct Hwf as (H1 & H2 & H3).
    assert (Ht : in_ranges x t -> b + 1 <= x) by (apply in_ranges_lo; auto).
    destruct (k <? a) eqn:E1.
    { cbn [in_ranges]. intuition lia. }
    destruct (b <=? k) eqn:E2.
    { rewrite (IH k (b + 1) x H3). cbn [in_ranges]. intuition lia. }
    destruct (b <=? k + 1) eqn:E3.
    { cbn [in_ranges]. intuition lia. }
    cbn [in_ranges]. intuition lia.
Qed.

Theorem acked_largest_spec : forall l k x, ranges_wf 0 l ->
  (in_ranges x (acked_largest l k) <-> in_ranges x l /\ k < x).
Proof. intros. apply acked_largest_spec_lo with (lo := 0); auto. Qed.

Lemma top_block_acked_largest l k lo hi :
  ranges_wf 0 l -> k < lo -> top_block l lo hi -> top_block (acked_largest l k) lo hi.
Proof.
  intros Hwf Hk [R1 R2]. split; intros x Hx.
  - apply (acked_largest_spec l k x Hwf). split; [apply R1; exact Hx | lia].
  - apply (acked_largest_spec l k x Hwf) in Hx. apply R2, Hx.
Qed.

Theorem acked_largest_len : forall l k, len (acked_largest l k) <= len l.
Proof.
  induction l as [|[a b] t IH]; intros k; cbn [acked_largest]; [lia|].
  destruct (k <? a); [lia|].
  destruct (b <=? k). { specialize (IH k). rewrite len_cons. lia. }
  destruct (b <=? k + 1); rewrite !len_cons; lia.
Qed.

Lemma ranges_last_end_lo : forall l lo a b, ranges_wf lo l -> l <> [] -> last l (0, 0) = (a, b) ->
  lo <= a /\ a < b /\ In (a, b) l /\ (forall x, in_ranges x l -> x < b) /\ in_ranges (b - 1) l.
Proof.
  induction l as [|[a0 b0] t IH]; intros lo a b Hwf Hne Hlast; [congruence|].
  cbn [ranges_wf] in Hwf. destruct Hwf as (H1 & H2 & H3).
  destruct t as [|p t'].
  - cbn [last] in Hlast. inversion Hlast; subst. cbn [in_ranges In].
    repeat split; auto; try lia.
  - assert (Hne' : p :: t' <> []) by discriminate.
    change (last ((a0, b0) :: p :: t') (0, 0)) with (last (p :: t') (0, 0)) in Hlast.
    destruct (IH (b0 + 1) a b H3 Hne' Hlast) as (I1 & I2 & I3 & I4 & I5).
    change (in_ranges (b - 1) ((a0, b0) :: p :: t'))
      with ((a0 <= b - 1 /\ b - 1 < b0) \/ in_ranges (b - 1) (p :: t')).
    repeat split; auto; try lia.
    + right; auto.
    + intros x Hx.
      change (in_ranges x ((a0, b0) :: p :: t'))
        with ((a0 <= x /\ x < b0) \/ in_ranges x (p :: t')) in Hx.
      destruct Hx as [Hx|Hx]; [lia|auto].
Qed.

Theorem ranges_last_end : forall l a b, ranges_wf 0 l -> l <> [] -> last l (0, 0) = (a, b) ->
  (forall x, in_ranges x l -> x < b) /\ 1 <= b.
Proof.
  intros l a b Hwf Hne Hlast.
  destruct (ranges_last_end_lo l 0 a b Hwf Hne Hlast) as (I1 & I2 & I3 & I4 & I5).
  split; [auto|lia].
Qed.

(* the same, without mentioning [last]'s default *)
Theorem ranges_last_end_ex : forall l, ranges_wf 0 l -> l <> [] ->
  exists l0 a b, l = l0 ++ [(a, b)] /\ a < b /\ 1 <= b /\
    (forall x, in_ranges x l -> x < b) /\ in_ranges (b - 1) l.
Proof.
  intros l Hwf Hne.
  destruct (exists_last Hne) as (l0 & [a b] & ->).
  assert (Hlast : last (l0 ++ [(a, b)]) (0, 0) = (a, b)) by apply last_last.
  destruct (ranges_last_end_lo _ 0 a b Hwf Hne Hlast) as (I1 & I2 & I3 & I4 & I5).
  exists l0, a, b. repeat split; auto. lia.
Qed.

Corollary feed_last_end : forall ss a b, ss <> [] -> last (feed [] ss) (0, 0) = (a, b) ->
  (forall x, in_ranges x (feed [] ss) -> x < b) /\ 1 <= b.
Proof.
  intros ss a b Hne Hlast.
  apply ranges_last_end with (a := a); auto using feed_wf, feed_nonempty.
Qed.

(* upper bound on range ends (for packet_wf of the Ack packet) *)
Lemma ranges_below_tl : forall B l, ranges_below B l -> ranges_below B (tl l).
Proof. intros B [|p t] H; cbn [tl]; [exact H|]. inversion H; auto. Qed.

Lemma ins_below : forall B l s, ranges_below B l -> s + 1 <= B -> ranges_below B (ins s l).
Proof.
  unfold ranges_below.
  induction l as [|[a b] t IH]; intros s H Hs; cbn [ins].
  - constructor; [exact Hs|constructor].
  - inversion H as [|? ? Hb Ht]; subst. cbn [snd] in Hb.
    destruct ((a <=? s) && (s <? b)); [exact H|].
    destruct (a =? s + 1); [constructor; auto|].
    destruct (b =? s).
    { destruct t as [|[a2 b2] t2]; [constructor; auto|].
      inversion Ht as [|? ? Hb2 Ht2]; subst.
      destruct (s + 1 =? a2); constructor; auto. }
    destruct (s + 1 <? a); [constructor; auto|].
    constructor; auto.
Qed.

Theorem add_pending_ack_below : forall B l s,
  ranges_below B l -> s + 1 <= B -> ranges_below B (add_pending_ack l s).
Proof.
  intros B l s H Hs. pose proof (ins_below B l s H Hs) as Hi.
  destruct (add_pending_ack_cases l s) as [E|(_ & _ & _ & E)]; rewrite E; auto.
  apply ranges_below_tl; auto.
Qed.

Theorem feed_below_from : forall B ss l,
  ranges_below B l -> Forall (fun s => s + 1 <= B) ss -> ranges_below B (feed l ss).
Proof.
  intros B ss l H Hss. apply (feed_ind (ranges_below B)); [|exact H].
  intros l' s Hin Hl'. rewrite Forall_forall in Hss. apply add_pending_ack_below; auto.
Qed.

Theorem feed_below : forall B ss,
  Forall (fun s => s + 1 <= B) ss -> ranges_below B (feed [] ss).
Proof. intros. apply feed_below_from; auto. constructor. Qed.

Theorem acked_largest_below : forall B l k, ranges_below B l -> ranges_below B (acked_largest l k).
Proof.
  unfold ranges_below.
  induction l as [|[a b] t IH]; intros k H; cbn [acked_largest]; [constructor|].
  inversion H as [|? ? Hb Ht]; subst.
  destruct (k <? a); [exact H|].
  destruct (b <=? k); [apply IH; auto|].
  destruct (b <=? k + 1); [exact Ht|]. constructor; auto.
Qed.

(* non-vacuity and the Rust unit test `pending_acks` *)
Example ranges_wf_example : ranges_wf 0 [(0, 1); (2, 5); (7, 8)].
Proof. cbn [ranges_wf]. lia. Qed.

Example in_ranges_example : in_ranges 4 [(0, 1); (2, 5); (7, 8)] /\ ~ in_ranges 5 [(0, 1); (2, 5); (7, 8)].
Proof. cbn [in_ranges]. lia. Qed.

(* adjacent ranges are NOT well-formed (they must have been merged) *)
Example ranges_wf_not_adjacent : ~ ranges_wf 0 [(0, 2); (2, 5)].
Proof. cbn [ranges_wf]. lia. Qed.

Example rust_test_1 : feed [] [3] = [(3, 4)].
Proof. evaluates. Qed.
Example rust_test_2 : feed [] [3; 4] = [(3, 5)].
Proof. evaluates. Qed.
Example rust_test_3 : feed [] [3; 4; 2] = [(2, 5)].
Proof. evaluates. Qed.
Example rust_test_4 : feed [] [3; 4; 2; 0] = [(0, 1); (2, 5)].
Proof. evaluates. Qed.
Example rust_test_5 : feed [] [3; 4; 2; 0; 7] = [(0, 1); (2, 5); (7, 8)].
Proof. evaluates. Qed.
Example rust_test_6 : feed [] [3; 4; 2; 0; 7; 1] = [(0, 5); (7, 8)].
Proof. evaluates. Qed.
Example rust_test_7 : feed [] [3; 4; 2; 0; 7; 1; 5] = [(0, 6); (7, 8)].
Proof. evaluates. Qed.
Example rust_test_8 : feed [] [3; 4; 2; 0; 7; 1; 5; 6] = [(0, 8)].
Proof. evaluates. Qed.

(* step by step, as in the Rust test *)
Example rust_test_steps :
  add_pending_ack [] 3 = [(3, 4)] /\
  add_pending_ack [(3, 4)] 4 = [(3, 5)] /\
  add_pending_ack [(3, 5)] 2 = [(2, 5)] /\
  add_pending_ack [(2, 5)] 0 = [(0, 1); (2, 5)] /\
  add_pending_ack [(0, 1); (2, 5)] 7 = [(0, 1); (2, 5); (7, 8)] /\
  add_pending_ack [(0, 1); (2, 5); (7, 8)] 1 = [(0, 5); (7, 8)] /\
  add_pending_ack [(0, 5); (7, 8)] 5 = [(0, 6); (7, 8)] /\
  add_pending_ack [(0, 6); (7, 8)] 6 = [(0, 8)].
Proof. vm_compute. repeat split; reflexivity. Qed.

Example acked_largest_examples :
  acked_largest [(0, 1); (2, 5); (7, 8)] 3 = [(4, 5); (7, 8)] /\
  acked_largest [(0, 1); (2, 5); (7, 8)] 4 = [(7, 8)] /\
  acked_largest [(0, 1); (2, 5); (7, 8)] 5 = [(7, 8)] /\
  acked_largest [(2, 5); (7, 8)] 1 = [(2, 5); (7, 8)] /\
  acked_largest [(0, 1); (2, 5); (7, 8)] 100 = [].
Proof. vm_compute. repeat split; reflexivity. Qed.

(* the limit in action (these depend on the VALUE of MAX_ACK_RANGES, by computation only):
   a full list of MAX_ACK_RANGES isolated ranges 10,13,16,... *)
Definition full_list : list (N * N) :=
  map (fun i => let a := 10 + 3 * N.of_nat i in (a, a + 1)) (seq 0 (N.to_nat MAX_ACK_RANGES)).

(* isolated ranges three apart are well formed, however many *)
Lemma spaced_wf k n :
  ranges_wf (10 + 3 * N.of_nat k)
    (map (fun i => let a := 10 + 3 * N.of_nat i in (a, a + 1)) (seq k n)).
Proof.
  revert k. induction n as [|n IH]; intros k; cbn [seq map ranges_wf]; [exact I|].
  repeat split; [lia | lia |].
  apply (PacketP.ranges_wf_mono (10 + 3 * N.of_nat (S k))); [lia | apply IH].
Qed.

Example full_list_wf : ranges_wf 0 full_list /\ len full_list = MAX_ACK_RANGES.
Proof.
  split; [apply (PacketP.ranges_wf_mono 10); [lia | exact (spaced_wf 0 _)]|].
  unfold full_list, len. rewrite map_length, seq_length. apply N2Nat.id.
Qed.

(* a new LOWEST range on a full list is dropped at once: the received number 0 is lost,
   so the hypothesis of add_pending_ack_complete cannot be removed *)
Example full_list_drops_new_lowest :
  add_pending_ack full_list 0 = full_list /\ ~ in_ranges 0 full_list.
Proof.
  apply (add_pending_ack_drops_new full_list 0 10 11 (tl full_list)).
  - apply full_list_wf.
  - evaluates.
  - lia.
  - rewrite (proj2 full_list_wf). lia.
Qed.

(* a new HIGHEST range on a full list evicts the lowest range *)
Example full_list_evicts_lowest :
  add_pending_ack full_list 1000 = tl full_list ++ [(1000, 1001)].
Proof. evaluates. Qed.

(* an extension never triggers the limit *)
Example full_list_extend : add_pending_ack full_list 11 = (10, 12) :: tl full_list.
Proof. evaluates. Qed.

Print Assumptions MAX_ACK_RANGES_pos.
Print Assumptions add_pending_ack_wf.
Print Assumptions add_pending_ack_sound.
Print Assumptions add_pending_ack_bound.
Print Assumptions add_pending_ack_nonempty.
Print Assumptions add_pending_ack_exact.
Print Assumptions add_pending_ack_complete.
Print Assumptions add_pending_ack_iff.
Print Assumptions add_pending_ack_keeps_new_strong.
Print Assumptions add_pending_ack_keeps_new.
Print Assumptions add_pending_ack_drops_new.
Print Assumptions feed_wf.
Print Assumptions feed_wf_from.
Print Assumptions feed_bound.
Print Assumptions feed_bound_from.
Print Assumptions feed_nonempty.
Print Assumptions feed_sound.
Print Assumptions feed_sound_from.
Print Assumptions feed_exact.
Print Assumptions feed_exact_strong.
Print Assumptions feed_exact_from.
Print Assumptions feed_exact_from_strong.
Print Assumptions feed_keeps_last.
Print Assumptions acked_largest_wf.
Print Assumptions acked_largest_spec.
Print Assumptions acked_largest_len.
Print Assumptions ranges_last_end.
Print Assumptions ranges_last_end_ex.
Print Assumptions feed_last_end.
Print Assumptions add_pending_ack_below.
Print Assumptions feed_below.
Print Assumptions acked_largest_below.
Print Assumptions rust_test_8.
Print Assumptions rust_test_steps.
Print Assumptions full_list_drops_new_lowest.

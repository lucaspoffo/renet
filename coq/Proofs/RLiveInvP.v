(* RLiveInvP.v - the liveness invariant of the direction A -> B of the two-endpoint system:
   what B acknowledges has reached B's reliable receive channels, hence what A has released
   (or marked as acknowledged) is held or was handed over by B.  The safety invariant of
   Proofs/RSysP.v says "was handed to process_packet"; this one says "is in the receive channel".
   It holds after every run from sys_init (live_inv_holds). *)
From RenetV Require Import Base Consts Varint Packet Channels Conn Server.
From RenetV Require Import CodecSpec RecvSpec SendSpec ConnSpec ConnInvSpec RSysSpec RSysInvSpec RLiveSpec.
From RenetV Require Import SMapP ConnBaseP ConnProcP ConnFlushP ConnP RSysBaseP RSysStepP RSysInvP RSysP RLiveBaseP.
From RenetV Require Import BaseP RunP.
From RenetV Require AcksP RecvRelP SendRelP DisconnectP.
Require Import Lia ZifyBool ZifyN ZifyNat.
Open Scope N_scope.
Local Opaque SLICE_SIZE MAX_ACK_RANGES SER_BUFFER NC_MAX_PAYLOAD_BYTES DISCARD_PACKET_SECS VARINT_MAX MAX_NUM_SLICES.

Import SendRelP(st_of, static_of, pkt_ok, entry_ok, packed, part_acked).

Definition pkt_evs (p : packet) : list rev :=
  match p with
  | SmallReliable _ _ ms => map (fun im => RSmall (fst im)) ms
  | ReliableSlice _ _ sl => [RSlice (sl_id sl) (sl_index sl)]
  | _ => []
  end.

Definition pkt_rel_ch (p : packet) : option N :=
  match p with SmallReliable _ ch _ | ReliableSlice _ ch _ => Some ch | _ => None end.

Definition pkt_done (rr : list (N * recv_rel)) (p : packet) : Prop :=
  match pkt_rel_ch p with
  | Some ch => forall r, sm_find ch rr = Some r -> Forall (ev_done r) (pkt_evs p)
  | None => True
  end.

Definition seq_done (oa : list (list N)) (rr : list (N * recv_rel)) (x : N) : Prop :=
  exists bytes p, In bytes oa /\ from_bytes bytes = Ok p /\ packet_seq p = x /\ pkt_done rr p.

(* sr seqa: the sender's reliable send channels and next sequence number;
   rr acks dead recsb: the receiver's reliable receive channels, pending acks, whether it is
   disconnected, its sent-packet records; oa / ob: everything the sender / receiver emitted *)
Record linv (sr : list (N * send_rel)) (seqa : N) (rr : list (N * recv_rel)) (acks : list (N * N)) (dead : bool)
       (recsb : list (N * (N * sent_info))) (oa ob : list (list N)) : Prop := {
  li_acks : dead = false -> forall x, in_ranges x acks -> seq_done oa rr x;
  li_ackpk : forall bytes sq rs, In bytes ob -> from_bytes bytes = Ok (Ack sq rs) ->
               forall x, in_ranges x rs -> seq_done oa rr x;
  li_rel : forall ch sa r, sm_find ch sr = Some sa -> sm_find ch rr = Some r ->
             (forall id, id < sr_next_id sa -> kind_of sa id = None -> rr_seen r id = true) /\
             (forall id idx, slice_acked sa id idx = Some true -> ev_done r (RSlice id idx));
  li_ackrec : forall k t largest, sm_find k recsb = Some (t, SIAck largest) -> largest < seqa
}.

Definition live_inv (s : rsys) : Prop :=
  linv (c_sr (ra s)) (c_seq (ra s)) (c_rr (rb s)) (c_acks (rb s)) (is_disconnected (rb s)) (c_sent (rb s))
       (out_a s) (out_b s) /\
  order_inv (ra s).

(* the first half of live_inv s is Dlive (dir_ab s) *)
Definition Dlive (d : dir) : Prop :=
  linv (c_sr (d_snd d)) (c_seq (d_snd d)) (c_rr (d_rcv d)) (c_acks (d_rcv d)) (is_disconnected (d_rcv d))
       (c_sent (d_rcv d)) (d_oa d) (d_ob d).

Lemma seq_done_oa oa more rr x : seq_done oa rr x -> seq_done (oa ++ more) rr x.
Proof. intros (b & p & A & B). exists b, p. split; [apply in_or_app; now left|exact B]. Qed.

Lemma linv_oa sr seqa rr acks dead recsb oa ob more seqa' :
  seqa <= seqa' -> linv sr seqa rr acks dead recsb oa ob -> linv sr seqa' rr acks dead recsb (oa ++ more) ob.
Proof.
  intros Hle [L1 L2 L3 L4]. constructor; auto.
  - intros Hd x Hx. apply seq_done_oa. auto.
  - intros b sq rs Hin Hp x Hx. apply seq_done_oa. eauto.
  - intros k t lg Hf. specialize (L4 k t lg Hf). lia.
Qed.

Lemma linv_static sr sr' seqa rr acks dead recsb oa ob :
  sr_static sr sr' -> linv sr seqa rr acks dead recsb oa ob -> linv sr' seqa rr acks dead recsb oa ob.
Proof.
  intros Hst [L1 L2 L3 L4]. constructor; auto.
  intros ch sa' r Hf' Hr. specialize (Hst ch). destruct (sm_find ch sr) as [s|] eqn:Es; [|congruence].
  destruct Hst as (s' & E' & Hn & Hk & Hp). rewrite Hf' in E'. injection E' as <-.
  destruct (L3 ch s r Es Hr) as [A B]. split.
  - intros id Hid Hkn. apply A; [lia|]. rewrite SendRelP.kind_of_st in *. now rewrite <- Hk.
  - intros id idx Hidx. apply B. rewrite SendRelP.slice_acked_packed in *. now rewrite <- Hp.
Qed.

Lemma linv_sub sr seqa rr acks acks' dead dead' recsb recsb' oa ob :
  (dead' = false -> dead = false /\ forall x, in_ranges x acks' -> in_ranges x acks \/ seq_done oa rr x) ->
  (forall k v, sm_find k recsb' = Some v -> sm_find k recsb = Some v) ->
  linv sr seqa rr acks dead recsb oa ob -> linv sr seqa rr acks' dead' recsb' oa ob.
Proof.
  intros Ha Hr [L1 L2 L3 L4]. constructor; auto.
  - intros Hd x Hx. destruct (Ha Hd) as [Hd0 Hsub]. destruct (Hsub x Hx); auto.
  - intros k t lg Hf. eauto.
Qed.

Lemma pkt_evs_ok sent p ch : pkt_honest sent p -> pkt_rel_ch p = Some ch ->
  Forall (rev_ok (log_get sent ch)) (pkt_evs p).
Proof.
  destruct p as [sq c ms|sq c ms|sq c sl|sq c sl|sq rs]; cbn [pkt_honest pkt_rel_ch pkt_evs]; try discriminate.
  - intros H [= <-]. now apply small_events_ok.
  - intros (m & Hat & Hl & Hsl & Hidx) [= <-]. constructor; [cbn [rev_ok]; eauto|constructor].
Qed.

Lemma linv_rr sr seqa rr acks dead recsb oa ob ch r r' :
  sm_find ch rr = Some r -> RecvRelP.prog_le r r' ->
  linv sr seqa rr acks dead recsb oa ob -> linv sr seqa (sm_insert ch r' rr) acks dead recsb oa ob.
Proof.
  intros Hr Hle [L1 L2 L3 L4].
  assert (Hsd : forall x, seq_done oa rr x -> seq_done oa (sm_insert ch r' rr) x).
  { intros x (b & p & Hin & Hp & Hsq & Hd). exists b, p. repeat (split; [assumption|]).
    unfold pkt_done in *. destruct (pkt_rel_ch p) as [c0|] eqn:Ec; [|exact I].
    intros r0. rewrite sm_find_insert. destruct (N.eqb_spec c0 ch) as [->|Hne]; [|apply Hd].
    intros [= <-]. eapply Forall_impl; [|exact (Hd r Hr)]. intros e. exact (RecvRelP.ev_done_mono r r' e Hle). }
  constructor; auto.
  - intros b sq rs Hin Hp x Hx. apply Hsd. eauto.
  - intros c0 sa r0 Hsa. rewrite sm_find_insert. destruct (N.eqb_spec c0 ch) as [->|Hne]; [|now apply L3].
    intros [= <-]. destruct (L3 ch sa r Hsa Hr) as [A B]. split.
    + intros id Hid Hk. apply (proj1 Hle). now apply A.
    + intros id idx Hidx. apply (RecvRelP.ev_done_mono r r' _ Hle). now apply B.
Qed.

Lemma linv_send_rel sr seqa rr acks dead recsb oa ob ch s m s' :
  sm_find ch sr = Some s -> sr_send s m = Ok s' ->
  linv sr seqa rr acks dead recsb oa ob -> linv (sm_insert ch s' sr) seqa rr acks dead recsb oa ob.
Proof.
  intros Hs E [L1 L2 L3 L4]. destruct (SendRelP.sr_send_shape _ _ _ E) as (Hn & u & Hu & Hum & Hua).
  constructor; auto.
  intros c0 sa r. rewrite sm_find_insert. destruct (N.eqb_spec c0 ch) as [->|Hne]; [|now apply L3].
  intros [= <-] Hr. destruct (L3 ch s r Hs Hr) as [A B]. split.
  - intros id Hid Hk. destruct (N.eq_dec id (sr_next_id s)) as [->|Hne].
    + apply SendRelP.kind_none_find in Hk. rewrite Hu, sm_find_insert_same in Hk. discriminate.
    + apply A; [lia|]. rewrite <- Hk. symmetry. apply kind_of_ext. rewrite Hu. now apply sm_find_insert_other.
  - intros id idx Hidx. apply B. rewrite SendRelP.slice_acked_packed in *. unfold packed in *.
    destruct (N.eq_dec id (sr_next_id s)) as [->|Hne].
    + rewrite Hu, sm_find_insert_same in Hidx. exfalso. eapply Hua; eauto.
    + rewrite Hu, sm_find_insert_other in Hidx by exact Hne. exact Hidx.
Qed.

Lemma Dlive_snd ordf d op c' out :
  dir_ok ordf d -> is_process op = false -> cstep (d_snd d) op = Ok (c', out) ->
  Dlive d -> Dlive (with_snd d c' (d_oa d ++ outs_of out) (sent_upd (d_snd d) c' op (d_sent d))).
Proof.
  intros O Hnp E L.
  pose proof (do_snd O) as Hi. pose proof (do_u8s O) as Hu8. unfold Dlive in *. cbn [with_snd d_snd d_rcv d_oa d_ob].
  destruct (cstep_inv _ op c' out E)
    as [op st _|ch m s s' Hd Hs Es|ch m s Hd Hs Hu|ch r r' mo Hd Hr Er|ch r r' mo Hd Hr Hu Er|dt ru1 sent1 Hru Hdl
       |c' bytes Hd Eg|b p c' _ _ _]; cbn [outs_of]; rewrite ?app_nil_r; try exact L.
  - rewrite outs_idle, app_nil_r. exact L.
  - eapply linv_send_rel; eauto.
  - destruct (flush_summary _ c' bytes Hi Hu8 Hd Eg) as (c1 & av & pk0 & pk & F).
    eapply linv_static; [exact (fl_static F)|]. apply (linv_oa _ (c_seq (d_snd d))); [rewrite (fl_seq F); lia|exact L].
  - discriminate Hnp.
Qed.

Lemma linv_recv_rel sr seqa rr acks dead recsb oa ob sent got ordf ch r r' mo :
  receiver_ok ordf rr sent got -> sm_find ch rr = Some r -> rr_receive r = Ok (r', mo) ->
  linv sr seqa rr acks dead recsb oa ob -> linv sr seqa (sm_insert ch r' rr) acks dead recsb oa ob.
Proof.
  intros Hrcv Hr E L. eapply linv_rr; eauto.
  specialize (Hrcv ch). rewrite Hr in Hrcv. destruct Hrcv as (o & _ & Hre).
  destruct (rr_refines_hcore _ _ _ _ Hre) as (outs & H & _).
  destruct (rr_receive_exec (log_get sent ch) r r' mo E) as (outs2 & E2 & _).
  destruct (RecvRelP.exec_inv (log_get sent ch) [RRecv] r outs r' (outs ++ outs2) false) as (_ & _ & Hle & _); auto.
  constructor; [exact I|constructor].
Qed.

Lemma Dlive_rcv ordf d op c' out :
  dir_ok ordf d -> is_process op = false -> cstep (d_rcv d) op = Ok (c', out) ->
  Dlive d -> Dlive (with_rcv d c' (d_ob d ++ outs_of out) (got_upd op out (d_got d)) (d_dlv d)).
Proof.
  destruct d as [cs c oa ob sent got dlv]. intros O Hnp E L.
  pose proof (do_rcv O) as Hi. pose proof (do_u8r O) as Hu8. pose proof (do_inv O) as D.
  unfold Dlive, Dinv in *. cbn [with_rcv d_snd d_rcv d_oa d_ob d_sent d_got d_dlv] in *.
  pose proof (di_receiver D) as Hrcv.
  pose proof (acks_below_seq D) as Hlt.
  pose proof (DisconnectP.cstep_dead_mono _ _ _ _ E) as Hdm.
  assert (Hdead : is_disconnected c' = false -> is_disconnected c = false).
  { intros H. destruct (is_disconnected c); [|reflexivity]. rewrite Hdm in H by reflexivity. discriminate. }
  destruct (cstep_inv c op c' out E)
    as [op st _|ch m s s' Hd Hs Es|ch m s Hd Hs Hu|ch r r' mo Hd Hr Er|ch r r' mo Hd Hr Hu Er|dt ru1 sent1 Hru Hdl
       |c' bytes Hd Eg|b p c' _ _ _]; cbn [outs_of]; rewrite ?app_nil_r; try exact L.
  - rewrite outs_idle, app_nil_r.
    eapply linv_sub; [| |exact L]; auto.
  - eapply linv_recv_rel; eauto.
  - eapply linv_sub; [| |exact L]; [auto|exact (drop_lost_sub c dt sent1 Hi Hdl)].
  - destruct (flush_summary c c' bytes Hi Hu8 Hd Eg) as (c1 & av & pk0 & pk & F).
    assert (Hd1 : is_disconnected c' = false) by (unfold is_disconnected in *; now rewrite (fl_status F)).
    pose proof (proj1 (Forall_forall _ _) (fl_emit F)) as Hem.
    rewrite Hd in L. rewrite (fl_rr F), (fl_acks F), Hd1. destruct L as [L1 L2 L3 L4]. constructor; auto.
    + intros b sq rs Hin Hp x Hx. apply in_app_or in Hin. destruct Hin as [Hin|Hin]; [exact (L2 b sq rs Hin Hp x Hx)|].
      destruct (fl_decoded F b _ Hin Hp) as [Hpk _]. destruct (Hem _ Hpk) as [-> _]. auto.
    + intros k t lg Hf. destruct (fl_old F _ _ Hf) as [Hold|(p0 & Hp0 & _ & Hv)]; [eauto|].
      injection Hv as _ Hinfo. destruct p0 as [| | | |sq rs]; cbn [pkt_info] in Hinfo; try discriminate.
      injection Hinfo as ->. destruct (Hem _ Hp0) as [-> Hwf]. cbn [packet_wf] in Hwf.
      destruct Hwf as (_ & Hne & Hwf & _).
      destruct (last (c_acks c) (0, 0)) as [a b] eqn:El. cbn [snd].
      destruct (AcksP.ranges_last_end_lo _ 0 a b Hwf Hne El) as (_ & _ & _ & _ & I5).
      apply Hlt. exact I5.
  - discriminate Hnp.
Qed.

Lemma linv_dead sr seqa rr acks acks' recsb oa ob :
  linv sr seqa rr acks false recsb oa ob -> linv sr seqa rr acks' true recsb oa ob.
Proof. intros L. eapply linv_sub; [| |exact L]; [discriminate|auto]. Qed.

(* the middle case is an unreliable packet, or an Ack packet, which only drops records and pending
   acknowledgements of the receiver's own sending *)
Lemma parsed_step_rr sent c p c' : conn_inv c -> parsed_step c p c' -> packet_wf p -> pkt_honest sent p ->
  (exists r, c' = set_status c (Disconnected r)) \/
  (pkt_rel_ch p = None /\ c_rr c' = c_rr c /\ c_status c' = c_status c /\
   (forall x, in_ranges x (c_acks c') -> in_ranges x (c_acks c)) /\
   (forall k v, sm_find k (c_sent c') = Some v -> sm_find k (c_sent c) = Some v)) \/
  (exists ch r r', pkt_rel_ch p = Some ch /\ sm_find ch (c_rr c) = Some r /\
     c' = with_rr c (sm_insert ch r' (c_rr c)) /\
     forall outs, rr_exec (log_get sent ch) r (pkt_evs p) outs = (r', outs, false)).
Proof.
  intros Hi [p0 r _|sq ch ms r r' Hr Ep|sq ch ms r Hr|sq ch sl r r' Hr Ep|sq ch sl r r' Hr Ep|sq rs l c2 El Ea];
    cbn [pkt_honest pkt_rel_ch pkt_evs]; intros Hwf Hhon.
  - left. eauto.
  - right. right. exists ch, r, r'. split; [reflexivity|]. split; [exact Hr|]. split; [reflexivity|].
    intros outs. now apply process_rel_msgs_exec.
  - right. left. repeat split; auto.
  - right. right. exists ch, r, r'. split; [reflexivity|]. split; [exact Hr|]. split; [reflexivity|].
    intros outs. now apply process_slice_exec.
  - right. left. repeat split; auto.
  - right. left. destruct (process_ack_spec c rs l c2 Hi (packet_wf_ack_ranges _ _ Hwf) El Ea) as (_ & Hsent & Hacks).
    pose proof (apply_acks_frame _ _ _ Ea) as F.
    exact (conj eq_refl (conj (af_rr F) (conj (af_status F) (conj Hacks Hsent)))).
Qed.

Lemma Dlive_fwd ordf d i bytes c' :
  dir_ok ordf d -> nth_error (d_oa d) i = Some bytes -> process_packet (d_rcv d) bytes = Ok c' ->
  Dlive d -> Dlive (with_rcv d c' (d_ob d) (d_got d) (if is_disconnected (d_rcv d) then d_dlv d else d_dlv d ++ [i])).
Proof.
  destruct d as [cs c oa ob sent got dlv]. intros O Hin E0 L.
  pose proof (do_rcv O) as Hi. pose proof (do_wfa O) as Hw. pose proof (do_inv O) as D.
  unfold Dlive, Dinv in *. cbn [with_rcv d_snd d_rcv d_oa d_ob d_sent d_got d_dlv] in *. apply nth_error_In in Hin.
  pose proof (di_out D) as Hout. pose proof (di_receiver D) as Hrcv.
  (* the new pending ack is justified once the packet's contents are in the receive channels *)
  assert (Hacked : forall p, from_bytes bytes = Ok p -> forall rr', pkt_done rr' p ->
            linv (c_sr cs) (c_seq cs) rr' (c_acks c) false (c_sent c) oa ob ->
            linv (c_sr cs) (c_seq cs) rr' (c_acks (note_seq c (packet_seq p))) false (c_sent c) oa ob).
  { intros p Hp rr' Hdone. apply linv_sub; [|auto]. intros _. split; [reflexivity|]. intros y Hy.
    unfold note_seq in Hy. cbn [with_acks c_acks] in Hy.
    apply (AcksP.add_pending_ack_sound _ _ _ (ci_acks_wf c Hi)) in Hy.
    destruct Hy as [->|Hy]; [right; exists bytes, p|]; auto. }
  destruct (process_packet_cases _ _ _ E0) as [(st & S & ->)|(p & Hd & Hp & PS)].
  { inversion S as [op Hd _|op _ Hs| |b0 e Hd He]; subst; [now rewrite set_status_same|discriminate Hs|].
    rewrite Hd in L. now apply linv_dead with (acks := c_acks c). }
  rewrite Hd in L. pose proof (Hw bytes p Hin Hp) as Hwf. pose proof (Hout bytes p Hin Hp) as Hhon.
  set (c1 := note_seq c (packet_seq p)) in *.
  destruct (parsed_step_rr sent c1 p c' (inv_note_seq c p Hi Hwf) PS Hwf Hhon)
    as [(r & ->)|[(Hch & Er & Est & Hacks & Hsent)|(ch & r & r' & Hch & Hr & -> & Hex)]].
  - change (is_disconnected (set_status c1 (Disconnected r))) with true.
    now apply linv_dead with (acks := c_acks c).
  - assert (Hd2 : is_disconnected c' = false) by (unfold is_disconnected in *; rewrite Est; exact Hd).
    rewrite Er, Hd2. eapply linv_sub; [| |apply (Hacked p Hp (c_rr c)); [|exact L]]; [|exact Hsent|].
    + intros _. split; [reflexivity|auto].
    + unfold pkt_done. now rewrite Hch.
  - change (linv (c_sr cs) (c_seq cs) (sm_insert ch r' (c_rr c)) (c_acks c1) (is_disconnected c) (c_sent c) oa ob).
    rewrite Hd.
    change (c_rr c1) with (c_rr c) in Hr.
    pose proof (pkt_evs_ok sent p ch Hhon Hch) as Hok.
    pose proof (Hrcv ch) as Hre. rewrite Hr in Hre. destruct Hre as (o & _ & Hre).
    destruct (rr_refines_hcore _ _ _ _ Hre) as (outs & H & _).
    destruct (RecvRelP.exec_inv (log_get sent ch) (pkt_evs p) r outs r' outs false Hok H (Hex outs))
      as (_ & _ & Hle & Hdn).
    apply (Hacked p Hp); [|eapply linv_rr; eauto]. unfold pkt_done. rewrite Hch.
    intros r0. rewrite sm_find_insert_same. intros [= <-]. exact Hdn.
Qed.

Definition info_done (rr : list (N * recv_rel)) (info : sent_info) : Prop :=
  match info with
  | SIReliableMessages ch ids => forall r, sm_find ch rr = Some r -> Forall (fun id => rr_seen r id = true) ids
  | SIReliableSlice ch id idx => forall r, sm_find ch rr = Some r -> ev_done r (RSlice id idx)
  | _ => True
  end.

Lemma pkt_done_info rr p : pkt_done rr p -> info_done rr (pkt_info p).
Proof.
  destruct p as [sq ch ms|sq ch ms|sq ch sl|sq ch sl|sq rs]; cbn [pkt_info info_done]; auto; unfold pkt_done;
    cbn [pkt_rel_ch pkt_evs]; intros H r Hr; specialize (H r Hr).
  - rewrite Forall_map in *. exact H.
  - now inversion H.
Qed.

Lemma linv_ack_step sr sr' now seqa rr acks dead recsb oa ob sent got ordf info :
  Forall (fun e : N * send_rel => sr_inv now (snd e)) sr ->
  sr_acked sr sr' info -> info_done rr info ->
  sender_ok sr sent -> receiver_ok ordf rr sent got ->
  linv sr seqa rr acks dead recsb oa ob -> linv sr' seqa rr acks dead recsb oa ob.
Proof.
  intros Hinv Hack Hdone Hso Hrcv [L1 L2 L3 L4]. constructor; auto.
  intros ch sa' r Hf' Hr. specialize (Hack ch). destruct (sm_find ch sr) as [s|] eqn:Es; [|congruence].
  destruct Hack as (s' & E' & Hnx & Hk). rewrite Hf' in E'. injection E' as <-.
  destruct (L3 ch s r Es Hr) as [A B]. destruct (Hso ch s Es) as [Hnext Hmsgs].
  pose proof (Forall_sm_find _ _ _ _ Hinv Es) as Hsi. cbn [snd] in Hsi.
  assert (Hnew : forall id idx, info = SIReliableSlice ch id idx -> ev_done r (RSlice id idx)).
  { intros id idx ->. cbn [info_done] in Hdone. auto. }
  split.
  - intros id Hid Hkn. destruct (Hk id) as (_ & K2 & _).
    destruct (kind_of s id) as [k|] eqn:Eks; [|apply A; [lia|exact Eks]].
    assert (Hrel : released_by s ch id info) by (apply K2; [discriminate|exact Hkn]).
    destruct info as [|c ids|c i0 idx|l]; cbn [released_by] in Hrel; try contradiction.
    + destruct Hrel as [-> Hin]. cbn [info_done] in Hdone. specialize (Hdone r Hr).
      rewrite Forall_forall in Hdone. auto.
    + destruct Hrel as (-> & -> & num & Hknum & Hall).
      unfold kind_of in Hknum. destruct (sm_find id (sr_unacked s)) as [[m0 l0|m0 num0 na nx ak ls]|] eqn:Eu; try discriminate.
      injection Hknum as ->. destruct (SendRelP.sr_inv_find _ _ _ _ Hsi Eu) as (_ & Hwf & _).
      destruct Hwf as (W1 & W2 & _). specialize (Hmsgs id _ Eu). cbn [unacked_msg] in Hmsgs.
      pose proof (Hrcv ch) as Hre. rewrite Hr in Hre. destruct Hre as (o & _ & Hre).
      destruct (rr_refines_hcore _ _ _ _ Hre) as (outs & H & _).
      apply (RecvRelP.all_slices_seen (log_get sent ch) r outs id m0 H Hmsgs W1).
      intros j Hj. destruct (N.eq_dec j idx) as [->|Hne]; [now apply Hnew|].
      apply B. apply Hall; [clear - Hj W2; lia|exact Hne].
  - intros id idx Hidx. destruct (Hk id) as (_ & _ & K3).
    destruct (K3 idx Hidx) as [Hold|Hn]; [now apply B|now apply Hnew].
Qed.

Lemma linv_apply_acks {seqa rr acks dead recsb oa ob sent got ordf dlv} : receiver_ok ordf rr sent got ->
  forall seqs c c', conn_inv c -> NoDup seqs -> Forall (fun s => sm_mem s (c_sent c) = true) seqs ->
  apply_acks c seqs = Ok c' ->
  Forall (fun s => forall t info, sm_find s (c_sent c) = Some (t, info) ->
                                  rec_delivered oa dlv sent info /\ info_done rr info) seqs ->
  sender_ok (c_sr c) sent -> release_ok (c_sr c) sent oa dlv ->
  linv (c_sr c) seqa rr acks dead recsb oa ob -> linv (c_sr c') seqa rr acks dead recsb oa ob.
Proof.
  intros Hrcv. refine (apply_acks_ok_ind (fun seqs c c' => _) _ _); [auto|].
  intros seq t c t0 info c1 c' Hi Hnotin Hf Ak _ _ Hack1 IH Hall D1 D6 L.
  inversion Hall as [|? ? Hseq Hall']; subst. destruct (Hseq t0 info Hf) as [Hdel Hdone].
  assert (Hsr : Forall (fun e : N * send_rel => sr_inv (c_now c) (snd e)) (c_sr c)).
  { eapply Forall_impl; [|exact (ci_sr c Hi)]. intros e [A _]. exact A. }
  destruct (ack_step_pres _ _ _ _ _ _ _ Hsr Hack1 Hdel D1 D6) as [D1' D6'].
  apply IH; auto.
  - rewrite Forall_forall in *. intros s Hs ts is Hfs. apply (Hall' s Hs ts is).
    rewrite (ack_step_sent _ _ _ _ Ak) in Hfs.
    exact (proj2 (sm_find_remove_some _ _ _ _ (ci_sent_sorted c Hi) Hfs)).
  - eapply linv_ack_step; eauto.
Qed.

Lemma Dlive_back ordf d i bytes c' :
  dir_ok ordf d -> nth_error (d_ob d) i = Some bytes -> process_packet (d_snd d) bytes = Ok c' ->
  Dlive d -> Dlive (with_snd d c' (d_oa d) (d_sent d)).
Proof.
  destruct d as [c cr oa ob sent got dlv]. intros O Hin E L.
  pose proof (do_snd O) as Hi. pose proof (do_wfb O) as Hwb. pose proof (do_inv O) as D.
  unfold Dlive, Dinv in *. cbn [with_snd d_snd d_rcv d_oa d_ob d_sent d_got d_dlv] in *. apply nth_error_In in Hin.
  destruct (process_packet_cases _ _ _ E) as [(st & _ & ->)|(p & _ & Hp & PS)]; [exact L|].
  pose proof (Hwb bytes p Hin Hp) as Hwf. pose proof (inv_note_seq c p Hi Hwf) as Hi1.
  inversion PS as [p0 r _| | | | |sq rs l c3 El Ea]; subst; try exact L.
  cbn [packet_seq] in *. set (c1 := note_seq c sq) in *.
    rewrite (af_seq (apply_acks_frame _ _ _ Ea)). change (c_seq c1) with (c_seq c).
    destruct (collect_new_acks_sent c1 rs l Hi1 (packet_wf_ack_ranges _ _ Hwf) El) as (Hnd & Hmem & Hl').
    assert (Hall : Forall (fun s => forall t info, sm_find s (c_sent c1) = Some (t, info) ->
                                     rec_delivered oa dlv sent info /\ info_done (c_rr cr) info) l).
    { rewrite Forall_forall. intros s Hs t info Hf. apply Hl' in Hs. destruct Hs as [_ Hrange]. split.
      - exact (acked_rec_delivered _ _ _ _ _ _ _ bytes sq rs s t info (di_acks D) (di_track D) (di_out D)
                 Hin Hp Hrange Hf).
      - destruct (li_ackpk _ _ _ _ _ _ _ _ L bytes sq rs Hin Hp s Hrange) as (b & p & Hb & Hpb & Hseq & Hdone).
        destruct (di_track D b p Hb Hpb) as [_ Hrec]. rewrite Hseq in Hrec.
        rewrite (Hrec t info Hf). now apply pkt_done_info. }
    change (c_sr c) with (c_sr c1) in L.
    exact (linv_apply_acks (di_receiver D) l c1 c' Hi1 Hnd Hmem Ea Hall (di_sender D) (di_release D) L).
Qed.

Lemma Dlive_step ordf d d' : dir_ok ordf d -> dstep d d' -> Dlive d -> Dlive d'.
Proof.
  intros O [|op c' out Hnp Ec|op c' out Hnp Ec|i bytes c' En Ep|i bytes c' En Ep] L.
  - exact L.
  - exact (Dlive_snd ordf d op c' out O Hnp Ec L).
  - exact (Dlive_rcv ordf d op c' out O Hnp Ec L).
  - exact (Dlive_fwd ordf d i bytes c' O En Ep L).
  - exact (Dlive_back ordf d i bytes c' O En Ep L).
Qed.

Definition resend_inv (cfg : list chan_config) (c : conn) : Prop :=
  forall ch s, sm_find ch (c_sr c) = Some s -> In (sr_resend s) (cfg_resends cfg).

Lemma resend_inv_keep cfg c c' : cfg_fixed c c' -> resend_inv cfg c -> resend_inv cfg c'.
Proof.
  intros (_ & _ & H) R ch s1 Hs1. specialize (H ch). destruct (sm_find ch (c_sr c)) as [s0|] eqn:Hs0; [|congruence].
  destruct H as (s1' & Hs1' & Er). rewrite Hs1 in Hs1'. injection Hs1' as <-. rewrite Er. eauto.
Qed.

Lemma build_send_resend cfgs : forall su sr ord su' sr' ord' (all : list N),
  build_send cfgs su sr ord = Ok (su', sr', ord') ->
  (forall ch s, sm_find ch sr = Some s -> In (sr_resend s) all) -> incl (cfg_resends cfgs) all ->
  forall ch s, sm_find ch sr' = Some s -> In (sr_resend s) all.
Proof.
  induction cfgs as [|cfg t IH]; intros su sr ord su' sr' ord' all E Hsr Hincl.
  - cbn [build_send] in E. injection E as _ <- _. exact Hsr.
  - replace (cfg_resends (cfg :: t)) with (match cc_rel cfg with Some rt => [rt] | None => [] end ++ cfg_resends t)
      in Hincl by (unfold cfg_resends, cc_rel; cbn [flat_map]; now destruct (cc_type cfg)).
    rewrite build_send_cons in E. destruct (cc_rel cfg) as [rt|].
    + destruct (sm_mem (cc_id cfg) sr); [discriminate|]. eapply IH; [exact E| |].
      * intros ch s. rewrite sm_find_insert. destruct (N.eqb_spec ch (cc_id cfg)); [|apply Hsr].
        intros [= <-]. apply Hincl. now left.
      * intros x Hx. apply Hincl. now right.
    + destruct (sm_mem (cc_id cfg) su); [discriminate|]. eapply IH; eauto.
Qed.

Lemma conn_new_resend budget scfg rcfg c : conn_new budget scfg rcfg = Ok c -> resend_inv scfg c.
Proof.
  intros E. apply conn_new_send in E. unfold resend_inv.
  eapply build_send_resend; [exact E| |apply incl_refl]. intros ch s [=].
Qed.

(* every configured reliable channel has its send channel *)
Definition chan_inv (cfg : list chan_config) (c : conn) : Prop :=
  forall ch, ordf_of cfg ch <> None -> sm_mem ch (c_sr c) = true.

Lemma chan_inv_keep cfg c c' : same_channels c c' -> chan_inv cfg c -> chan_inv cfg c'.
Proof. intros Hsc H ch Hch. destruct (Hsc ch) as (A & _). rewrite A. auto. Qed.

(* a configured reliable channel is listed in the send order (ConnP.conn_new_order), and the send
   order lists send channels only *)
Lemma conn_new_chans budget scfg rcfg c : conn_new budget scfg rcfg = Ok c -> chan_inv scfg c.
Proof.
  intros E ch Hch. destruct (conn_new_order_inv _ _ _ _ E) as (_ & Hr & _). apply Hr.
  destruct (conn_new_order _ _ _ _ E) as [-> _]. unfold ordf_of in Hch.
  destruct (find (fun c0 => (cc_id c0 =? ch) && is_rel_cfg c0) scfg) as [cfg|] eqn:Ef; [|congruence].
  apply find_some in Ef. destruct Ef as [Hin Hc]. apply andb_true_iff in Hc. destruct Hc as [Hid Hrel].
  apply N.eqb_eq in Hid. apply in_map_iff. exists cfg. split; [|exact Hin].
  unfold order_entry. unfold is_rel_cfg in Hrel. rewrite Hid. destruct (cc_type cfg); [discriminate|reflexivity..].
Qed.

Definition tick_inv (cfg_ab cfg_ba : list chan_config) (s : rsys) : Prop :=
  sys_inv cfg_ab cfg_ba s /\ live_inv s /\ order_inv (rb s) /\ resend_inv cfg_ab (ra s) /\ chan_inv cfg_ab (ra s).

Lemma tick_inv_conn cfg_ab cfg_ba s x : tick_inv cfg_ab cfg_ba s -> conn_inv (conn_of s x).
Proof. intros ((Hbase & _) & _). destruct Hbase. now destruct x. Qed.

Lemma tick_inv_step cfg_ab cfg_ba s o s' : tick_inv cfg_ab cfg_ba s -> sys_step s o = Ok s' -> tick_inv cfg_ab cfg_ba s'.
Proof.
  intros (Hs & (L & Hoa) & Hob & Hr & Hc) E. pose proof Hs as (Hb & _).
  pose proof (sys_step_cfg s o s' Hb E) as K. destruct (K SA) as [Ka Sa]. destruct (K SB) as [Kb Sb].
  split; [exact (sys_inv_step _ _ _ _ _ Hs E)|]. split; [split; [|exact (order_inv_keep _ _ Ka Sa Hoa)]|].
  - exact (Dlive_step _ _ _ (proj1 (proj1 (sys_inv_dirs _ _ _) Hs)) (proj1 (sys_step_dir s o s' E)) L).
  - split; [exact (order_inv_keep _ _ Kb Sb Hob)|].
    split; [exact (resend_inv_keep _ _ _ Ka Hr)|exact (chan_inv_keep _ _ _ Sa Hc)].
Qed.

Lemma tick_inv_run cfg_ab cfg_ba ops : forall s s',
  tick_inv cfg_ab cfg_ba s -> sys_run s ops = Ok s' -> tick_inv cfg_ab cfg_ba s'.
Proof. exact (steps_inv sys_step _ (tick_inv_step cfg_ab cfg_ba) ops). Qed.

Lemma tick_inv_init ba bb cfg_ab cfg_ba s0 :
  cfg_u8 cfg_ab -> cfg_u8 cfg_ba -> sys_init ba bb cfg_ab cfg_ba = Ok s0 -> tick_inv cfg_ab cfg_ba s0.
Proof.
  intros Hab Hba E. split; [exact (sys_init_inv ba bb cfg_ab cfg_ba s0 Hab Hba E)|].
  destruct (sys_init_ok _ _ _ _ _ E) as (a & b & Ea & Eb & ->). cbn [ra rb].
  split; [|split; [eapply conn_new_order_inv; eauto|split; [eapply conn_new_resend; eauto|eapply conn_new_chans; eauto]]].
  pose proof (conn_new_cf _ _ _ _ Ea Hab) as Fa. pose proof (conn_new_cf _ _ _ _ Eb Hba) as Fb.
  split; cbn [ra rb out_a out_b]; [|eapply conn_new_order_inv; eauto].
  rewrite (cf_acks Fb), (cf_sent Fb). constructor.
  - intros _ x [].
  - intros b0 sq rs [].
  - intros ch sa r Hs _. destruct (Forall_sm_find _ _ _ _ (cf_sr Fa) Hs) as [A B]. cbn [snd] in A, B. split.
    + intros id Hid. lia.
    + intros id idx. unfold slice_acked. rewrite B. discriminate.
  - intros k t lg [=].
Qed.

Theorem tick_inv_holds : forall ba bb cfg_ab cfg_ba s0 ops s,
  cfg_u8 cfg_ab -> cfg_u8 cfg_ba ->
  sys_init ba bb cfg_ab cfg_ba = Ok s0 -> sys_run s0 ops = Ok s -> tick_inv cfg_ab cfg_ba s.
Proof.
  intros ba bb cfg_ab cfg_ba s0 ops s Hab Hba Hinit Hrun.
  exact (tick_inv_run cfg_ab cfg_ba ops s0 s (tick_inv_init ba bb cfg_ab cfg_ba s0 Hab Hba Hinit) Hrun).
Qed.

(* the liveness invariant holds after every run, whatever the network and the applications do *)
Theorem live_inv_holds : forall ba bb cfg_ab cfg_ba s0 ops s,
  cfg_u8 cfg_ab -> cfg_u8 cfg_ba ->
  sys_init ba bb cfg_ab cfg_ba = Ok s0 -> sys_run s0 ops = Ok s -> live_inv s.
Proof.
  intros ba bb cfg_ab cfg_ba s0 ops s Hab Hba Hinit Hrun.
  now destruct (tick_inv_holds ba bb cfg_ab cfg_ba s0 ops s Hab Hba Hinit Hrun) as (_ & L & _).
Qed.

Print Assumptions tick_inv_holds.

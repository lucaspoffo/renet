(* NServerP.v - theorems about the renetcode server model (Netcode/NServer.v):
   no panic, the connection table invariant, slot bound, connect / disconnect events,
   full server, no amplification, time-outs, sequence discipline.
   One call is described in two ways.  By equations (hr_body; conn_step, pend_step, resp_step, unknown_step
   with ppi_connected / ppi_pending / ppi_unknown; update_client_found, update_client_absent): the state a given
   datagram, or a given id, leads to, for theorems that start from the call.  By the relation nsmove: the kinds of
   move a call can make on the slots and the pending list.  Every call returns, and what it did is a move
   (nsstep_spec, the one analysis of the four functions): nsstep_total is why nothing panics, nsstep_move /
   process_step the inversion principle for theorems that start from an outcome; slot_change, pending_from,
   seals and result_ok (what the outcome says about the connected ids, the form GlueP reads) are views of it. *)
From RenetV Require Import Base Consts Aead NPacket Token NServer.
From RenetV Require Import Spec.NetSpec.
From RenetV Require Import Proofs.AeadP Proofs.ReplayP Proofs.NPacketP Proofs.TokenP Proofs.NSlotsP Proofs.NCodecP Proofs.RunP.
Require Import Lia ZifyBool ZifyN ZifyNat.
Open Scope N_scope.

(* projections of the record setters, without touching anything else *)
Ltac nsimpl :=
  cbn [ns_clients ns_pending ns_entries ns_protocol ns_connect_key ns_max ns_chal_seq ns_chal_key ns_addrs
       ns_now ns_global_seq ns_secure set_clients set_pending set_entries set_seqs set_now set_max set_slot
       nc_confirmed nc_id nc_send_key nc_recv_key nc_user nc_addr nc_last_recv nc_last_send nc_timeout nc_seq
       nc_expire nc_replay nc_chal_floor nc_with_replay nc_received nc_sent].
Ltac nsimpl_in H :=
  cbn [ns_clients ns_pending ns_entries ns_protocol ns_connect_key ns_max ns_chal_seq ns_chal_key ns_addrs
       ns_now ns_global_seq ns_secure set_clients set_pending set_entries set_seqs set_now set_max set_slot
       nc_confirmed nc_id nc_send_key nc_recv_key nc_user nc_addr nc_last_recv nc_last_send nc_timeout nc_seq
       nc_expire nc_replay nc_chal_floor nc_with_replay nc_received nc_sent] in H.

Lemma set_entries_id s : set_entries s (ns_entries s) = s.
Proof. destruct s; reflexivity. Qed.

Lemma set_slot_twice s i x y : set_slot (set_slot s i x) i y = set_slot s i y.
Proof. unfold set_slot, set_clients. nsimpl. rewrite upd_upd. reflexivity. Qed.

(* table_inv as a property of the list of connected entries and the pending list (table_inv_tbl) *)
Definition tbl (cs : list nconn) (p : list (addr * nconn)) : Prop :=
  NoDup (map nc_id cs) /\ NoDup (map nc_addr cs) /\ NoDup (map fst p) /\
  (forall a c, In (a, c) p -> nc_addr c = a /\ ~ In a (map nc_addr cs)) /\
  Forall (fun c => rp_wf (nc_replay c)) cs /\
  Forall (fun ac => rp_wf (nc_replay (snd ac))) p.

Lemma find_by_addr_none_iff s a : find_by_addr s a = None <-> ~ In a (map nc_addr (connected s)).
Proof.
  unfold find_by_addr, connected. rewrite find_slot_by_none. split.
  - intros H Hin. apply in_map_iff in Hin. destruct Hin as [c [<- Hc]].
    specialize (H _ Hc). rewrite addr_eqb_refl in H. discriminate.
  - intros H c Hc. apply addr_eqb_neq. intros <-. apply H. apply in_map. exact Hc.
Qed.

Lemma find_by_id_none_iff s id : find_by_id s id = None <-> ~ In id (map nc_id (connected s)).
Proof.
  unfold find_by_id, connected. rewrite find_slot_by_none. split.
  - intros H Hin. apply in_map_iff in Hin. destruct Hin as [c [<- Hc]].
    specialize (H _ Hc). rewrite N.eqb_refl in H. discriminate.
  - intros H c Hc. apply N.eqb_neq. intros <-. apply H. apply in_map. exact Hc.
Qed.

Lemma table_inv_tbl s : table_inv s <-> tbl (connected s) (ns_pending s).
Proof.
  unfold table_inv, tbl. rewrite (distinct_by_NoDup _ N.eqb_eq), !(distinct_by_NoDup _ addr_eqb_eq).
  split; intros (H1 & H2 & H3 & H4 & H5 & H6); repeat split; auto.
  - apply (H4 _ _ H).
  - apply find_by_addr_none_iff. apply (H4 _ _ H).
  - apply (H4 _ _ H).
  - apply find_by_addr_none_iff. apply (H4 _ _ H).
Qed.

Lemma tbl_replace l1 c c' l2 p :
  tbl (l1 ++ c :: l2) p -> nc_id c' = nc_id c -> nc_addr c' = nc_addr c -> rp_wf (nc_replay c') ->
  tbl (l1 ++ c' :: l2) p.
Proof.
  intros (H1 & H2 & H3 & H4 & H5 & H6) Ei Ea W. unfold tbl.
  rewrite !map_app in *. cbn [map] in *. rewrite Ei, Ea. repeat split; auto.
  - apply (H4 _ _ H).
  - apply (H4 _ _ H).
  - apply Forall_app in H5. destruct H5 as [F1 F2]. inversion F2; subst.
    apply Forall_app. split; [auto|]. constructor; auto.
Qed.

Lemma tbl_remove l1 c l2 p : tbl (l1 ++ c :: l2) p -> tbl (l1 ++ l2) p.
Proof.
  intros (H1 & H2 & H3 & H4 & H5 & H6). unfold tbl.
  rewrite !map_app in *. cbn [map] in *. repeat split; auto.
  - apply NoDup_remove_1 in H1. exact H1.
  - apply NoDup_remove_1 in H2. exact H2.
  - apply (H4 _ _ H).
  - destruct (H4 _ _ H) as [_ Hn]. intros Hin. apply Hn.
    apply in_app_or in Hin. apply in_or_app. destruct Hin; [left|right; right]; assumption.
  - apply Forall_app in H5. destruct H5 as [F1 F2]. inversion F2; subst.
    apply Forall_app. split; auto.
Qed.

Lemma tbl_insert l1 c l2 p :
  tbl (l1 ++ l2) p ->
  ~ In (nc_id c) (map nc_id (l1 ++ l2)) -> ~ In (nc_addr c) (map nc_addr (l1 ++ l2)) ->
  ~ In (nc_addr c) (map fst p) -> rp_wf (nc_replay c) ->
  tbl (l1 ++ c :: l2) p.
Proof.
  intros (H1 & H2 & H3 & H4 & H5 & H6) Ni Na Np W. unfold tbl.
  rewrite !map_app in *. cbn [map] in *. repeat split; auto.
  - apply NoDup_insert; assumption.
  - apply NoDup_insert; assumption.
  - apply (H4 _ _ H).
  - destruct (H4 _ _ H) as [_ Hn]. intros Hin.
    apply in_app_or in Hin. destruct Hin as [Hin|[Hin|Hin]].
    + apply Hn. apply in_or_app. left. exact Hin.
    + subst a. apply Np. apply in_map_iff. exists (nc_addr c, c0). split; [reflexivity | exact H].
    + apply Hn. apply in_or_app. right. exact Hin.
  - apply Forall_app in H5. destruct H5 as [F1 F2].
    apply Forall_app. split; [auto|]. constructor; auto.
Qed.

Lemma tbl_pending cs p p' :
  tbl cs p -> NoDup (map fst p') ->
  (forall a c, In (a, c) p' -> In (a, c) p \/ (nc_addr c = a /\ ~ In a (map nc_addr cs) /\ rp_wf (nc_replay c))) ->
  tbl cs p'.
Proof.
  intros (H1 & H2 & H3 & H4 & H5 & H6) Hd Hin. unfold tbl. repeat split; auto.
  - destruct (Hin _ _ H) as [Ho|[Hn _]]; [apply (H4 _ _ Ho) | exact Hn].
  - destruct (Hin _ _ H) as [Ho|[_ [Hn _]]]; [apply (H4 _ _ Ho) | exact Hn].
  - apply Forall_forall. intros [a c] Hx. cbn [snd].
    destruct (Hin _ _ Hx) as [Ho|[_ [_ W]]]; [|exact W].
    rewrite Forall_forall in H6. apply (H6 _ Ho).
Qed.

Lemma tbl_pend_put cs p a c :
  tbl cs p -> nc_addr c = a -> ~ In a (map nc_addr cs) -> rp_wf (nc_replay c) -> tbl cs (pend_put a c p).
Proof.
  intros T Ha Hn W. pose proof T as (_ & _ & Hd & _).
  destruct (pend_find a p) as [old|] eqn:E.
  - apply (tbl_pending cs p); [exact T | rewrite (pend_put_found_keys _ _ _ _ E); exact Hd |].
    intros a' c' Hin. destruct (pend_put_found_In _ _ _ _ _ E Hin) as [Hx|[Hx _]].
    + injection Hx as -> ->. right. auto.
    + left. exact Hx.
  - rewrite (pend_put_new _ _ _ E).
    apply (tbl_pending cs p); [exact T | |].
    + rewrite map_app. cbn [map fst]. apply NoDup_snoc; [exact Hd|]. apply pend_find_none. exact E.
    + intros a' c' Hin. apply in_app_or in Hin. destruct Hin as [Hin|[Hx|[]]].
      * left. exact Hin.
      * injection Hx as <- <-. right. auto.
Qed.

Lemma tbl_pend_remove cs p a : tbl cs p -> tbl cs (pend_remove a p).
Proof.
  intros T. pose proof T as (_ & _ & Hd & _).
  apply (tbl_pending cs p); [exact T | apply pend_remove_keys; exact Hd |].
  intros a' c' Hin. left. apply (pend_remove_In _ _ _ Hin).
Qed.

Lemma tbl_pend_filter cs p f : tbl cs p -> tbl cs (filter f p).
Proof.
  intros T. pose proof T as (_ & _ & Hd & _).
  apply (tbl_pending cs p); [exact T | apply NoDup_map_filter; exact Hd |].
  intros a' c' Hin. left. apply filter_In in Hin. tauto.
Qed.

Lemma tbl_pending_wf cs p a c : tbl cs p -> In (a, c) p -> nc_addr c = a /\ rp_wf (nc_replay c).
Proof.
  intros (_ & _ & _ & H4 & _ & H6) Hin. split; [apply (H4 _ _ Hin)|].
  rewrite Forall_forall in H6. apply (H6 _ Hin).
Qed.

Lemma tbl_connected_wf l1 c l2 p : tbl (l1 ++ c :: l2) p -> rp_wf (nc_replay c).
Proof.
  intros (_ & _ & _ & _ & H5 & _). rewrite Forall_forall in H5. apply H5.
  apply in_or_app. right. left. reflexivity.
Qed.

Lemma lookup_split f s slot c :
  find_slot_by f (ns_clients s) 0 = Some (slot, c) ->
  exists l1 l2, ns_clients s = l1 ++ Some c :: l2 /\ N.to_nat slot = length l1 /\ f c = true /\
    (forall c', In c' (some_list l1) -> f c' = false) /\
    (forall x, ns_clients (set_slot s slot x) = l1 ++ x :: l2).
Proof.
  intros H. apply find_slot_by_some in H. destruct H as [l1 [l2 [E1 [E2 [E3 E4]]]]].
  exists l1, l2. assert (N.to_nat slot = length l1) by (subst slot; unfold len; lia).
  repeat split; auto. intros x. unfold set_slot. nsimpl. rewrite E1, H. apply upd_app_mid.
Qed.

Lemma set_clients_id s : set_clients s (ns_clients s) = s.
Proof. destruct s; reflexivity. Qed.

Lemma set_slot_same f s slot c :
  find_slot_by f (ns_clients s) 0 = Some (slot, c) -> set_slot s slot (Some c) = s.
Proof.
  intros H. destruct (lookup_split _ _ _ _ H) as [l1 [l2 [E1 [_ [_ [_ E5]]]]]].
  change (set_slot s slot (Some c)) with (set_clients s (ns_clients (set_slot s slot (Some c)))).
  rewrite E5, <- E1. apply set_clients_id.
Qed.

Lemma free_split s idx :
  first_free (ns_clients s) 0 = Some idx ->
  exists l1 l2, ns_clients s = l1 ++ None :: l2 /\ N.to_nat idx = length l1 /\
    (forall x, ns_clients (set_slot s idx x) = l1 ++ x :: l2).
Proof.
  intros H. apply first_free_some in H. destruct H as [l1 [l2 [E1 E2]]].
  exists l1, l2. assert (N.to_nat idx = length l1) by (subst idx; unfold len; lia).
  repeat split; auto. intros x. unfold set_slot. nsimpl. rewrite E1, H. apply upd_app_mid.
Qed.

Lemma connected_split l1 (x : option nconn) l2 :
  some_list (l1 ++ x :: l2) = some_list l1 ++ match x with Some c => c :: some_list l2 | None => some_list l2 end.
Proof. rewrite some_list_app. destruct x; reflexivity. Qed.

Lemma lookup_connected f s slot c :
  find_slot_by f (ns_clients s) 0 = Some (slot, c) ->
  exists cs1 cs2, connected s = cs1 ++ c :: cs2 /\
    forall x, connected (set_slot s slot x) = cs1 ++ match x with Some c' => c' :: cs2 | None => cs2 end.
Proof.
  intros H. destruct (lookup_split _ _ _ _ H) as (l1 & l2 & E1 & _ & _ & _ & E5).
  exists (some_list l1), (some_list l2). unfold connected.
  split; [rewrite E1; apply (connected_split l1 (Some c)) | intros x; rewrite E5; apply connected_split].
Qed.

(* the entry handle_request makes for a new address *)
Definition fresh_conn (t : private_token) (a : addr) (now expire cseq : N) : nconn :=
  {| nc_confirmed := false; nc_id := pt_client_id t; nc_send_key := pt_s2c t;
     nc_recv_key := pt_c2s t; nc_user := pt_user t; nc_addr := a;
     nc_last_recv := now; nc_last_send := now; nc_timeout := pt_timeout t;
     nc_seq := 0; nc_expire := expire; nc_replay := replay_new; nc_chal_floor := cseq |}.

(* ... and for an address that is already pending: only the two clocks are reset *)
Definition refresh_conn (old : nconn) (now : N) : nconn :=
  {| nc_confirmed := nc_confirmed old; nc_id := nc_id old; nc_send_key := nc_send_key old;
     nc_recv_key := nc_recv_key old; nc_user := nc_user old; nc_addr := nc_addr old;
     nc_last_recv := now; nc_last_send := now; nc_timeout := nc_timeout old;
     nc_seq := nc_seq old; nc_expire := nc_expire old; nc_replay := nc_replay old;
     nc_chal_floor := nc_chal_floor old |}.

Definition pending_entry (s : nserver) (a : addr) (t : private_token) (expire cseq : N) : nconn :=
  match pend_find a (ns_pending s) with
  | Some old => refresh_conn old (ns_now s)
  | None => fresh_conn t a (ns_now s) expire cseq
  end.

Definition hr_body (s : nserver) (a : addr) (expire : N) (data : list N) (t : private_token) : nserver * nres sresult :=
  match find_by_addr s a, find_by_id s (pt_client_id t) with
  | None, None =>
      let is_pending := match pend_find a (ns_pending s) with Some _ => true | None => false end in
      if negb is_pending && (NC_MAX_CLIENTS * NC_MAX_PENDING_FACTOR <=? len (ns_pending s)) then (s, Ok SRNone) else
      let mac := dropN (NC_PRIVATE_BYTES - NC_MAC_BYTES) data in
      let (es, allowed) := find_or_add_entry (ns_entries s) {| te_time := ns_now s; te_addr := a; te_mac := mac |} in
      let s1 := set_entries s es in
      if negb allowed then (s1, Ok SRNone) else
      if ns_max s1 <=? connected_count s1 then
        let s2 := set_pending s1 (pend_remove a (ns_pending s1)) in
        match encode OUT_CAP PDenied (ns_protocol s2) (Some (ns_global_seq s2, pt_s2c t)) with
        | Ok out => (set_seqs s2 (ns_global_seq s2 + 1) (ns_chal_seq s2), Ok (SRPacketToSend a out))
        | Err e => (s2, Err e)
        | Panic p => (s2, Panic p)
        end
      else
        let cseq := ns_chal_seq s1 + 1 in
        let chal := generate_challenge (pt_client_id t) (pt_user t) cseq (ns_chal_key s1) in
        let s2 := set_seqs s1 (ns_global_seq s1) cseq in
        match encode OUT_CAP chal (ns_protocol s2) (Some (ns_global_seq s2, pt_s2c t)) with
        | Ok out =>
            let s3 := set_seqs s2 (ns_global_seq s2 + 1) cseq in
            (set_pending s3 (pend_put a (pending_entry s a t expire cseq) (ns_pending s3)), Ok (SRPacketToSend a out))
        | Err e => (s2, Err e)
        | Panic p => (s2, Panic p)
        end
  | _, _ => (s, Ok SRNone)
  end.

Lemma handle_request_cases s a v pr ex xn data :
  (exists e, handle_request s a v pr ex xn data = (s, Err e) /\ forall t, ~ request_checks s v pr ex xn data t) \/
  (exists t, request_checks s v pr ex xn data t /\ handle_request s a v pr ex xn data = hr_body s a ex data t).
Proof.
  unfold handle_request, request_checks.
  destruct (bytes_eqb v NC_VERSION_INFO) eqn:Ev; cbn [negb].
  2:{ left. eexists. split; [reflexivity|]. intros t (Hv & _). apply bytes_eqb_eq in Hv. congruence. }
  apply bytes_eqb_eq in Ev.
  destruct (pr =? ns_protocol s) eqn:Ep; cbn [negb].
  2:{ left. eexists. split; [reflexivity|]. intros t (_ & Hp & _). lia. }
  destruct (ex <=? as_secs (ns_now s)) eqn:Ee.
  { left. eexists. split; [reflexivity|]. intros t (_ & _ & He & _). lia. }
  destruct (private_decode data (ns_protocol s) ex xn (ns_connect_key s)) as [t|e|site] eqn:Ept.
  2:{ left. eexists. split; [reflexivity|]. intros t (_ & _ & _ & Hd & _). discriminate. }
  2:{ exfalso. apply (NCodecP.private_decode_no_panic _ _ _ _ _ _ Ept). }
  destruct (ns_secure s && negb (in_host_list s t)) eqn:Eh.
  { left. eexists. split; [reflexivity|]. intros t' (_ & _ & _ & Hd & Hh). injection Hd as <-.
    apply andb_true_iff in Eh. destruct Eh as [E1 E2]. rewrite (Hh E1) in E2. discriminate. }
  right. exists t. split.
  - repeat split; auto; lia.
  - unfold hr_body, pending_entry, fresh_conn, refresh_conn. reflexivity.
Qed.

Lemma request_validates_iff s buf t ex :
  request_validates s buf t ex <->
  exists v pr xn data, snd (decode buf (ns_protocol s) None None) = Ok (0, PRequest v pr ex xn data) /\
                       request_checks s v pr ex xn data t.
Proof.
  unfold request_validates, request_checks. split; intros (v & pr & xn & data & H); exists v, pr, xn, data; tauto.
Qed.

(* the connected entry a valid response makes of the pending entry pc *)
Definition promote (pc : nconn) (cuser : list N) (now : N) : nconn :=
  {| nc_confirmed := nc_confirmed pc; nc_id := nc_id pc; nc_send_key := nc_send_key pc;
     nc_recv_key := nc_recv_key pc; nc_user := cuser; nc_addr := nc_addr pc;
     nc_last_recv := now; nc_last_send := now; nc_timeout := nc_timeout pc;
     nc_seq := nc_seq pc + 1; nc_expire := nc_expire pc; nc_replay := nc_replay pc;
     nc_chal_floor := nc_chal_floor pc |}.

(* the least lengths of a datagram that decodes to a request, to a response (NCodecP.decode_request_len,
   decode_response_len) *)
Definition REQUEST_MIN : N := 1 + (13 + 8 + 8 + NC_XNONCE_BYTES + NC_PRIVATE_BYTES).
Definition RESPONSE_MIN : N := 1 + (8 + NC_CHALLENGE_BYTES) + NC_MAC_BYTES.

Lemma reply_lt_request : 1 + 8 + (8 + NC_CHALLENGE_BYTES) + NC_MAC_BYTES < REQUEST_MIN.
Proof. unfold REQUEST_MIN. rewrite request_min_val, challenge_bytes_val, mac_bytes_val. lia. Qed.

Lemma keepalive_lt_response : 1 + 8 + 8 + NC_MAC_BYTES < RESPONSE_MIN.
Proof. unfold RESPONSE_MIN. rewrite challenge_bytes_val, mac_bytes_val. lia. Qed.

Definition window_step (r : replay) (buf : list N) (r' : replay) : Prop :=
  r' = r \/ (r' = advance_sequence r (dgram_seq buf) /\ already_received r (dgram_seq buf) = false).

Lemma window_step_wf r buf r' : window_step r buf r' -> rp_wf r -> rp_wf r'.
Proof. intros [->|[-> _]] W; [exact W | apply advance_wf; exact W]. Qed.

Lemma decode_window_step buf proto k r rp dr :
  decode buf proto (Some k) (Some r) = (rp, dr) -> window_step r buf (opt_replay rp r).
Proof.
  destruct (decode_spec buf proto (Some k) (Some r)) as [_|e _ _|k' plain _ _ Hd]; intros H; injection H as <- _.
  - left. reflexivity.
  - left. reflexivity.
  - cbn [rp_after rp_dup opt_replay] in *.
    destruct (applies_replay (dgram_type buf)); [right; split; [reflexivity | exact Hd] | left; reflexivity].
Qed.

Lemma set_pending_id s : set_pending s (ns_pending s) = s.
Proof. destruct s; reflexivity. Qed.

Lemma nc_with_replay_id c : nc_with_replay c (nc_replay c) = c.
Proof. destruct c; reflexivity. Qed.

Lemma table_inv_pending_nodup s : table_inv s -> NoDup (map fst (ns_pending s)).
Proof. intros T. apply table_inv_tbl in T. apply T. Qed.

Lemma pending_put_back s a pc :
  table_inv s -> pend_find a (ns_pending s) = Some pc ->
  set_pending s (pend_put a (nc_with_replay pc (nc_replay pc)) (ns_pending s)) = s.
Proof.
  intros T Hf. rewrite nc_with_replay_id, (pend_put_same _ _ _ (table_inv_pending_nodup _ T) Hf).
  apply set_pending_id.
Qed.

(* process_packet_internal as three steps, one for each kind of sender, applied to what decode returns *)
Definition conn_step (s : nserver) (a : addr) (slot : N) (c : nconn) (rp : option replay) (dr : nres (N * npacket))
  : nserver * nres sresult :=
  let c1 := nc_with_replay c (opt_replay rp (nc_replay c)) in
  let s1 := set_slot s slot (Some c1) in
  match dr with
  | Err e => (s1, Err e)
  | Panic p => (s1, Panic p)
  | Ok (_, pkt) =>
      match pkt with
      | PDisconnect => (set_slot s1 slot None, Ok (SRDisconnected (nc_id c1) a None))
      | PPayload p => (set_slot s1 slot (Some (nc_received c1 (ns_now s1))), Ok (SRPayload (nc_id c1) p))
      | PKeepAlive _ _ => (set_slot s1 slot (Some (nc_received c1 (ns_now s1))), Ok SRNone)
      | _ => (s1, Ok SRNone)
      end
  end.

Definition resp_step (s1 : nserver) (a : addr) (pc1 : nconn) (tseq : N) (tdata : list N) : nserver * nres sresult :=
  match challenge_decode tdata tseq (ns_chal_key s1) with
  | Err e => (s1, Err e)
  | Panic p => (s1, Panic p)
  | Ok (cid, cuser) =>
      if tseq <? nc_chal_floor pc1 then (s1, Ok SRNone) else
      if negb (cid =? nc_id pc1) || negb (bytes_eqb cuser (nc_user pc1)) then (s1, Ok SRNone) else
      let s2 := set_pending s1 (pend_remove a (ns_pending s1)) in
      match find_by_id s2 cid with
      | Some _ => (s2, Ok SRNone)
      | None =>
          match first_free (ns_clients s2) 0 with
          | None =>
              match encode OUT_CAP PDenied (ns_protocol s2) (Some (ns_global_seq s2, nc_send_key pc1)) with
              | Ok out => (set_seqs s2 (ns_global_seq s2 + 1) (ns_chal_seq s2), Ok (SRPacketToSend a out))
              | Err e => (s2, Err e)
              | Panic p => (s2, Panic p)
              end
          | Some idx =>
              match encode OUT_CAP (PKeepAlive idx (ns_max s2)) (ns_protocol s2) (Some (nc_seq pc1, nc_send_key pc1)) with
              | Ok out =>
                  (set_slot s2 idx (Some (promote pc1 cuser (ns_now s2))), Ok (SRConnected (nc_id pc1) a cuser out))
              | Err e => (s2, Err e)
              | Panic p => (s2, Panic p)
              end
          end
      end
  end.

Definition pend_step (s : nserver) (a : addr) (pc : nconn) (rp : option replay) (dr : nres (N * npacket))
  : nserver * nres sresult :=
  let pc1 := nc_with_replay pc (opt_replay rp (nc_replay pc)) in
  let s1 := set_pending s (pend_put a pc1 (ns_pending s)) in
  match dr with
  | Err e => (s1, Err e)
  | Panic p => (s1, Panic p)
  | Ok (_, pkt) =>
      match pkt with
      | PRequest v protocol expire xn data => handle_request s1 a v protocol expire xn data
      | PResponse tseq tdata => resp_step s1 a pc1 tseq tdata
      | _ => (s1, Ok SRNone)
      end
  end.

Definition unknown_step (s : nserver) (a : addr) (dr : nres (N * npacket)) : nserver * nres sresult :=
  match dr with
  | Err e => (s, Err e)
  | Panic p => (s, Panic p)
  | Ok (_, PRequest v protocol expire xn data) => handle_request s a v protocol expire xn data
  | Ok _ => (s, Panic SITE_N_UNREACHABLE)
  end.

Lemma ppi_short s a buf :
  len buf < 2 + NC_MAC_BYTES -> process_packet_internal s a buf = (s, Err EPacketTooSmall).
Proof.
  intros H. unfold process_packet_internal.
  destruct (len buf <? 2 + NC_MAC_BYTES) eqn:E; [reflexivity | lia].
Qed.

(* The length test that process_packet_internal makes first is the first test of decode as well, and
   a decode that fails on it leaves the entry of the address as it is: the equations ppi_connected and
   ppi_pending hold for a datagram of any length. *)
Lemma ppi_pending_long s a buf pc :
  2 + NC_MAC_BYTES <= len buf -> find_by_addr s a = None -> pend_find a (ns_pending s) = Some pc ->
  process_packet_internal s a buf =
  pend_step s a pc (fst (decode buf (ns_protocol s) (Some (nc_recv_key pc)) (Some (nc_replay pc))))
                   (snd (decode buf (ns_protocol s) (Some (nc_recv_key pc)) (Some (nc_replay pc)))).
Proof.
  intros Hl Ea Ep. apply N.ltb_ge in Hl. unfold process_packet_internal. rewrite Hl, Ea, Ep.
  destruct (decode buf (ns_protocol s) (Some (nc_recv_key pc)) (Some (nc_replay pc))) as [rp dr]. reflexivity.
Qed.

Lemma ppi_connected s a buf slot c :
  find_by_addr s a = Some (slot, c) ->
  process_packet_internal s a buf =
  conn_step s a slot c (fst (decode buf (ns_protocol s) (Some (nc_recv_key c)) (Some (nc_replay c))))
                       (snd (decode buf (ns_protocol s) (Some (nc_recv_key c)) (Some (nc_replay c)))).
Proof.
  intros Ea. destruct (N.lt_ge_cases (len buf) (2 + NC_MAC_BYTES)) as [Hl|Hl].
  - rewrite (ppi_short _ _ _ Hl), (decode_short _ _ _ _ Hl). cbn [fst snd conn_step opt_replay].
    rewrite nc_with_replay_id, (set_slot_same _ _ _ _ Ea). reflexivity.
  - apply N.ltb_ge in Hl. unfold process_packet_internal. rewrite Hl, Ea.
    destruct (decode buf (ns_protocol s) (Some (nc_recv_key c)) (Some (nc_replay c))) as [rp dr]. reflexivity.
Qed.

Lemma ppi_pending s a buf pc :
  table_inv s -> find_by_addr s a = None -> pend_find a (ns_pending s) = Some pc ->
  process_packet_internal s a buf =
  pend_step s a pc (fst (decode buf (ns_protocol s) (Some (nc_recv_key pc)) (Some (nc_replay pc))))
                   (snd (decode buf (ns_protocol s) (Some (nc_recv_key pc)) (Some (nc_replay pc)))).
Proof.
  intros T Ea Ep. destruct (N.lt_ge_cases (len buf) (2 + NC_MAC_BYTES)) as [Hl|Hl]; [|apply (ppi_pending_long _ _ _ _ Hl Ea Ep)].
  rewrite (ppi_short _ _ _ Hl), (decode_short _ _ _ _ Hl). cbn [fst snd pend_step opt_replay].
  rewrite (pending_put_back _ _ _ T Ep). reflexivity.
Qed.

Lemma ppi_unknown s a buf :
  find_by_addr s a = None -> pend_find a (ns_pending s) = None ->
  process_packet_internal s a buf = unknown_step s a (snd (decode buf (ns_protocol s) None None)).
Proof.
  intros Ea Ep. destruct (N.lt_ge_cases (len buf) (2 + NC_MAC_BYTES)) as [Hl|Hl].
  - rewrite (ppi_short _ _ _ Hl), (decode_short _ _ _ _ Hl). reflexivity.
  - apply N.ltb_ge in Hl. unfold process_packet_internal. rewrite Hl, Ea, Ep.
    destruct (decode buf (ns_protocol s) None None) as [rp dr]. cbn [snd].
    destruct dr as [[q pkt]|e|site]; [destruct pkt|..]; reflexivity.
Qed.

(* process_packet in terms of the internal function: errors are swallowed *)
Definition res_of (r0 : nres sresult) : sresult := match r0 with Ok r => r | _ => SRNone end.

(* the time-out test of update_client *)
Definition timed_out (s : nserver) (c : nconn) : bool :=
  (0 <? nc_timeout c)%Z && (nc_last_recv c + Z.to_N (nc_timeout c) * NS_PER_SEC <? ns_now s).

(* credentials: what a connection keeps from the token it was made of *)
Definition same_cred (c c' : nconn) : Prop :=
  nc_id c' = nc_id c /\ nc_user c' = nc_user c /\ nc_recv_key c' = nc_recv_key c /\ nc_send_key c' = nc_send_key c /\
  nc_expire c' = nc_expire c /\ nc_addr c' = nc_addr c /\ nc_timeout c' = nc_timeout c.

Lemma same_cred_refl c : same_cred c c.
Proof. unfold same_cred. tauto. Qed.

Lemma same_cred_trans c1 c2 c3 : same_cred c1 c2 -> same_cred c2 c3 -> same_cred c1 c3.
Proof. unfold same_cred. intuition congruence. Qed.

Lemma same_cred_token c c' a t ex : same_cred c c' -> conn_of_token c a t ex -> conn_of_token c' a t ex.
Proof. unfold same_cred, conn_of_token. intros (-> & -> & -> & -> & -> & -> & ->). tauto. Qed.

Lemma same_cred_replay c r : same_cred c (nc_with_replay c r).
Proof. unfold same_cred. nsimpl. tauto. Qed.

Lemma same_cred_refresh c now : same_cred c (refresh_conn c now).
Proof. unfold same_cred, refresh_conn. nsimpl. tauto. Qed.

Lemma same_cred_sent c now : same_cred c (nc_sent c now).
Proof. unfold same_cred. nsimpl. tauto. Qed.

(* One call, read backwards.  The equations above are the function in branch normal form: given the
   datagram they give the state, which is what the forward theorems need.  nsmove is the one inversion
   principle: its constructors are the kinds of move a call can make on the two tables, each with the new
   state as a term, what is returned, the encode equation of what is sent (so: which counter sealed it)
   and, for the three events a datagram can cause, the packet that decode opened. *)

(* the entry c of the sender once decode, under its key and window, has looked at the datagram *)
Definition seen (s : nserver) (c : nconn) (buf : list N) : nconn :=
  nc_with_replay c (opt_replay (fst (decode buf (ns_protocol s) (Some (nc_recv_key c)) (Some (nc_replay c))))
                               (nc_replay c)).

(* what a datagram from its address leaves of a connected entry, whether or not it counts as heard (MV_recv) *)
Lemma recv_keeps s c buf c2 :
  c2 = seen s c buf \/ c2 = nc_received (seen s c buf) (ns_now s) ->
  same_cred c c2 /\ nc_seq c2 = nc_seq c /\ nc_last_send c2 = nc_last_send c /\
  nc_replay c2 = nc_replay (seen s c buf) /\ (nc_last_recv c2 = nc_last_recv c \/ nc_last_recv c2 = ns_now s).
Proof. unfold same_cred. intros [-> | ->]; nsimpl; tauto. Qed.

Definition opened (s : nserver) (c : nconn) (buf : list N) (q : N) (p : npacket) : Prop :=
  snd (decode buf (ns_protocol s) (Some (nc_recv_key c)) (Some (nc_replay c))) = Ok (q, p).

(* the pending list once the sender's own entry, if it has one, got its window back.  Under table_inv the
   put-back of an unmoved window is the identity (pending_put_back); written this way the moves of a pending
   and of an unknown address are the same constructors, and no theorem about one call needs table_inv for
   that alone. *)
Definition pending_seen (s : nserver) (a : addr) (buf : list N) : list (addr * nconn) :=
  match pend_find a (ns_pending s) with
  | Some pc => pend_put a (seen s pc buf) (ns_pending s)
  | None => ns_pending s
  end.

Inductive nsmove (s : nserver) : nsop -> nserver -> nsout -> Prop :=
(* nothing: a datagram that is too short or, from an unknown address, not a request; an id that is not
   connected; no keep-alive due *)
| MV_none o : nsmove s o s (NOResult SRNone)
| MV_unsent id p e : nsmove s (NSPayload id p) s (NOPayloadPacket (Err e))
| MV_update dt : nsmove s (NSUpdate dt) (nserver_update s dt) NONothing
| MV_max m : nsmove s (NSSetMax m) (set_max_clients s m) NONothing
(* a connected client: a datagram from its address moves its window, a keep-alive or payload notes the time *)
| MV_recv a buf k c c2 :
    find_by_addr s a = Some (k, c) -> (c2 = seen s c buf \/ c2 = nc_received (seen s c buf) (ns_now s)) ->
    nsmove s (NSProcess a buf) (set_slot s k (Some c2)) (NOResult SRNone)
| MV_payload_in a buf k c q p :
    find_by_addr s a = Some (k, c) -> opened s c buf q (PPayload p) ->
    nsmove s (NSProcess a buf) (set_slot s k (Some (nc_received (seen s c buf) (ns_now s))))
           (NOResult (SRPayload (nc_id c) p))
(* ... a datagram sealed with its own counter is sent to it *)
| MV_keepalive id k c d :
    find_by_id s id = Some (k, c) -> timed_out s c = false ->
    encode OUT_CAP (PKeepAlive k (ns_max s)) (ns_protocol s) (Some (nc_seq c, nc_send_key c)) = Ok d ->
    nsmove s (NSUpdateClient id) (set_slot s k (Some (nc_sent c (ns_now s)))) (NOResult (SRPacketToSend (nc_addr c) d))
| MV_payload_out id p k c d :
    find_by_id s id = Some (k, c) ->
    encode OUT_CAP (PPayload p) (ns_protocol s) (Some (nc_seq c, nc_send_key c)) = Ok d ->
    nsmove s (NSPayload id p) (set_slot s k (Some (nc_sent c (ns_now s)))) (NOPayloadPacket (Ok (nc_addr c, d)))
(* ... it leaves: by its own datagram, by time-out, by the application (the server's disconnect datagram always
   encodes: disconnect_encodes) *)
| MV_bye a buf k c q :
    find_by_addr s a = Some (k, c) -> opened s c buf q PDisconnect ->
    nsmove s (NSProcess a buf) (set_slot s k None) (NOResult (SRDisconnected (nc_id c) a None))
| MV_timeout id k c d :
    find_by_id s id = Some (k, c) -> timed_out s c = true ->
    encode OUT_CAP PDisconnect (ns_protocol s) (Some (nc_seq c, nc_send_key c)) = Ok d ->
    nsmove s (NSUpdateClient id) (set_slot s k None) (NOResult (SRDisconnected id (nc_addr c) (Some d)))
| MV_disconnect id k c d :
    find_by_id s id = Some (k, c) ->
    encode OUT_CAP PDisconnect (ns_protocol s) (Some (nc_seq c, nc_send_key c)) = Ok d ->
    nsmove s (NSDisconnect id) (set_slot s k None) (NOResult (SRDisconnected id (nc_addr c) (Some d)))
(* an address that is not connected: the slots stay; the token table may note a request *)
| MV_noted a buf es :
    find_by_addr s a = None ->
    nsmove s (NSProcess a buf) (set_pending (set_entries s es) (pending_seen s a buf)) (NOResult SRNone)
(* ... its pending entry, if it has one, is dropped: the response names a client that is connected already; or
   the server is full and says so, to a request or a response (a datagram at least as long as a response) *)
| MV_dropped a buf :
    find_by_addr s a = None ->
    nsmove s (NSProcess a buf) (set_pending s (pend_remove a (pending_seen s a buf))) (NOResult SRNone)
| MV_denied a buf es key d :
    find_by_addr s a = None -> RESPONSE_MIN <= len buf ->
    encode OUT_CAP PDenied (ns_protocol s) (Some (ns_global_seq s, key)) = Ok d ->
    nsmove s (NSProcess a buf)
           (set_pending (set_seqs (set_entries s es) (ns_global_seq s + 1) (ns_chal_seq s))
                        (pend_remove a (pending_seen s a buf)))
           (NOResult (SRPacketToSend a d))
| MV_challenged a buf es t ex d :
    find_by_addr s a = None -> request_validates s buf t ex ->
    find_by_id s (pt_client_id t) = None -> connected_count s < ns_max s ->
    encode OUT_CAP (generate_challenge (pt_client_id t) (pt_user t) (ns_chal_seq s + 1) (ns_chal_key s))
           (ns_protocol s) (Some (ns_global_seq s, pt_s2c t)) = Ok d ->
    nsmove s (NSProcess a buf)
           (set_pending (set_seqs (set_entries s es) (ns_global_seq s + 1) (ns_chal_seq s + 1))
                        (pend_put a (pending_entry (set_pending s (pending_seen s a buf)) a t ex (ns_chal_seq s + 1))
                                  (pending_seen s a buf)))
           (NOResult (SRPacketToSend a d))
(* ... the one way into a slot: the response that echoes the challenge of the pending entry *)
| MV_promoted a buf pc q ts td k d :
    find_by_addr s a = None -> pend_find a (ns_pending s) = Some pc ->
    opened s pc buf q (PResponse ts td) ->
    challenge_decode td ts (ns_chal_key s) = Ok (nc_id pc, nc_user pc) -> nc_chal_floor pc <= ts ->
    find_by_id s (nc_id pc) = None -> first_free (ns_clients s) 0 = Some k ->
    encode OUT_CAP (PKeepAlive k (ns_max s)) (ns_protocol s) (Some (nc_seq pc, nc_send_key pc)) = Ok d ->
    nsmove s (NSProcess a buf)
           (set_slot (set_pending s (pend_remove a (pending_seen s a buf))) k
                     (Some (promote (seen s pc buf) (nc_user pc) (ns_now s))))
           (NOResult (SRConnected (nc_id pc) a (nc_user pc) d)).

Lemma hr_move s a buf v pr ex xn data s' r :
  find_by_addr s a = None ->
  snd (decode buf (ns_protocol s) None None) = Ok (0, PRequest v pr ex xn data) ->
  handle_request (set_pending s (pending_seen s a buf)) a v pr ex xn data = (s', r) ->
  (forall site, r <> Panic site) /\ nsmove s (NSProcess a buf) s' (NOResult (res_of r)).
Proof.
  intros Ea Hd.
  assert (Hl : RESPONSE_MIN <= len buf).
  { pose proof (decode_request_len _ _ _ _ _ _ Hd eq_refl) as L. fold REQUEST_MIN in L.
    pose proof reply_lt_request. unfold RESPONSE_MIN. lia. }
  destruct (handle_request_cases (set_pending s (pending_seen s a buf)) a v pr ex xn data) as [[e [-> _]]|[t [Hck ->]]].
  { intros H. injection H as <- <-. split; [discriminate|]. exact (MV_noted s a buf (ns_entries s) Ea). }
  assert (Hv : request_validates s buf t ex).
  { apply request_validates_iff. exists v, pr, xn, data. exact (conj Hd Hck). }
  pose proof Hck as (_ & _ & _ & Ept & _).
  unfold hr_body. change (find_by_addr (set_pending s (pending_seen s a buf)) a) with (find_by_addr s a). rewrite Ea.
  change (find_by_id (set_pending s (pending_seen s a buf)) (pt_client_id t)) with (find_by_id s (pt_client_id t)).
  destruct (find_by_id s (pt_client_id t)) as [[sl0 c0]|] eqn:Ei.
  { intros H. injection H as <- <-. split; [discriminate|]. exact (MV_noted s a buf (ns_entries s) Ea). }
  cbv zeta. match goal with |- (if ?c then _ else _) = _ -> _ => destruct c end.
  { intros H. injection H as <- <-. split; [discriminate|]. exact (MV_noted s a buf (ns_entries s) Ea). }
  destruct (find_or_add_entry _ _) as [es allowed].
  destruct (negb allowed).
  { intros H. injection H as <- <-. split; [discriminate|]. exact (MV_noted s a buf es Ea). }
  nsimpl. change (connected_count (set_entries (set_pending s (pending_seen s a buf)) es)) with (connected_count s).
  destruct (ns_max s <=? connected_count s) eqn:Em.
  - destruct (denied_encodes (ns_protocol s) (ns_global_seq s) (pt_s2c t)) as [out Eo].
    rewrite Eo. intros H. injection H as <- <-. split; [discriminate|].
    exact (MV_denied s a buf es (pt_s2c t) out Ea Hl Eo).
  - pose proof (private_decode_user_len _ _ _ _ _ _ Ept) as Hu.
    destruct (challenge_encodes (pt_client_id t) (pt_user t) (ns_chal_seq s + 1) (ns_chal_key s)
                (ns_protocol s) (ns_global_seq s) (pt_s2c t) Hu) as [out Eo].
    rewrite Eo. intros H. injection H as <- <-. split; [discriminate|].
    apply (MV_challenged s a buf es t ex out Ea Hv Ei); [lia | exact Eo].
Qed.

Lemma ppi_move s a buf s' r0 :
  process_packet_internal s a buf = (s', r0) ->
  (forall site, r0 <> Panic site) /\ nsmove s (NSProcess a buf) s' (NOResult (res_of r0)).
Proof.
  destruct (N.lt_ge_cases (len buf) (2 + NC_MAC_BYTES)) as [Hl|Hl].
  { rewrite (ppi_short _ _ _ Hl). intros H. injection H as <- <-. split; [discriminate | apply MV_none]. }
  destruct (find_by_addr s a) as [[k c]|] eqn:Ea.
  { rewrite (ppi_connected _ _ _ _ _ Ea). unfold conn_step. cbv zeta.
    destruct (snd (decode buf (ns_protocol s) (Some (nc_recv_key c)) (Some (nc_replay c)))) as [[q pkt]|e|site] eqn:Ed;
      [| |exfalso; apply (decode_no_panic _ _ _ _ _ Ed)].
    - destruct pkt; intros H; injection H as <- <-; (split; [discriminate|]); rewrite ?set_slot_twice; nsimpl;
        try (apply (MV_recv s a buf k c _ Ea); left; reflexivity).
      + apply (MV_recv s a buf k c _ Ea). right. reflexivity.
      + apply (MV_payload_in s a buf k c q _ Ea Ed).
      + apply (MV_bye s a buf k c q Ea Ed).
    - intros H. injection H as <- <-. split; [discriminate|]. apply (MV_recv s a buf k c _ Ea). left. reflexivity. }
  destruct (pend_find a (ns_pending s)) as [pc|] eqn:Ep.
  { assert (Eps : pend_put a (seen s pc buf) (ns_pending s) = pending_seen s a buf).
    { unfold pending_seen. rewrite Ep. reflexivity. }
    assert (Noted : forall r1, (forall site, r1 <> Panic site) -> res_of r1 = SRNone ->
              (set_pending s (pending_seen s a buf), r1) = (s', r0) ->
              (forall site, r0 <> Panic site) /\ nsmove s (NSProcess a buf) s' (NOResult (res_of r0))).
    { intros r1 NP Er H. injection H as <- <-. split; [exact NP|]. rewrite Er.
      exact (MV_noted s a buf (ns_entries s) Ea). }
    rewrite (ppi_pending_long _ _ _ _ Hl Ea Ep). unfold pend_step. cbv zeta. fold (seen s pc buf). rewrite Eps.
    destruct (snd (decode buf (ns_protocol s) (Some (nc_recv_key pc)) (Some (nc_replay pc))))
      as [[q pkt]|e|site] eqn:Ed;
      [| apply Noted; [discriminate | reflexivity] | exfalso; apply (decode_no_panic _ _ _ _ _ Ed)].
    destruct pkt as [v pr ex xn data| |ts td|ts td|ci mc|pl|]; try (apply Noted; [discriminate | reflexivity]).
    - (* request *)
      intros H. apply (hr_move s a buf v pr ex xn data s' r0 Ea); [|exact H].
      apply (decode_request_nokey _ _ _ _ _ _ Ed eq_refl).
    - (* response *)
      pose proof (decode_response_len _ _ _ _ _ _ Ed eq_refl : RESPONSE_MIN <= len buf) as RL.
      unfold resp_step, find_by_id, seen. nsimpl.
      destruct (challenge_decode td ts (ns_chal_key s)) as [[cid cuser]|e|site] eqn:Ec;
        [| apply Noted; [discriminate | reflexivity] | exfalso; apply (challenge_decode_no_panic _ _ _ _ Ec)].
      destruct (ts <? nc_chal_floor pc) eqn:Efl; [apply Noted; [discriminate | reflexivity]|].
      destruct (negb (cid =? nc_id pc) || negb (bytes_eqb cuser (nc_user pc))) eqn:Ek;
        [apply Noted; [discriminate | reflexivity]|].
      apply orb_false_elim in Ek. destruct Ek as [Ek Eu]. apply negb_false_iff, N.eqb_eq in Ek.
      apply negb_false_iff, bytes_eqb_eq in Eu. subst cid cuser.
      destruct (find_slot_by _ (ns_clients s) 0) as [[sl0 c0]|] eqn:Ei.
      { intros H. injection H as <- <-. split; [discriminate|]. exact (MV_dropped s a buf Ea). }
      destruct (first_free (ns_clients s) 0) as [idx|] eqn:Ef.
      + destruct (keepalive_encodes idx (ns_max s) (ns_protocol s) (nc_seq pc) (nc_send_key pc)) as [out Eo].
        rewrite Eo. intros H. injection H as <- <-. split; [discriminate|].
        apply (MV_promoted s a buf pc q ts td idx out Ea Ep Ed Ec); [lia | exact Ei | exact Ef | exact Eo].
      + destruct (denied_encodes (ns_protocol s) (ns_global_seq s) (nc_send_key pc)) as [out Eo].
        rewrite Eo. intros H. injection H as <- <-. split; [discriminate|].
        exact (MV_denied s a buf (ns_entries s) (nc_send_key pc) out Ea RL Eo). }
  (* unknown address *)
  rewrite (ppi_unknown _ _ _ Ea Ep). unfold unknown_step.
  destruct (snd (decode buf (ns_protocol s) None None)) as [[q pkt]|e|site] eqn:Ed;
    [| |exfalso; apply (decode_no_panic _ _ _ _ _ Ed)].
  2:{ intros H. injection H as <- <-. split; [discriminate | apply MV_none]. }
  destruct (decode_ok_no_key _ _ _ _ _ Ed) as (_ & -> & v & pr & ex & xn & data & ->).
  intros H. apply (hr_move s a buf v pr ex xn data s' r0 Ea Ed).
  unfold pending_seen. rewrite Ep, set_pending_id. exact H.
Qed.

(* update_client on a connected id.  Its two datagrams always encode (disconnect_encodes, keepalive_encodes); once
   they are named the call is one equation: the time-out, a keep-alive that is due, or nothing. *)
Lemma update_client_found s id k c :
  find_by_id s id = Some (k, c) ->
  exists dd dk,
    encode OUT_CAP PDisconnect (ns_protocol s) (Some (nc_seq c, nc_send_key c)) = Ok dd /\
    encode OUT_CAP (PKeepAlive k (ns_max s)) (ns_protocol s) (Some (nc_seq c, nc_send_key c)) = Ok dk /\
    update_client s id =
      Ok (if timed_out s c then (set_slot s k None, SRDisconnected id (nc_addr c) (Some dd))
          else if nc_last_send c + NC_SEND_RATE_MS * 1000000 <=? ns_now s
               then (set_slot s k (Some (nc_sent c (ns_now s))), SRPacketToSend (nc_addr c) dk)
               else (s, SRNone)).
Proof.
  intros Ei. destruct (disconnect_encodes (ns_protocol s) (nc_seq c) (nc_send_key c)) as [dd Ed].
  destruct (keepalive_encodes k (ns_max s) (ns_protocol s) (nc_seq c) (nc_send_key c)) as [dk Ek].
  exists dd, dk. split; [exact Ed|]. split; [exact Ek|].
  unfold update_client. rewrite Ei. fold (timed_out s c). rewrite Ed, Ek.
  destruct (timed_out s c); [reflexivity|]. destruct (_ <=? _); reflexivity.
Qed.

Lemma update_client_absent s id : find_by_id s id = None -> update_client s id = Ok (s, SRNone).
Proof. intros Ei. unfold update_client. rewrite Ei. reflexivity. Qed.

(* One call, analysed once: it returns, and what it did is a move.  The Panic branches of the four functions are
   those of decode and of encode, which have none; the server's own keep-alive and disconnect packets always
   encode. *)
Lemma nsstep_spec s o : exists s' out, nsstep s o = Ok (s', out) /\ nsmove s o s' out.
Proof.
  destruct o as [a buf|dt|id|id|id p|m]; cbn [nsstep].
  - unfold process_packet. destruct (process_packet_internal s a buf) as [s1 r0] eqn:E.
    destruct (ppi_move _ _ _ _ _ E) as [NP M].
    destruct r0 as [x|e|site]; [| |destruct (NP site eq_refl)]; eexists _, _; (split; [reflexivity | exact M]).
  - eexists _, _. split; [reflexivity | constructor].
  - destruct (find_by_id s id) as [[k c]|] eqn:Ei.
    2:{ rewrite (update_client_absent _ _ Ei). eexists _, _. split; [reflexivity | apply MV_none]. }
    destruct (update_client_found s id k c Ei) as (dd & dk & Ed & Ek & ->).
    destruct (timed_out s c) eqn:Et; [eexists _, _; split; [reflexivity | exact (MV_timeout s id k c dd Ei Et Ed)]|].
    destruct (_ <=? _); eexists _, _; (split; [reflexivity|]); [exact (MV_keepalive s id k c dk Ei Et Ek) | apply MV_none].
  - unfold nserver_disconnect. destruct (find_by_id s id) as [[k c]|] eqn:Ei.
    2:{ eexists _, _. split; [reflexivity | apply MV_none]. }
    destruct (disconnect_encodes (ns_protocol s) (nc_seq c) (nc_send_key c)) as [d Eo]. rewrite Eo.
    eexists _, _. split; [reflexivity | exact (MV_disconnect s id k c d Ei Eo)].
  - unfold generate_payload_packet. destruct (_ <? _).
    { eexists _, _. split; [reflexivity | apply MV_unsent]. }
    destruct (find_by_id s id) as [[k c]|] eqn:Ei.
    2:{ eexists _, _. split; [reflexivity | apply MV_unsent]. }
    destruct (encode OUT_CAP (PPayload p) _ _) as [d|e|site] eqn:Eo; [| |destruct (encode_no_panic _ _ _ _ _ Eo)];
      eexists _, _; (split; [reflexivity|]); [apply (MV_payload_out s id p k c d Ei Eo) | apply MV_unsent].
  - eexists _, _. split; [reflexivity | constructor].
Qed.

Lemma nsstep_move s o s' out : nsstep s o = Ok (s', out) -> nsmove s o s' out.
Proof. destruct (nsstep_spec s o) as (s1 & out1 & -> & M). intros H. injection H as <- <-. exact M. Qed.

Lemma nsstep_total s o : exists s' out, nsstep s o = Ok (s', out).
Proof. destruct (nsstep_spec s o) as (s' & out & H & _). eauto. Qed.

Lemma nsstep_process s a buf s' r :
  nsstep s (NSProcess a buf) = Ok (s', NOResult r) <-> process_packet s a buf = Ok (s', r).
Proof.
  cbn [nsstep]. destruct (process_packet s a buf) as [[s1 r1]|e|site]; cbn [bind fst snd]; split; intros H;
    try discriminate H; injection H as <- <-; reflexivity.
Qed.

Lemma process_step s a buf s' r :
  process_packet s a buf = Ok (s', r) -> nsmove s (NSProcess a buf) s' (NOResult r).
Proof. intros H. apply nsstep_move, nsstep_process, H. Qed.

Lemma process_packet_total s a buf : exists s' r, process_packet s a buf = Ok (s', r).
Proof.
  destruct (nsstep_total s (NSProcess a buf)) as (s' & out & H). cbn [nsstep] in H.
  destruct (process_packet s a buf) as [[s1 r]|e|site]; [eauto | discriminate H..].
Qed.

(* table_inv s plays no part: no call panics in any state (nsstep_total) *)
Theorem process_packet_no_panic s : table_inv s -> forall a buf, exists s' r, process_packet s a buf = Ok (s', r).
Proof. intros _. apply process_packet_total. Qed.

Theorem update_client_no_panic s : table_inv s -> forall id, exists s' r, update_client s id = Ok (s', r).
Proof.
  intros _ id. destruct (nsstep_total s (NSUpdateClient id)) as (s' & out & H). cbn [nsstep] in H.
  destruct (update_client s id) as [[s1 r]|e|site]; [eauto | discriminate H..].
Qed.

Theorem nserver_disconnect_no_panic s : table_inv s -> forall id, exists s' r, nserver_disconnect s id = Ok (s', r).
Proof.
  intros _ id. destruct (nsstep_total s (NSDisconnect id)) as (s' & out & H). cbn [nsstep] in H.
  destruct (nserver_disconnect s id) as [[s1 r]|e|site]; [eauto | discriminate H..].
Qed.

Theorem generate_payload_no_panic s id payload :
  forall site, snd (generate_payload_packet s id payload) <> Panic site.
Proof.
  intros site E. destruct (nsstep_total s (NSPayload id payload)) as (s' & out & H). cbn [nsstep] in H.
  destruct (generate_payload_packet s id payload) as [s1 r]. cbn [snd] in E. rewrite E in H. discriminate H.
Qed.

Theorem nsstep_no_panic s : table_inv s -> forall o, exists s' out, nsstep s o = Ok (s', out).
Proof. intros _. apply nsstep_total. Qed.

(* seen and pending_seen are used through these *)
Lemma seen_window s c buf : window_step (nc_replay c) buf (nc_replay (seen s c buf)).
Proof. unfold seen. nsimpl. apply (decode_window_step _ _ _ _ _ _ (surjective_pairing _)). Qed.

Lemma seen_cred s c buf : same_cred c (seen s c buf) /\ nc_seq (seen s c buf) = nc_seq c.
Proof. split; [apply same_cred_replay | reflexivity]. Qed.

Lemma seen_wf s c buf : rp_wf (nc_replay c) -> rp_wf (nc_replay (seen s c buf)).
Proof. apply (window_step_wf _ buf _ (seen_window s c buf)). Qed.

Lemma opened_sealed s c buf q p :
  opened s c buf q p -> packet_id p <> 0 ->
  dgram_type buf = packet_id p /\ dgram_seq buf = q /\
  (applies_replay (packet_id p) = true -> already_received (nc_replay c) q = false) /\
  seen s c buf =
    nc_with_replay c (if applies_replay (packet_id p) then advance_sequence (nc_replay c) q else nc_replay c) /\
  exists prefix seqbytes plain,
    buf = prefix :: seqbytes ++ aead_seal (nc_recv_key c) (nonce_of q) (packet_aad prefix (ns_protocol s)) plain /\
    len seqbytes = prefix / 16 /\ read_packet (packet_id p) plain = Ok p.
Proof.
  intros H Hid. pose proof (decode_ok_type _ _ _ _ _ _ H) as Hty.
  destruct (decode_ok_sealed _ _ _ _ _ _ H) as (k & plain & K & Ho & -> & Er & _ & Hdup & Hf).
  { rewrite Hty. exact Hid. }
  injection K as <-. destruct (opens_to_form _ _ _ _ Ho) as (prefix & sb & Hb & Hl & _).
  rewrite Hty in Er, Hdup, Hf. cbn [rp_dup rp_after] in Hdup, Hf. unfold seen. rewrite Hf.
  split; [exact Hty|]. split; [reflexivity|]. split; [intros Ha; rewrite Ha in Hdup; exact Hdup|].
  split; [destruct (applies_replay (packet_id p)); reflexivity|]. exists prefix, sb, plain. auto.
Qed.

Lemma pending_seen_tbl s a buf :
  tbl (connected s) (ns_pending s) -> find_by_addr s a = None -> tbl (connected s) (pending_seen s a buf).
Proof.
  intros T Ea. unfold pending_seen. destruct (pend_find a (ns_pending s)) as [pc|] eqn:Ep; [|exact T].
  destruct (tbl_pending_wf _ _ _ _ T (pend_find_In _ _ _ Ep)) as [Hx Hw].
  apply tbl_pend_put; [exact T | exact Hx | apply find_by_addr_none_iff; exact Ea | apply seen_wf, Hw].
Qed.

Lemma pending_seen_from s a buf a1 c1 :
  In (a1, c1) (pending_seen s a buf) ->
  exists c0, In (a1, c0) (ns_pending s) /\ same_cred c0 c1 /\ nc_seq c1 = nc_seq c0.
Proof.
  unfold pending_seen. destruct (pend_find a (ns_pending s)) as [pc|] eqn:Ep; intros Hin.
  - apply pend_put_In in Hin. destruct Hin as [Hx|Hin].
    + injection Hx as -> ->. exists pc. split; [apply pend_find_In; exact Ep | apply seen_cred].
    + exists c1. split; [exact Hin|]. split; [apply same_cred_refl | reflexivity].
  - exists c1. split; [exact Hin|]. split; [apply same_cred_refl | reflexivity].
Qed.

Lemma pending_seen_keys s a buf : map fst (pending_seen s a buf) = map fst (ns_pending s).
Proof.
  unfold pending_seen. destruct (pend_find a (ns_pending s)) as [pc|] eqn:Ep; [|reflexivity].
  apply (pend_put_found_keys _ _ _ _ Ep).
Qed.

Lemma pending_seen_same s a buf pc :
  table_inv s -> pend_find a (ns_pending s) = Some pc -> seen s pc buf = pc -> pending_seen s a buf = ns_pending s.
Proof.
  intros T Ep Es. unfold pending_seen. rewrite Ep, Es. apply (pend_put_same _ _ _ (table_inv_pending_nodup _ T) Ep).
Qed.

Lemma pending_entry_wf cs s a t ex cseq :
  tbl cs (ns_pending s) -> nc_addr (pending_entry s a t ex cseq) = a /\ rp_wf (nc_replay (pending_entry s a t ex cseq)).
Proof.
  intros T. unfold pending_entry.
  destruct (pend_find a (ns_pending s)) as [old|] eqn:E; cbn [refresh_conn fresh_conn nc_addr nc_replay].
  - apply (tbl_pending_wf _ _ _ _ T (pend_find_In _ _ _ E)).
  - split; [reflexivity | apply replay_new_wf].
Qed.

Lemma table_inv_pending_wf s a pc :
  table_inv s -> pend_find a (ns_pending s) = Some pc -> nc_addr pc = a /\ rp_wf (nc_replay pc).
Proof.
  intros T H. apply pend_find_In in H. apply table_inv_tbl in T. apply (tbl_pending_wf _ _ _ _ T H).
Qed.

Lemma table_inv_of s' cs p : connected s' = cs -> ns_pending s' = p -> tbl cs p -> table_inv s'.
Proof. intros <- <- T. apply table_inv_tbl. exact T. Qed.

Lemma table_inv_slot_replace f s slot c c' :
  table_inv s -> find_slot_by f (ns_clients s) 0 = Some (slot, c) ->
  nc_id c' = nc_id c -> nc_addr c' = nc_addr c -> (rp_wf (nc_replay c) -> rp_wf (nc_replay c')) ->
  table_inv (set_slot s slot (Some c')).
Proof.
  intros T H Ei Ea Er. apply table_inv_tbl in T.
  destruct (lookup_connected _ _ _ _ H) as (cs1 & cs2 & E & E'). rewrite E in T.
  apply (table_inv_of _ _ _ (E' (Some c')) eq_refl).
  apply (tbl_replace _ c); auto. apply Er, (tbl_connected_wf _ _ _ _ T).
Qed.

Lemma table_inv_slot_update f s slot c c' :
  table_inv s -> find_slot_by f (ns_clients s) 0 = Some (slot, c) ->
  nc_id c' = nc_id c -> nc_addr c' = nc_addr c -> nc_replay c' = nc_replay c ->
  table_inv (set_slot s slot (Some c')).
Proof. intros T H Ei Ea Er. apply (table_inv_slot_replace _ _ _ _ _ T H Ei Ea). rewrite Er. auto. Qed.

Lemma table_inv_slot_clear f s slot c :
  table_inv s -> find_slot_by f (ns_clients s) 0 = Some (slot, c) -> table_inv (set_slot s slot None).
Proof.
  intros T H. apply table_inv_tbl in T.
  destruct (lookup_connected _ _ _ _ H) as (cs1 & cs2 & E & E'). rewrite E in T.
  apply (table_inv_of _ _ _ (E' None) eq_refl). apply (tbl_remove _ c). exact T.
Qed.

Lemma nserver_new_inv now max protocol addrs key chal s :
  nserver_new now max protocol addrs key chal = Ok s ->
  max <= NC_MAX_CLIENTS /\ ns_clients s = repeatN None (N.to_nat max) /\ ns_pending s = [] /\
  ns_max s = max /\ ns_global_seq s = NC_GLOBAL_SEQUENCE_INIT.
Proof.
  unfold nserver_new. destruct (NC_MAX_CLIENTS <? max) eqn:E; [discriminate|]. intros H.
  apply (f_equal (fun r => match r with Ok x => x | _ => s end)) in H. cbv beta iota in H. subst s.
  nsimpl. split; [lia|]. auto.
Qed.

Lemma connected_new now max protocol addrs key chal s :
  nserver_new now max protocol addrs key chal = Ok s -> connected s = [].
Proof.
  intros H. destruct (nserver_new_inv _ _ _ _ _ _ _ H) as (_ & Hc & _).
  unfold connected. rewrite Hc. apply some_list_repeat_none.
Qed.

Lemma table_inv_new now max protocol addrs key chal s :
  nserver_new now max protocol addrs key chal = Ok s -> table_inv s.
Proof.
  intros H. destruct (nserver_new_inv _ _ _ _ _ _ _ H) as (_ & _ & Hp & _).
  apply (table_inv_of _ [] []); [exact (connected_new _ _ _ _ _ _ _ H) | exact Hp |].
  unfold tbl. cbn [map]. do 3 (split; [constructor|]).
  split; [intros a c []|]. split; constructor.
Qed.

(* the bound on max is what makes nserver_new succeed (nserver_new_inv) *)
Theorem table_inv_init now max protocol addrs key chal s :
  max <= NC_MAX_CLIENTS -> nserver_new now max protocol addrs key chal = Ok s -> table_inv s.
Proof. intros _. apply table_inv_new. Qed.

Lemma set_max_clients_clients s m :
  exists n, ns_clients (set_max_clients s m) = ns_clients s ++ repeatN None n.
Proof.
  unfold set_max_clients. destruct (len (ns_clients s) <? _).
  - eexists. reflexivity.
  - exists 0%nat. cbn [repeatN]. rewrite app_nil_r. reflexivity.
Qed.

Lemma set_max_clients_pending s m : ns_pending (set_max_clients s m) = ns_pending s.
Proof. unfold set_max_clients. destruct (len (ns_clients s) <? _); reflexivity. Qed.

Lemma set_max_connected s m : connected (set_max_clients s m) = connected s.
Proof.
  destruct (set_max_clients_clients s m) as [n E].
  unfold connected. rewrite E, some_list_app, some_list_repeat_none, app_nil_r. reflexivity.
Qed.

Lemma table_inv_set_max s m : table_inv s -> table_inv (set_max_clients s m).
Proof.
  intros T. apply table_inv_tbl in T.
  apply (table_inv_of _ (connected s) (ns_pending s)); [apply set_max_connected | | exact T].
  apply set_max_clients_pending.
Qed.

Lemma table_inv_update s dt : table_inv s -> table_inv (nserver_update s dt).
Proof.
  intros T. apply table_inv_tbl in T. unfold nserver_update.
  eapply table_inv_of; [reflexivity | reflexivity |]. apply tbl_pend_filter. exact T.
Qed.

Theorem table_inv_step s o s' out : table_inv s -> nsstep s o = Ok (s', out) -> table_inv s'.
Proof.
  intros T H. apply nsstep_move in H. pose proof T as T0. apply table_inv_tbl in T0.
  destruct H as [o | id p e | dt | m | a buf k c c2 Ea Hc2 | a buf k c q p Ea _ | id k c d Hf _ _ | id p k c d Hf _
                 | a buf k c q Ea _ | id k c d Hf _ _ | id k c d Hf _ | a buf es Ea | a buf Ea | a buf es key d Ea _ _
                 | a buf es t ex d Ea _ _ _ _ | a buf pc q ts td k d Ea Ep _ _ _ Ei Ef _].
  - exact T.
  - exact T.
  - apply table_inv_update, T.
  - apply table_inv_set_max, T.
  - apply (table_inv_slot_replace _ _ _ _ _ T Ea); destruct Hc2 as [-> | ->]; nsimpl; auto; apply seen_wf.
  - apply (table_inv_slot_replace _ _ _ _ _ T Ea); nsimpl; auto; apply seen_wf.
  - apply (table_inv_slot_update _ _ _ _ _ T Hf); reflexivity.
  - apply (table_inv_slot_update _ _ _ _ _ T Hf); reflexivity.
  - apply (table_inv_slot_clear _ _ _ _ T Ea).
  - apply (table_inv_slot_clear _ _ _ _ T Hf).
  - apply (table_inv_slot_clear _ _ _ _ T Hf).
  - apply table_inv_tbl, (pending_seen_tbl _ _ _ T0 Ea).
  - apply table_inv_tbl, tbl_pend_remove, (pending_seen_tbl _ _ _ T0 Ea).
  - apply table_inv_tbl, tbl_pend_remove, (pending_seen_tbl _ _ _ T0 Ea).
  - pose proof (pending_seen_tbl _ _ buf T0 Ea) as T1. apply table_inv_tbl.
    destruct (pending_entry_wf _ (set_pending s (pending_seen s a buf)) a t ex (ns_chal_seq s + 1) T1) as [Hx Hw].
    apply tbl_pend_put; [exact T1 | exact Hx | apply find_by_addr_none_iff; exact Ea | exact Hw].
  - (* the entry leaves the pending list and enters the free slot *)
    pose proof (tbl_pend_remove _ _ a (pending_seen_tbl _ _ buf T0 Ea)) as T1.
    set (p' := pend_remove a (pending_seen s a buf)) in *.
    destruct (free_split (set_pending s p') k Ef) as (l1 & l2 & E1 & _ & E5). nsimpl_in E1.
    assert (Ec : connected s = some_list l1 ++ some_list l2).
    { unfold connected. rewrite E1. apply (connected_split l1 None). }
    apply (table_inv_of _ (some_list l1 ++ promote (seen s pc buf) (nc_user pc) (ns_now s) :: some_list l2) p').
    { unfold connected. rewrite E5. apply (connected_split l1 (Some _)). }
    { reflexivity. }
    rewrite Ec in T1. destruct (table_inv_pending_wf _ _ _ T Ep) as [Hx Hw].
    assert (Hxs : nc_addr (seen s pc buf) = a) by (rewrite <- Hx; apply seen_cred).
    apply tbl_insert; [exact T1 | | | |]; cbn [promote nc_id nc_addr nc_replay].
    + rewrite <- Ec. apply find_by_id_none_iff, Ei.
    + rewrite <- Ec, Hxs. apply find_by_addr_none_iff, Ea.
    + rewrite Hxs. apply pend_remove_keys. rewrite pending_seen_keys. apply (table_inv_pending_nodup _ T).
    + apply (seen_wf s pc buf Hw).
Qed.

Lemma process_packet_table_inv s a buf s' r : table_inv s -> process_packet s a buf = Ok (s', r) -> table_inv s'.
Proof.
  intros T H. apply (table_inv_step s (NSProcess a buf) s' (NOResult r) T), nsstep_process, H.
Qed.

Theorem table_inv_run ops : forall s s' outs, table_inv s -> nsrun s ops = Ok (s', outs) -> table_inv s'.
Proof. exact (run_inv nsstep table_inv table_inv_step ops). Qed.

Theorem lookup_unique s k c :
  table_inv s -> nth_opt (ns_clients s) k = Some (Some c) ->
  find_by_id s (nc_id c) = Some (N.of_nat k, c) /\ find_by_addr s (nc_addr c) = Some (N.of_nat k, c).
Proof.
  intros T H. apply table_inv_tbl in T. destruct T as (H1 & H2 & _).
  apply nth_opt_split in H. destruct H as [l1 [l2 [E L]]].
  unfold connected in H1, H2. rewrite E, connected_split, map_app in H1, H2. cbn [map] in H1, H2.
  apply NoDup_remove_2 in H1. apply NoDup_remove_2 in H2.
  assert (K : 0 + len l1 = N.of_nat k) by (unfold len; lia).
  unfold find_by_id, find_by_addr. rewrite E, <- K. split; apply find_slot_by_mid.
  - apply N.eqb_refl.
  - intros c' Hc. apply N.eqb_neq. intros Heq. apply H1. apply in_or_app. left.
    rewrite <- Heq. apply in_map. exact Hc.
  - apply addr_eqb_refl.
  - intros c' Hc. apply addr_eqb_neq. intros Heq. apply H2. apply in_or_app. left.
    rewrite <- Heq. apply in_map. exact Hc.
Qed.

Lemma lookup_nth f s slot c :
  find_slot_by f (ns_clients s) 0 = Some (slot, c) ->
  nth_opt (ns_clients s) (N.to_nat slot) = Some (Some c) /\ f c = true.
Proof.
  intros H. destruct (lookup_split _ _ _ _ H) as [l1 [l2 [E1 [E2 [E3 _]]]]].
  split; [|exact E3]. rewrite E1, E2. apply nth_opt_app_mid.
Qed.

Corollary find_by_id_addr s id slot c :
  table_inv s -> find_by_id s id = Some (slot, c) ->
  nc_id c = id /\ find_by_addr s (nc_addr c) = Some (slot, c).
Proof.
  intros T H. destruct (lookup_nth _ _ _ _ H) as [Hn Hf]. apply N.eqb_eq in Hf.
  split; [exact Hf|]. destruct (lookup_unique _ _ _ T Hn) as [_ K]. rewrite K, N2Nat.id. reflexivity.
Qed.

Corollary find_by_addr_id s a slot c :
  table_inv s -> find_by_addr s a = Some (slot, c) ->
  nc_addr c = a /\ find_by_id s (nc_id c) = Some (slot, c).
Proof.
  intros T H. destruct (lookup_nth _ _ _ _ H) as [Hn Hf]. apply addr_eqb_eq in Hf.
  split; [exact Hf|]. destruct (lookup_unique _ _ _ T Hn) as [K _]. rewrite K, N2Nat.id. reflexivity.
Qed.

Lemma find_by_id_after_clear s id slot c :
  table_inv s -> find_by_id s id = Some (slot, c) -> find_by_id (set_slot s slot None) id = None.
Proof.
  intros T H. apply table_inv_tbl in T. destruct T as (H1 & _).
  destruct (lookup_nth _ _ _ _ H) as [_ E3]. apply N.eqb_eq in E3.
  destruct (lookup_connected _ _ _ _ H) as (cs1 & cs2 & E & E').
  rewrite E, map_app in H1. apply NoDup_remove_2 in H1.
  apply find_by_id_none_iff. rewrite (E' None), map_app, <- E3. exact H1.
Qed.

Lemma ids_slot_update f s slot c c' :
  find_slot_by f (ns_clients s) 0 = Some (slot, c) -> nc_id c' = nc_id c ->
  map nc_id (connected (set_slot s slot (Some c'))) = map nc_id (connected s).
Proof.
  intros H Ei. destruct (lookup_connected _ _ _ _ H) as (cs1 & cs2 & E & E').
  rewrite (E' (Some c')), E, !map_app. cbn [map]. rewrite Ei. reflexivity.
Qed.

Lemma find_slot_by_slot_update f s slot c c' :
  find_slot_by f (ns_clients s) 0 = Some (slot, c) -> f c' = f c ->
  find_slot_by f (ns_clients (set_slot s slot (Some c'))) 0 = Some (slot, c').
Proof.
  intros H Ef. destruct (lookup_split _ _ _ _ H) as [l1 [l2 [E1 [E2 [E3 [E4 E5]]]]]].
  rewrite E5. replace slot with (0 + len l1) by (unfold len; lia).
  apply find_slot_by_mid; [rewrite Ef; exact E3 | exact E4].
Qed.

Lemma table_inv_connected_wf s f slot c :
  table_inv s -> find_slot_by f (ns_clients s) 0 = Some (slot, c) -> rp_wf (nc_replay c).
Proof.
  intros T H. apply table_inv_tbl in T. destruct (lookup_connected _ _ _ _ H) as (cs1 & cs2 & E & _).
  rewrite E in T. apply (tbl_connected_wf _ _ _ _ T).
Qed.

Lemma find_by_id_after_insert s id idx c :
  find_by_id s id = None -> first_free (ns_clients s) 0 = Some idx -> nc_id c = id ->
  find_by_id (set_slot s idx (Some c)) id = Some (idx, c).
Proof.
  intros H Hf Ei. destruct (free_split _ _ Hf) as [l1 [l2 [E1 [E2 E5]]]].
  unfold find_by_id in *. rewrite E5.
  replace idx with (0 + len l1) by (unfold len; lia).
  rewrite find_slot_by_none in H. rewrite E1, connected_split in H.
  apply find_slot_by_mid; [rewrite Ei; apply N.eqb_refl |].
  intros c' Hc. apply H. apply in_or_app. left. exact Hc.
Qed.

Lemma clients_id_connected s : clients_id s = map nc_id (connected s).
Proof.
  unfold clients_id, connected.
  induction (ns_clients s) as [|[c|] t IH]; cbn [flat_map some_list map app].
  - reflexivity.
  - f_equal. exact IH.
  - exact IH.
Qed.

Lemma ids_after_clear f s slot c :
  table_inv s -> find_slot_by f (ns_clients s) 0 = Some (slot, c) ->
  forall x, In x (clients_id (set_slot s slot None)) <-> x <> nc_id c /\ In x (clients_id s).
Proof.
  intros T H. apply table_inv_tbl in T. destruct T as (H1 & _).
  destruct (lookup_split _ _ _ _ H) as (l1 & l2 & E1 & _ & _ & _ & E5).
  rewrite !clients_id_connected. unfold connected in *. rewrite E5, E1, !connected_split, !map_app.
  rewrite E1, connected_split, map_app in H1. cbn [map] in *.
  (* the ids are distinct, so the cleared one occurs on neither side of its slot *)
  apply NoDup_remove_2 in H1. rewrite in_app_iff in H1. clear - H1.
  intros x. rewrite !in_app_iff. cbn [In]. intuition congruence.
Qed.

Lemma ids_after_fill s idx c :
  first_free (ns_clients s) 0 = Some idx ->
  forall x, In x (clients_id (set_slot s idx (Some c))) <-> x = nc_id c \/ In x (clients_id s).
Proof.
  intros H x. destruct (free_split _ _ H) as [l1 [l2 [E1 [E2 E5]]]].
  rewrite !clients_id_connected. unfold connected. rewrite E5, E1.
  rewrite !connected_split, !map_app. cbn [map]. rewrite !in_app_iff. cbn [In]. intuition congruence.
Qed.

(* What the outcome of a call says about the connected clients.  A connect or a disconnect speaks of the id and
   the address it reports and of every other id (the conclusion of events_matched is silent about those); a
   payload names a connected client; every other outcome leaves the ids as they are.  events_matched and, in
   GlueP, nsstep_ids_step and payload_finds_connection are readings of this. *)
Definition result_ok (s s' : nserver) (out : nsout) : Prop :=
  match out with
  | NOResult (SRConnected id a _ _) =>
      table_inv s ->
      (find_by_id s id = None /\ find_by_addr s a = None /\
       (exists slot c, find_by_id s' id = Some (slot, c) /\ nc_addr c = a)) /\
      forall x, In x (clients_id s') <-> x = id \/ In x (clients_id s)
  | NOResult (SRDisconnected id a _) =>
      table_inv s ->
      ((exists slot c, find_by_id s id = Some (slot, c) /\ nc_addr c = a) /\ find_by_id s' id = None) /\
      forall x, In x (clients_id s') <-> x <> id /\ In x (clients_id s)
  | NOResult (SRPayload id _) => In id (clients_id s) /\ map nc_id (connected s') = map nc_id (connected s)
  | _ => map nc_id (connected s') = map nc_id (connected s)
  end.

(* the three ways a client leaves clear the slot a lookup found *)
Lemma result_ok_cleared f s k c p :
  find_slot_by f (ns_clients s) 0 = Some (k, c) ->
  result_ok s (set_slot s k None) (NOResult (SRDisconnected (nc_id c) (nc_addr c) p)).
Proof.
  intros H. cbn [result_ok]. intros T.
  destruct (lookup_nth _ _ _ _ H) as [Hn _]. destruct (lookup_unique _ _ _ T Hn) as [Hi _]. rewrite N2Nat.id in Hi.
  split; [split | apply (ids_after_clear _ _ _ _ T H)].
  - exists k, c. split; [exact Hi | reflexivity].
  - apply (find_by_id_after_clear _ _ _ _ T Hi).
Qed.

Lemma nsstep_result s o s' out : nsstep s o = Ok (s', out) -> result_ok s s' out.
Proof.
  intros H. apply nsstep_move in H.
  destruct H as [o | id p e | dt | m | a buf k c c2 Ea Hc2 | a buf k c q p Ea _ | id k c d Hf _ _ | id p k c d Hf _
                 | a buf k c q Ea _ | id k c d Hf _ _ | id k c d Hf _ | a buf es _ | a buf _ | a buf es key d _ _ _
                 | a buf es t ex d _ _ _ _ _ | a buf pc q ts td k d Ea Ep _ _ _ Ei Ef _]; cbn [result_ok].
  - reflexivity.
  - reflexivity.
  - reflexivity.
  - rewrite set_max_connected. reflexivity.
  - apply (ids_slot_update _ _ _ _ _ Ea). destruct Hc2 as [-> | ->]; reflexivity.
  - split; [|apply (ids_slot_update _ _ _ _ _ Ea); reflexivity].
    rewrite clients_id_connected. apply in_map, (find_slot_by_In _ _ _ _ _ Ea).
  - apply (ids_slot_update _ _ _ _ _ Hf). reflexivity.
  - apply (ids_slot_update _ _ _ _ _ Hf). reflexivity.
  - intros T. destruct (find_by_addr_id _ _ _ _ T Ea) as [<- _]. exact (result_ok_cleared _ s k c None Ea T).
  - intros T. destruct (find_by_id_addr _ _ _ _ T Hf) as [<- _]. exact (result_ok_cleared _ s k c (Some d) Hf T).
  - intros T. destruct (find_by_id_addr _ _ _ _ T Hf) as [<- _]. exact (result_ok_cleared _ s k c (Some d) Hf T).
  - reflexivity.
  - reflexivity.
  - reflexivity.
  - reflexivity.
  - intros T. split; [|exact (ids_after_fill (set_pending s _) k _ Ef)].
    split; [exact Ei|]. split; [exact Ea|]. eexists _, _. split.
    + apply (find_by_id_after_insert (set_pending s _) (nc_id pc) k); [exact Ei | exact Ef | reflexivity].
    + apply (table_inv_pending_wf _ _ _ T Ep).
Qed.

Theorem events_matched s o s' r :
  table_inv s -> nsstep s o = Ok (s', NOResult r) ->
  match r with
  | SRConnected id a _ _ =>
      find_by_id s id = None /\ find_by_addr s a = None /\
      (exists slot c, find_by_id s' id = Some (slot, c) /\ nc_addr c = a)
  | SRDisconnected id a _ =>
      (exists slot c, find_by_id s id = Some (slot, c) /\ nc_addr c = a) /\ find_by_id s' id = None
  | _ => map nc_id (connected s') = map nc_id (connected s)
  end.
Proof.
  intros T H. pose proof (nsstep_result _ _ _ _ H) as K. destruct r; cbn [result_ok] in K.
  - exact K.
  - exact K.
  - exact (proj2 K).
  - exact (proj1 (K T)).
  - exact (proj1 (K T)).
Qed.

(* nsmove says what a call did, not when it does nothing.  The loop of GlueP that disconnects a list of ids asks
   that of nserver_disconnect, whose silence means that the id was not connected. *)
Lemma nserver_disconnect_result s id s' r :
  nserver_disconnect s id = Ok (s', r) ->
  (r = SRNone /\ find_by_id s id = None) \/ exists a p, r = SRDisconnected id a p.
Proof.
  unfold nserver_disconnect. destruct (find_by_id s id) as [[k c]|].
  2:{ intros H. injection H as _ <-. auto. }
  destruct (encode OUT_CAP PDisconnect _ _) as [d|e|site]; intros H; try discriminate; injection H as _ <-; eauto.
Qed.

Lemma len_set_slot s i x : len (ns_clients (set_slot s i x)) = len (ns_clients s).
Proof. unfold set_slot. nsimpl. apply len_upd. Qed.

(* the datagram an API call hands to the transport, with its destination *)
Definition out_dgram (out : nsout) : option (addr * list N) :=
  match out with
  | NOResult (SRPacketToSend a d) => Some (a, d)
  | NOResult (SRConnected _ a _ d) => Some (a, d)
  | NOResult (SRDisconnected _ a (Some d)) => Some (a, d)
  | NOPayloadPacket (Ok (a, d)) => Some (a, d)
  | _ => None
  end.

Lemma nsstep_frame s o s' out :
  nsstep s o = Ok (s', out) ->
  ns_protocol s' = ns_protocol s /\
  ns_now s' = match o with NSUpdate dt => ns_now s + dt | _ => ns_now s end /\
  ns_max s' = match o with NSSetMax m => if NC_MAX_CLIENTS <? m then NC_MAX_CLIENTS else m | _ => ns_max s end /\
  (ns_global_seq s' = ns_global_seq s \/
   (ns_global_seq s' = ns_global_seq s + 1 /\ exists a d, out_dgram out = Some (a, d))).
Proof.
  intros H. pose proof (nsstep_move _ _ _ _ H) as M.
  destruct M as [o | | dt | m | | | | | | | | | | a buf es key d _ _ _ | a buf es t ex d _ _ _ _ _ | ];
    nsimpl; cbn [out_dgram]; auto.
  - (* nothing moved: the call is not NSUpdate or NSSetMax, which return NONothing *)
    destruct o; try discriminate H; auto.
  - unfold set_max_clients. destruct (len (ns_clients s) <? _); nsimpl; auto.
  - do 3 (split; [reflexivity|]). right. split; [reflexivity|]. eexists _, _. reflexivity.
  - do 3 (split; [reflexivity|]). right. split; [reflexivity|]. eexists _, _. reflexivity.
Qed.

Lemma set_max_clients_shape s m :
  ns_max s <= NC_MAX_CLIENTS -> len (ns_clients s) = ns_max s -> ns_max s <= m ->
  len (ns_clients (set_max_clients s m)) = ns_max (set_max_clients s m).
Proof.
  intros Hc Hl Hm. unfold set_max_clients.
  destruct (NC_MAX_CLIENTS <? m) eqn:E1;
  match goal with |- context [len (ns_clients s) <? ?k] => destruct (len (ns_clients s) <? k) eqn:E2 end; nsimpl;
  rewrite ?len_app, ?len_repeatN; lia.
Qed.

Lemma set_max_clients_le s m : ns_max (set_max_clients s m) <= NC_MAX_CLIENTS.
Proof. unfold set_max_clients. destruct (NC_MAX_CLIENTS <? m) eqn:E1; nsimpl; lia. Qed.

(* extra hypothesis: ns_max s <= NC_MAX_CLIENTS (true of every state built by nserver_new); without it
   NSSetMax clamps the limit below the number of slots - see slots_bound_needs_cap below *)
Theorem slots_bound s o s' out :
  ns_max s <= NC_MAX_CLIENTS ->
  len (ns_clients s) = ns_max s -> nsstep s o = Ok (s', out) ->
  (forall m, o = NSSetMax m -> ns_max s <= m) ->
  len (ns_clients s') = ns_max s' /\ ns_max s' <= NC_MAX_CLIENTS.
Proof.
  intros Hc Hl H Hm. apply nsstep_move in H.
  destruct H as [ | | | m | | | | | | | | | | | | ]; rewrite ?len_set_slot; nsimpl; auto.
  split; [apply set_max_clients_shape; auto | apply set_max_clients_le].
Qed.

Theorem connected_le_slots s : connected_count s <= len (ns_clients s).
Proof. apply count_some_le. Qed.

Lemma slots_init now max protocol addrs key chal s :
  nserver_new now max protocol addrs key chal = Ok s ->
  len (ns_clients s) = ns_max s /\ ns_max s <= NC_MAX_CLIENTS.
Proof.
  intros H. destruct (nserver_new_inv _ _ _ _ _ _ _ H) as (Hm & -> & _ & -> & _).
  rewrite len_repeatN. lia.
Qed.

Fixpoint never_lowered (cur : N) (ops : list nsop) : Prop :=
  match ops with
  | [] => True
  | NSSetMax m :: t => cur <= m /\ never_lowered (if NC_MAX_CLIENTS <? m then NC_MAX_CLIENTS else m) t
  | _ :: t => never_lowered cur t
  end.

Theorem connected_bound_run ops : forall s s' outs,
  ns_max s <= NC_MAX_CLIENTS -> len (ns_clients s) = ns_max s ->
  never_lowered (ns_max s) ops -> nsrun s ops = Ok (s', outs) ->
  len (ns_clients s') = ns_max s' /\ connected_count s' <= ns_max s'.
Proof.
  induction ops as [|o ops IH]; intros s s' outs Hc Hl Hn H.
  - injection H as <- _. split; [exact Hl | rewrite <- Hl; apply connected_le_slots].
  - apply (run_cons_ok nsstep) in H. destruct H as (s1 & out & outs1 & E & E2 & _).
    assert (Hs : forall m, o = NSSetMax m -> ns_max s <= m).
    { intros m ->. cbn [never_lowered] in Hn. tauto. }
    destruct (slots_bound _ _ _ _ Hc Hl E Hs) as [Hl1 Hc1].
    apply (IH s1 s' outs1 Hc1 Hl1); [|exact E2].
    destruct (nsstep_frame _ _ _ _ E) as (_ & _ & -> & _). destruct o; cbn [never_lowered] in Hn; tauto.
Qed.

Theorem full_server_refuses s a buf s' r :
  table_inv s -> ns_max s <= connected_count s -> len (ns_clients s) = ns_max s ->
  process_packet s a buf = Ok (s', r) ->
  (forall id a' u p, r <> SRConnected id a' u p) /\ (find_by_addr s a = None -> ns_clients s' = ns_clients s).
Proof.
  intros T Hf Hl H. apply process_step in H.
  assert (Full : first_free (ns_clients s) 0 = None).
  { apply first_free_full. pose proof (connected_le_slots s). unfold connected_count in *. lia. }
  remember (NSProcess a buf) as o0 eqn:Eo. remember (NOResult r) as out0 eqn:Er.
  destruct H as [o | | | | a1 b1 k c c2 Ea _ | a1 b1 k c q p Ea _ | | | a1 b1 k c q Ea _ | | | a1 b1 es _ | a1 b1 _
                 | a1 b1 es key d _ _ _ | a1 b1 es t ex d _ _ _ _ _ | a1 b1 pc q ts td k d _ _ _ _ _ _ Ef _];
    try discriminate Eo; try (injection Eo as -> ->); injection Er as <-.
  - split; [discriminate | reflexivity].
  - split; [discriminate | congruence].
  - split; [discriminate | congruence].
  - split; [discriminate | congruence].
  - split; [discriminate | reflexivity].
  - split; [discriminate | reflexivity].
  - split; [discriminate | reflexivity].
  - split; [discriminate | reflexivity].
  - congruence.
Qed.

Theorem no_amplification s a buf s' r :
  table_inv s -> find_by_addr s a = None -> process_packet s a buf = Ok (s', r) ->
  r = SRNone \/ (exists p, r = SRPacketToSend a p /\ len p < len buf) \/
  (exists id u p, r = SRConnected id a u p /\ len p < len buf).
Proof.
  intros T Ea H. apply process_step in H.
  remember (NSProcess a buf) as o0 eqn:Eo. remember (NOResult r) as out0 eqn:Er.
  destruct H as [o | | | | a1 b1 k c c2 Ea' _ | a1 b1 k c q p Ea' _ | | | a1 b1 k c q Ea' _ | | | a1 b1 es _ | a1 b1 _
                 | a1 b1 es key d _ Hl He | a1 b1 es t ex d _ Hv _ _ He | a1 b1 pc q ts td k d _ _ Ed _ _ _ _ He];
    try discriminate Eo; try (injection Eo as -> ->); injection Er as <-.
  - left. reflexivity.
  - congruence.
  - congruence.
  - congruence.
  - left. reflexivity.
  - left. reflexivity.
  - (* denied, to a datagram at least as long as a response *)
    right. left. exists d. split; [reflexivity|].
    apply encode_sealed_len_le in He; [|discriminate]. cbn [packet_body] in He. rewrite len_nil in He.
    pose proof keepalive_lt_response. lia.
  - (* a challenge, to a request *)
    right. left. exists d. split; [reflexivity|]. destruct Hv as (v & pr & xn & data & Hd & _ & _ & _ & Hpd & _).
    apply decode_request_len in Hd; [|reflexivity]. fold REQUEST_MIN in Hd.
    apply encode_sealed_len_le in He; [|discriminate].
    rewrite challenge_body_len in He by (eapply private_decode_user_len; exact Hpd). pose proof reply_lt_request. lia.
  - (* a keep-alive, to a response *)
    right. right. exists (nc_id pc), (nc_user pc), d. split; [reflexivity|].
    pose proof (decode_response_len _ _ _ _ _ _ Ed eq_refl : RESPONSE_MIN <= len buf) as RL.
    apply encode_sealed_len_le in He; [|discriminate].
    cbn [packet_body] in He. unfold le32 in He. rewrite len_app, !len_le_bytes in He.
    pose proof keepalive_lt_response. lia.
Qed.

(* slots_bound really needs the cap: a (not reachable) state whose limit exceeds NC_MAX_CLIENTS *)
Example slots_bound_needs_cap :
  exists s s' out, len (ns_clients s) = ns_max s /\ nsstep s (NSSetMax (ns_max s)) = Ok (s', out) /\
                   len (ns_clients s') <> ns_max s'.
Proof.
  set (s := {| ns_clients := repeatN None 1025; ns_pending := []; ns_entries := []; ns_protocol := 0;
               ns_connect_key := []; ns_max := 1025; ns_chal_seq := 0; ns_chal_key := []; ns_addrs := [];
               ns_now := 0; ns_global_seq := NC_GLOBAL_SEQUENCE_INIT; ns_secure := false |}).
  exists s, (set_max_clients s 1025), NONothing. split; [|split].
  - vm_compute. reflexivity.
  - reflexivity.
  - vm_compute. discriminate.
Qed.

Theorem server_times_out_silent s id slot c :
  table_inv s ->
  find_by_id s id = Some (slot, c) -> (0 < nc_timeout c)%Z ->
  nc_last_recv c + Z.to_N (nc_timeout c) * NS_PER_SEC < ns_now s ->
  exists s' p, update_client s id = Ok (s', SRDisconnected id (nc_addr c) p) /\ find_by_id s' id = None.
Proof.
  intros T Hf Ht Hl. destruct (update_client_found s id slot c Hf) as (dd & dk & _ & _ & ->).
  assert (Et : timed_out s c = true) by (unfold timed_out; lia). rewrite Et.
  eexists _, _. split; [reflexivity | apply (find_by_id_after_clear _ _ _ _ T Hf)].
Qed.

Theorem server_keeps_live s id slot c s' r :
  find_by_id s id = Some (slot, c) ->
  ns_now s <= nc_last_recv c + Z.to_N (nc_timeout c) * NS_PER_SEC \/ (nc_timeout c <= 0)%Z ->
  update_client s id = Ok (s', r) ->
  (forall a p, r <> SRDisconnected id a p) /\ exists c', find_by_id s' id = Some (slot, c').
Proof.
  intros Hf Hl. destruct (update_client_found s id slot c Hf) as (dd & dk & _ & _ & ->).
  assert (Et : timed_out s c = false) by (unfold timed_out; lia). rewrite Et.
  destruct (_ <=? _); intros H; injection H as <- <-; (split; [discriminate|]).
  - eexists. apply (find_slot_by_slot_update _ _ _ _ _ Hf). reflexivity.
  - eauto.
Qed.

(* nserver_update: the clock advances, the pending entries that expired before the new time (in whole
   seconds) are dropped, in place; nothing else moves *)
Theorem pending_expires s dt :
  let s' := nserver_update s dt in
  ns_now s' = ns_now s + dt /\
  ns_pending s' = filter (fun ac => negb (nc_expire (snd ac) <? as_secs (ns_now s'))) (ns_pending s) /\
  (forall a c, In (a, c) (ns_pending s') <-> In (a, c) (ns_pending s) /\ ~ nc_expire c < as_secs (ns_now s')) /\
  set_pending (set_now s' (ns_now s)) (ns_pending s) = s.
Proof.
  cbv zeta. unfold nserver_update. nsimpl. split; [reflexivity|]. split; [reflexivity|]. split.
  - intros a c. rewrite filter_In. cbn [snd]. split; intros [H1 H2]; (split; [exact H1|]); lia.
  - destruct s; reflexivity.
Qed.

Definition ex_key : list N := repeatN 7 32.
Definition ex_chal_key : list N := repeatN 9 32.
Definition ex_addr : addr := AddrV4 [127; 0; 0; 1] 5000.
Definition ex_peer : addr := AddrV4 [10; 0; 0; 1] 4000.

Example server_example :
  exists s, nserver_new 0 2 42 [ex_addr] (Some ex_key) ex_chal_key = Ok s /\
            table_inv s /\ ns_secure s = true /\ len (ns_connect_key s) = NC_KEY_BYTES /\
            len (ns_clients s) = 2 /\ connected_count s = 0 /\
            process_packet s ex_peer (zeros 18) = Ok (s, SRNone).
Proof.
  eexists. split; [reflexivity|].
  split; [apply (table_inv_new 0 2 42 [ex_addr] (Some ex_key) ex_chal_key); reflexivity|].
  do 4 (split; [reflexivity|]). reflexivity.
Qed.

Theorem global_seq_monotone s o s' out :
  nsstep s o = Ok (s', out) ->
  ns_global_seq s' = ns_global_seq s \/ ns_global_seq s' = ns_global_seq s + 1.
Proof.
  intros H. destruct (nsstep_frame _ _ _ _ H) as (_ & _ & _ & [G|[G _]]); auto.
Qed.

Theorem global_seq_init now max protocol addrs key chal s :
  nserver_new now max protocol addrs key chal = Ok s -> ns_global_seq s = NC_GLOBAL_SEQUENCE_INIT.
Proof.
  intros H. apply (nserver_new_inv _ _ _ _ _ _ _ H).
Qed.

Lemma global_seq_mono_run ops : forall s s' outs,
  nsrun s ops = Ok (s', outs) -> ns_global_seq s <= ns_global_seq s'.
Proof.
  intros s s' outs. apply (run_inv nsstep (fun x => ns_global_seq s <= ns_global_seq x)); [|lia].
  intros s0 o s1 out L E. destruct (global_seq_monotone _ _ _ _ E); lia.
Qed.

Theorem global_seq_ge_init_run ops : forall s s' outs,
  NC_GLOBAL_SEQUENCE_INIT <= ns_global_seq s -> nsrun s ops = Ok (s', outs) ->
  ns_global_seq s <= ns_global_seq s' /\ NC_GLOBAL_SEQUENCE_INIT <= ns_global_seq s'.
Proof.
  intros s s' outs Hg H. apply global_seq_mono_run in H. lia.
Qed.

(* how the datagram d sent to address a by the step s -> s' was sealed:
   - Seal_global: for an address that is not connected (challenge, denied): the global counter, which is
     then incremented;
   - Seal_conn: for a connected client: its own counter; afterwards the counter is incremented (nc_sent)
     or the connection is gone;
   - Seal_promoted: the keep-alive inside SRConnected: the counter of the pending entry, which moves
     into the slot incremented, the pending entry is gone. *)
Inductive seals (s s' : nserver) (a : addr) (d : list N) : Prop :=
| Seal_global pkt key :
    packet_id pkt <> 0 -> find_by_addr s a = None ->
    encode OUT_CAP pkt (ns_protocol s) (Some (ns_global_seq s, key)) = Ok d ->
    ns_global_seq s' = ns_global_seq s + 1 ->
    seals s s' a d
| Seal_conn pkt id slot c :
    packet_id pkt <> 0 -> find_by_id s id = Some (slot, c) -> nc_addr c = a ->
    encode OUT_CAP pkt (ns_protocol s) (Some (nc_seq c, nc_send_key c)) = Ok d ->
    ns_global_seq s' = ns_global_seq s ->
    (find_by_id s' id = Some (slot, nc_sent c (ns_now s)) \/ find_by_id s' id = None) ->
    seals s s' a d
| Seal_promoted pc slot c2 :
    pend_find a (ns_pending s) = Some pc -> find_by_id s (nc_id pc) = None ->
    encode OUT_CAP (PKeepAlive slot (ns_max s)) (ns_protocol s) (Some (nc_seq pc, nc_send_key pc)) = Ok d ->
    ns_global_seq s' = ns_global_seq s ->
    find_by_id s' (nc_id pc) = Some (slot, c2) ->
    nc_seq c2 = nc_seq pc + 1 -> nc_send_key c2 = nc_send_key pc -> nc_addr c2 = a ->
    pend_find a (ns_pending s') = None ->
    seals s s' a d.

Lemma seals_disconnect s id slot c d :
  table_inv s -> find_by_id s id = Some (slot, c) ->
  encode OUT_CAP PDisconnect (ns_protocol s) (Some (nc_seq c, nc_send_key c)) = Ok d ->
  seals s (set_slot s slot None) (nc_addr c) d.
Proof.
  intros T Hf He. apply (Seal_conn s _ (nc_addr c) d PDisconnect id slot c); try assumption; try reflexivity.
  - discriminate.
  - right. apply (find_by_id_after_clear _ _ _ _ T Hf).
Qed.

Lemma seals_sent s id slot c pkt d :
  packet_id pkt <> 0 -> find_by_id s id = Some (slot, c) ->
  encode OUT_CAP pkt (ns_protocol s) (Some (nc_seq c, nc_send_key c)) = Ok d ->
  seals s (set_slot s slot (Some (nc_sent c (ns_now s)))) (nc_addr c) d.
Proof.
  intros Hp Hf He. apply (Seal_conn s _ (nc_addr c) d pkt id slot c); try assumption; try reflexivity.
  left. apply (find_slot_by_slot_update _ _ _ _ _ Hf). reflexivity.
Qed.

Theorem server_seals_with s o s' out a d :
  table_inv s -> nsstep s o = Ok (s', out) -> out_dgram out = Some (a, d) -> seals s s' a d.
Proof.
  intros T H. apply nsstep_move in H.
  destruct H as [o | id p e | dt | m | a0 buf k c c2 _ _ | a0 buf k c q p _ _ | id k c d0 Hf _ He | id p k c d0 Hf He
                 | a0 buf k c q _ _ | id k c d0 Hf _ Eo | id k c d0 Hf Eo | a0 buf es _ | a0 buf _
                 | a0 buf es key d0 Ea _ He | a0 buf es t ex d0 Ea _ _ _ He
                 | a0 buf pc q ts td k d0 Ea Ep _ _ _ Ei Ef He];
    cbn [out_dgram]; try discriminate.
  - intros HH. injection HH as <- <-. refine (seals_sent s id k c _ d0 _ Hf He). discriminate.
  - intros HH. injection HH as <- <-. refine (seals_sent s id k c _ d0 _ Hf He). discriminate.
  - intros HH. injection HH as <- <-. apply (seals_disconnect _ _ _ _ _ T Hf Eo).
  - intros HH. injection HH as <- <-. apply (seals_disconnect _ _ _ _ _ T Hf Eo).
  - intros HH. injection HH as <- <-.
    apply (Seal_global s _ a0 d0 PDenied key); [discriminate | exact Ea | exact He | reflexivity].
  - intros HH. injection HH as <- <-.
    apply (Seal_global s _ a0 d0 (generate_challenge (pt_client_id t) (pt_user t) (ns_chal_seq s + 1) (ns_chal_key s))
                       (pt_s2c t)); [discriminate | exact Ea | exact He | reflexivity].
  - intros HH. injection HH as <- <-.
    apply (Seal_promoted s _ a0 d0 pc k (promote (seen s pc buf) (nc_user pc) (ns_now s)));
      try assumption; try reflexivity.
    + apply (find_by_id_after_insert (set_pending s _) (nc_id pc) k); [exact Ei | exact Ef | reflexivity].
    + apply (table_inv_pending_wf _ _ _ T Ep).
    + nsimpl. apply pend_find_none, pend_remove_keys. rewrite pending_seen_keys. apply (table_inv_pending_nodup _ T).
Qed.

Inductive slot_change (s : nserver) (o : nsop) (s' : nserver) (out : nsout) : Prop :=
| SC_same : ns_clients s' = ns_clients s -> slot_change s o s' out
| SC_grow n : ns_clients s' = ns_clients s ++ repeatN None n -> slot_change s o s' out
| SC_touch k c c2 buf :
    nth_opt (ns_clients s) (N.to_nat k) = Some (Some c) ->
    ns_clients s' = upd (ns_clients s) (N.to_nat k) (Some c2) ->
    same_cred c c2 -> nc_seq c2 = nc_seq c ->
    (nc_last_recv c2 = nc_last_recv c \/ nc_last_recv c2 = ns_now s) ->
    o = NSProcess (nc_addr c) buf -> window_step (nc_replay c) buf (nc_replay c2) ->
    slot_change s o s' out
| SC_sent k c pkt d :
    nth_opt (ns_clients s) (N.to_nat k) = Some (Some c) ->
    ns_clients s' = upd (ns_clients s) (N.to_nat k) (Some (nc_sent c (ns_now s))) ->
    packet_id pkt <> 0 ->
    encode OUT_CAP pkt (ns_protocol s) (Some (nc_seq c, nc_send_key c)) = Ok d ->
    out_dgram out = Some (nc_addr c, d) ->
    slot_change s o s' out
| SC_clear k c :
    nth_opt (ns_clients s) (N.to_nat k) = Some (Some c) ->
    ns_clients s' = upd (ns_clients s) (N.to_nat k) None ->
    slot_change s o s' out
| SC_fill k a buf pc c2 :
    nth_opt (ns_clients s) (N.to_nat k) = Some None ->
    ns_clients s' = upd (ns_clients s) (N.to_nat k) (Some c2) ->
    nc_last_recv c2 = ns_now s ->
    o = NSProcess a buf -> In (a, pc) (ns_pending s) -> same_cred pc c2 ->
    slot_change s o s' out.

Lemma nsstep_slot_change s o s' out : nsstep s o = Ok (s', out) -> slot_change s o s' out.
Proof.
  intros H. apply nsstep_move in H.
  destruct H as [o | id p e | dt | m | a buf k c c2 Ea Hc2 | a buf k c q p Ea _ | id k c d Hf _ He | id p k c d Hf He
                 | a buf k c q Ea _ | id k c d Hf _ _ | id k c d Hf _ | a buf es _ | a buf _ | a buf es key d _ _ _
                 | a buf es t ex d _ _ _ _ _ | a buf pc q ts td k d _ Ep _ _ _ _ Ef _];
    try (apply SC_same; reflexivity).
  - destruct (set_max_clients_clients s m) as [n E]. apply (SC_grow _ _ _ _ n E).
  - destruct (lookup_nth _ _ _ _ Ea) as [Hn Ha]. apply addr_eqb_eq in Ha. subst a.
    destruct (recv_keeps _ _ _ _ Hc2) as (Hsc & Hseq & _ & Hrp & Hlr).
    apply (SC_touch _ _ _ _ k c c2 buf Hn); auto. rewrite Hrp. apply seen_window.
  - destruct (lookup_nth _ _ _ _ Ea) as [Hn Ha]. apply addr_eqb_eq in Ha. subst a.
    apply (SC_touch _ _ _ _ k c (nc_received (seen s c buf) (ns_now s)) buf Hn); nsimpl; auto.
    + unfold same_cred. nsimpl. tauto.
    + apply seen_window.
  - apply (SC_sent _ _ _ _ k c (PKeepAlive k (ns_max s)) d);
      [apply (lookup_nth _ _ _ _ Hf) | reflexivity | discriminate | exact He | reflexivity].
  - apply (SC_sent _ _ _ _ k c (PPayload p) d);
      [apply (lookup_nth _ _ _ _ Hf) | reflexivity | discriminate | exact He | reflexivity].
  - apply (SC_clear _ _ _ _ k c); [apply (lookup_nth _ _ _ _ Ea) | reflexivity].
  - apply (SC_clear _ _ _ _ k c); [apply (lookup_nth _ _ _ _ Hf) | reflexivity].
  - apply (SC_clear _ _ _ _ k c); [apply (lookup_nth _ _ _ _ Hf) | reflexivity].
  - destruct (free_split _ _ Ef) as (l1 & l2 & E1 & E2 & _).
    apply (SC_fill _ _ _ _ k a buf pc (promote (seen s pc buf) (nc_user pc) (ns_now s)));
      [rewrite E1, E2; apply nth_opt_app_mid | reflexivity | reflexivity | reflexivity | apply pend_find_In; exact Ep
       | unfold same_cred, promote; nsimpl; tauto].
Qed.

(* a connected client's counter and key: every call leaves them alone, or removes the connection, or uses
   the counter for the datagram of that very call and increments it *)
Theorem seq_frame s o s' out id slot c :
  table_inv s -> nsstep s o = Ok (s', out) -> find_by_id s id = Some (slot, c) ->
  find_by_id s' id = None \/
  exists c', find_by_id s' id = Some (slot, c') /\ nc_send_key c' = nc_send_key c /\ nc_addr c' = nc_addr c /\
    (nc_seq c' = nc_seq c \/
     (nc_seq c' = nc_seq c + 1 /\ exists pkt d, packet_id pkt <> 0 /\ out_dgram out = Some (nc_addr c, d) /\
        encode OUT_CAP pkt (ns_protocol s) (Some (nc_seq c, nc_send_key c)) = Ok d)).
Proof.
  intros T E Hf. pose proof (table_inv_step _ _ _ _ T E) as T'.
  destruct (lookup_nth _ _ _ _ Hf) as [Hn Hid]. apply N.eqb_eq in Hid.
  assert (Stay : forall c', nth_opt (ns_clients s') (N.to_nat slot) = Some (Some c') -> nc_id c' = id ->
                            find_by_id s' id = Some (slot, c')).
  { intros c' Hn' Hi'. destruct (lookup_unique _ _ _ T' Hn') as [K _]. rewrite Hi', N2Nat.id in K. exact K. }
  pose proof (nth_opt_some_lt _ _ _ Hn) as Hlt.
  (* the slot still holds c: in particular when another slot was written *)
  match goal with |- ?G =>
    assert (Same : nth_opt (ns_clients s') (N.to_nat slot) = Some (Some c) -> G);
    [|assert (Other : forall k x, k <> slot -> ns_clients s' = upd (ns_clients s) (N.to_nat k) x -> G)] end.
  { intros Hn'. right. exists c. split; [apply Stay; assumption|]. auto. }
  { intros k x Hne Hc. apply Same. rewrite Hc, nth_opt_upd_other; [exact Hn | lia]. }
  destruct (nsstep_slot_change _ _ _ _ E) as [Hc | n Hc | k c0 c2 buf Hk Hc (Hi & _ & _ & Hkey & _ & Ha & _) Hseq _ _ _
                                             | k c0 pkt d Hk Hc Hp He Ho | k c0 Hk Hc | k a0 buf pc c2 Hk Hc _ _ _ _].
  - apply Same. rewrite Hc. exact Hn.
  - apply Same. rewrite Hc. apply nth_opt_app_l, Hn.
  - destruct (N.eq_dec k slot) as [->|Hne]; [|apply (Other _ _ Hne Hc)].
    rewrite Hn in Hk. injection Hk as <-. right. exists c2.
    split; [apply Stay; [rewrite Hc; apply nth_opt_upd_same; exact Hlt | congruence]|]. auto.
  - destruct (N.eq_dec k slot) as [->|Hne]; [|apply (Other _ _ Hne Hc)].
    rewrite Hn in Hk. injection Hk as <-. right. exists (nc_sent c (ns_now s)).
    split; [apply Stay; [rewrite Hc; apply nth_opt_upd_same; exact Hlt | exact Hid]|].
    split; [reflexivity|]. split; [reflexivity|]. right. split; [reflexivity|]. eauto.
  - destruct (N.eq_dec k slot) as [->|Hne]; [|apply (Other _ _ Hne Hc)].
    left. pose proof (find_by_id_after_clear _ _ _ _ T Hf) as K.
    unfold find_by_id in *. rewrite Hc. exact K.
  - destruct (N.eq_dec k slot) as [->|Hne]; [congruence | apply (Other _ _ Hne Hc)].
Qed.

(* pending entries have never sent anything on their own counter: it is 0 until the promotion *)
Definition pending_fresh (s : nserver) : Prop := Forall (fun ac => nc_seq (snd ac) = 0) (ns_pending s).

Definition pending_from (s : nserver) (o : nsop) (a1 : addr) (pc' : nconn) : Prop :=
  (exists pc, In (a1, pc) (ns_pending s) /\ same_cred pc pc' /\ nc_seq pc' = nc_seq pc) \/
  (exists buf t ex, o = NSProcess a1 buf /\ request_validates s buf t ex /\
                    pc' = fresh_conn t a1 (ns_now s) ex (ns_chal_seq s + 1)).

Lemma pending_from_old s o a1 pc' : In (a1, pc') (ns_pending s) -> pending_from s o a1 pc'.
Proof. intros H. left. exists pc'. split; [exact H|]. split; [apply same_cred_refl | reflexivity]. Qed.

Lemma nsstep_pending_origin s o s' out a1 pc' :
  nsstep s o = Ok (s', out) -> In (a1, pc') (ns_pending s') -> pending_from s o a1 pc'.
Proof.
  intros H Hin. apply nsstep_move in H.
  assert (Seen : forall a buf, In (a1, pc') (pending_seen s a buf) -> pending_from s (NSProcess a buf) a1 pc').
  { intros a buf Hi. left. apply (pending_seen_from _ _ _ _ _ Hi). }
  destruct H as [o | id p e | dt | m | a buf k c c2 _ _ | a buf k c q p _ _ | id k c d _ _ _ | id p k c d _ _
                 | a buf k c q _ _ | id k c d _ _ _ | id k c d _ _ | a buf es _ | a buf _ | a buf es key d _ _ _
                 | a buf es t ex d _ Hv _ _ _ | a buf pc q ts td k d _ _ _ _ _ _ _ _];
    nsimpl_in Hin; try (apply pending_from_old; exact Hin).
  - apply pending_from_old. unfold nserver_update in Hin. nsimpl_in Hin. apply filter_In in Hin. apply Hin.
  - apply pending_from_old. rewrite set_max_clients_pending in Hin. exact Hin.
  - apply (Seen _ _ Hin).
  - apply (Seen _ _ (pend_remove_In _ _ _ Hin)).
  - apply (Seen _ _ (pend_remove_In _ _ _ Hin)).
  - apply pend_put_In in Hin. destruct Hin as [Hx|Hin]; [|apply (Seen _ _ Hin)]. injection Hx as -> ->.
    unfold pending_entry. nsimpl. destruct (pend_find a (pending_seen s a buf)) as [old|] eqn:E.
    + (* the entry of the address, its clocks reset *)
      destruct (pending_seen_from _ _ _ _ _ (pend_find_In _ _ _ E)) as (c0 & Hc0 & Hsc & Hq).
      left. exists c0. split; [exact Hc0|].
      split; [exact (same_cred_trans _ _ _ Hsc (same_cred_refresh _ _)) | exact Hq].
    + right. exists buf, t, ex. auto.
  - apply (Seen _ _ (pend_remove_In _ _ _ Hin)).
Qed.

Theorem pending_fresh_init now max protocol addrs key chal s :
  nserver_new now max protocol addrs key chal = Ok s -> pending_fresh s.
Proof.
  intros H. destruct (nserver_new_inv _ _ _ _ _ _ _ H) as (_ & _ & Hp & _).
  unfold pending_fresh. rewrite Hp. constructor.
Qed.

Theorem pending_fresh_step s o s' out : pending_fresh s -> nsstep s o = Ok (s', out) -> pending_fresh s'.
Proof.
  unfold pending_fresh. intros F H. rewrite Forall_forall in *. intros [a1 pc'] Hin. cbn [snd].
  destruct (nsstep_pending_origin _ _ _ _ _ _ H Hin) as [(pc & Ho & _ & Hq)|(buf & t & ex & _ & _ & ->)]; [|reflexivity].
  rewrite Hq. apply (F _ Ho).
Qed.

(* hence the keep-alive inside SRConnected carries sequence number 0 *)
Corollary promoted_seq_zero s a pc :
  pending_fresh s -> pend_find a (ns_pending s) = Some pc -> nc_seq pc = 0.
Proof.
  intros F H. apply pend_find_In in H. unfold pending_fresh in F. rewrite Forall_forall in F. apply (F _ H).
Qed.

(* when the global counter moves, a datagram was sealed with it and sent to an address that is not connected
   (the right-hand side repeats the left: only this direction has content) *)
Theorem global_seq_used_iff s o s' out :
  table_inv s -> nsstep s o = Ok (s', out) ->
  (ns_global_seq s' = ns_global_seq s + 1 <->
   exists a d pkt key, out_dgram out = Some (a, d) /\ find_by_addr s a = None /\ packet_id pkt <> 0 /\
      encode OUT_CAP pkt (ns_protocol s) (Some (ns_global_seq s, key)) = Ok d /\
      ns_global_seq s' = ns_global_seq s + 1).
Proof.
  intros T E. split; [|intros (a & d & pkt & key & _ & _ & _ & _ & H); exact H].
  intros Hg.
  destruct (nsstep_frame _ _ _ _ E) as (_ & _ & _ & [G|[_ Hd]]); [lia|].
  destruct Hd as [a [d Hd]]. exists a, d.
  destruct (server_seals_with _ _ _ _ _ _ T E Hd) as [pkt key Hp Ha He Hs | pkt id slot c Hp Hf Ha He Hs _ | pc slot c2 _ _ _ Hs].
  - exists pkt, key. auto.
  - lia.
  - lia.
Qed.

(* a global sequence number that was used is below the counter for ever after *)
Corollary global_seq_never_reused s o s1 out ops s2 outs :
  nsstep s o = Ok (s1, out) -> ns_global_seq s1 = ns_global_seq s + 1 ->
  nsrun s1 ops = Ok (s2, outs) -> ns_global_seq s < ns_global_seq s2.
Proof. intros _ H1 H2. apply global_seq_mono_run in H2. lia. Qed.

Lemma nsstep_protocol s o s' out : nsstep s o = Ok (s', out) -> ns_protocol s' = ns_protocol s.
Proof. intros H. apply (nsstep_frame _ _ _ _ H). Qed.

Definition dgram_to (a : addr) (out : nsout) : list (list N) :=
  match out_dgram out with
  | Some (a', d) => if addr_eqb a' a then [d] else []
  | None => []
  end.
Definition dgrams_to (a : addr) (outs : list nsout) : list (list N) := flat_map (dgram_to a) outs.

Fixpoint stays_connected (id : N) (s : nserver) (ops : list nsop) : Prop :=
  match ops with
  | [] => True
  | o :: t => match nsstep s o with
              | Ok (s1, _) => find_by_id s1 id <> None /\ stays_connected id s1 t
              | _ => True
              end
  end.

Fixpoint seq_from (q : N) (n : nat) : list N :=
  match n with O => [] | S k => q :: seq_from (q + 1) k end.

Lemma conn_seq_step s o s1 out id slot c :
  table_inv s -> nsstep s o = Ok (s1, out) -> find_by_id s id = Some (slot, c) -> find_by_id s1 id <> None ->
  exists c1, find_by_id s1 id = Some (slot, c1) /\ nc_send_key c1 = nc_send_key c /\ nc_addr c1 = nc_addr c /\
    ((nc_seq c1 = nc_seq c /\ dgram_to (nc_addr c) out = []) \/
     (nc_seq c1 = nc_seq c + 1 /\ exists pkt d, packet_id pkt <> 0 /\ dgram_to (nc_addr c) out = [d] /\
        encode OUT_CAP pkt (ns_protocol s) (Some (nc_seq c, nc_send_key c)) = Ok d)).
Proof.
  intros T E Hf Hs.
  destruct (seq_frame _ _ _ _ _ _ _ T E Hf) as [Hn | [c1 [Hf1 [Hk [Ha Hq]]]]]; [contradiction|].
  exists c1. split; [exact Hf1|]. split; [exact Hk|]. split; [exact Ha|].
  destruct Hq as [Hq | [Hq [pkt [d [Hp [Ho He]]]]]].
  - left. split; [exact Hq|]. unfold dgram_to.
    destruct (out_dgram out) as [[a' d]|] eqn:Eo; [|reflexivity].
    destruct (addr_eqb a' (nc_addr c)) eqn:Ea; [|reflexivity]. exfalso.
    apply addr_eqb_eq in Ea. subst a'.
    destruct (find_by_id_addr _ _ _ _ T Hf) as [Hid Hfa].
    destruct (server_seals_with _ _ _ _ _ _ T E Eo) as [pkt key Hp Hna He Hg | pkt id' slot' c'' Hp Hf' Ha' He Hg Hafter | pc slot' c2 Hpf _ _ _ _ _ _ _ _].
    + congruence.
    + destruct (find_by_id_addr _ _ _ _ T Hf') as [Hid' Hfa']. rewrite Ha', Hfa in Hfa'.
      injection Hfa' as <- <-. subst id'. rewrite Hid in Hafter. destruct Hafter as [Hx|Hx]; [|congruence].
      rewrite Hf1 in Hx. injection Hx as ->. cbn [nc_sent nc_seq] in Hq. lia.
    + apply pend_find_In in Hpf. apply T in Hpf. destruct Hpf as [_ Hx]. congruence.
  - right. split; [exact Hq|]. exists pkt, d. split; [exact Hp|]. split; [|exact He].
    unfold dgram_to. rewrite Ho, addr_eqb_refl. reflexivity.
Qed.

Definition sealed_with (proto : N) (key : list N) (d : list N) (q : N) : Prop :=
  exists pkt, packet_id pkt <> 0 /\ encode OUT_CAP pkt proto (Some (q, key)) = Ok d.

Theorem conn_seqs_contiguous ops : forall s s' outs id slot c,
  table_inv s -> nsrun s ops = Ok (s', outs) -> find_by_id s id = Some (slot, c) -> stays_connected id s ops ->
  exists c', find_by_id s' id = Some (slot, c') /\ nc_send_key c' = nc_send_key c /\ nc_addr c' = nc_addr c /\
    nc_seq c <= nc_seq c' /\
    Forall2 (sealed_with (ns_protocol s) (nc_send_key c))
            (dgrams_to (nc_addr c) outs) (seq_from (nc_seq c) (N.to_nat (nc_seq c' - nc_seq c))).
Proof.
  induction ops as [|o ops IH]; intros s s' outs id slot c T H Hf Hst.
  - injection H as <- <-. exists c. repeat split; auto; try lia.
    rewrite N.sub_diag. constructor.
  - apply (run_cons_ok nsstep) in H. destruct H as (s1 & out & outs2 & E & E2 & ->).
    cbn [stays_connected] in Hst. rewrite E in Hst. destruct Hst as [Hs Hrest].
    destruct (conn_seq_step _ _ _ _ _ _ _ T E Hf Hs) as [c1 [Hf1 [Hk1 [Ha1 Hq]]]].
    destruct (IH _ _ _ _ _ _ (table_inv_step _ _ _ _ T E) E2 Hf1 Hrest) as [c' [Hf' [Hk' [Ha' [Hle HF]]]]].
    rewrite (nsstep_protocol _ _ _ _ E), Hk1, Ha1 in HF.
    exists c'. split; [exact Hf'|]. split; [congruence|]. split; [congruence|].
    unfold dgrams_to. cbn [flat_map]. fold (dgrams_to (nc_addr c) outs2).
    destruct Hq as [[Hq Hd] | [Hq [pkt [d [Hp [Hd He]]]]]]; rewrite Hd; cbn [app].
    + rewrite Hq in *. split; [exact Hle | exact HF].
    + split; [lia|].
      replace (N.to_nat (nc_seq c' - nc_seq c)) with (S (N.to_nat (nc_seq c' - nc_seq c1))) by lia.
      cbn [seq_from]. constructor; [exists pkt; auto | rewrite <- Hq; exact HF].
Qed.

Lemma seq_from_lower q n x : In x (seq_from q n) -> q <= x < q + N.of_nat n.
Proof.
  revert q. induction n as [|n IH]; intros q; cbn [seq_from In]; [tauto|].
  intros [<-|H]; [lia|]. specialize (IH _ H). lia.
Qed.

Lemma seq_from_NoDup q n : NoDup (seq_from q n).
Proof.
  revert q. induction n as [|n IH]; intros q; cbn [seq_from]; constructor; [|apply IH].
  intros H. apply seq_from_lower in H. lia.
Qed.

(* in terms of the sequence number readable in the datagrams (Spec dgram_seq): pairwise distinct *)
Corollary conn_dgram_seqs_distinct ops s s' outs id slot c c' :
  table_inv s -> nsrun s ops = Ok (s', outs) -> find_by_id s id = Some (slot, c) -> stays_connected id s ops ->
  find_by_id s' id = Some (slot, c') -> nc_seq c' <= NC_GLOBAL_SEQUENCE_INIT ->
  map dgram_seq (dgrams_to (nc_addr c) outs) = seq_from (nc_seq c) (N.to_nat (nc_seq c' - nc_seq c)) /\
  NoDup (map dgram_seq (dgrams_to (nc_addr c) outs)) /\
  Forall (fun q => q < NC_GLOBAL_SEQUENCE_INIT) (map dgram_seq (dgrams_to (nc_addr c) outs)).
Proof.
  intros T E Hf Hs Hf' Hb.
  destruct (conn_seqs_contiguous _ _ _ _ _ _ _ T E Hf Hs) as [c2 [Hf2 [_ [_ [Hle HF]]]]].
  rewrite Hf' in Hf2. injection Hf2 as <-.
  assert (M : map dgram_seq (dgrams_to (nc_addr c) outs) = seq_from (nc_seq c) (N.to_nat (nc_seq c' - nc_seq c))).
  { assert (B : forall x, In x (seq_from (nc_seq c) (N.to_nat (nc_seq c' - nc_seq c))) -> x < U64).
    { intros x Hx. apply seq_from_lower in Hx. rewrite global_seq_init_val in Hb. unfold U64.
      assert (2 ^ 63 < 18446744073709551616) by reflexivity. lia. }
    revert B. induction HF as [|d q ds qs [pkt [Hp He]] HF IH]; intros B; cbn [map]; [reflexivity|].
    rewrite (encode_dgram_seq _ _ _ _ _ _ Hp (B _ (or_introl eq_refl)) He), IH; [reflexivity|].
    intros x Hx. apply B. right. exact Hx. }
  split; [exact M|]. rewrite M. split; [apply seq_from_NoDup|].
  apply Forall_forall. intros x Hx. apply seq_from_lower in Hx. lia.
Qed.

Lemma count_after_insert s idx c :
  first_free (ns_clients s) 0 = Some idx -> connected_count (set_slot s idx (Some c)) = connected_count s + 1.
Proof.
  intros H. destruct (free_split _ _ H) as [l1 [l2 [E1 [E2 E5]]]].
  unfold connected_count. rewrite E5, E1, !count_some_app, count_some_cons_some, count_some_cons_none. lia.
Qed.

Lemma count_slot_update f s slot c c' :
  find_slot_by f (ns_clients s) 0 = Some (slot, c) -> connected_count (set_slot s slot (Some c')) = connected_count s.
Proof.
  intros H. destruct (lookup_split _ _ _ _ H) as [l1 [l2 [E1 [_ [_ [_ E5]]]]]].
  unfold connected_count. rewrite E5, E1, !count_some_app, !count_some_cons_some. reflexivity.
Qed.

Lemma response_promotes s a pc ts q buf idx :
  find_by_addr s a = None -> pend_find a (ns_pending s) = Some pc ->
  find_by_id s (nc_id pc) = None -> first_free (ns_clients s) 0 = Some idx ->
  nc_id pc < U64 -> len (nc_user pc) = NC_USER_DATA_BYTES -> ts < U64 -> q < U64 -> nc_chal_floor pc <= ts ->
  encode OUT_CAP (PResponse ts (aead_seal (ns_chal_key s) (nonce_of ts) [] (challenge_plain (nc_id pc) (nc_user pc))))
         (ns_protocol s) (Some (q, nc_recv_key pc)) = Ok buf ->
  exists out,
    encode OUT_CAP (PKeepAlive idx (ns_max s)) (ns_protocol s) (Some (nc_seq pc, nc_send_key pc)) = Ok out /\
    process_packet s a buf =
      Ok (set_slot (set_pending s (pend_remove a (pend_put a pc (ns_pending s)))) idx
                   (Some (promote pc (nc_user pc) (ns_now s))),
          SRConnected (nc_id pc) a (nc_user pc) out).
Proof.
  intros Ea Ep Ei Ef Hid Hu Hts Hq Hfl He.
  pose proof (challenge_decode_generate (nc_id pc) (nc_user pc) ts (ns_chal_key s) Hid Hu) as Hc.
  unfold generate_challenge in Hc. destruct Hc as [_ [Ltd Hcd]].
  set (td := aead_seal (ns_chal_key s) (nonce_of ts) [] (challenge_plain (nc_id pc) (nc_user pc))) in *.
  assert (Hp3 : packet_id (PResponse ts td) <> 0) by (cbn [packet_id]; lia).
  assert (Lb : len (packet_body (PResponse ts td)) = 8 + NC_CHALLENGE_BYTES).
  { cbn [packet_body]. unfold le64. rewrite len_app, len_le_bytes. lia. }
  assert (Hdec : decode buf (ns_protocol s) (Some (nc_recv_key pc)) (Some (nc_replay pc)) =
                 (Some (nc_replay pc), Ok (q, PResponse ts td))).
  { rewrite (decode_encode OUT_CAP (PResponse ts td) (ns_protocol s) q (nc_recv_key pc) buf (Some (nc_replay pc))); try assumption.
    - reflexivity.
    - cbn [npacket_wf]. auto.
    - rewrite Lb. lia.
    - intros r _. reflexivity. }
  assert (Hl : 2 + NC_MAC_BYTES <= len buf).
  { pose proof (encode_sealed_len _ _ _ _ _ _ Hp3 He) as L. rewrite Lb in L. lia. }
  destruct (keepalive_encodes idx (ns_max s) (ns_protocol s) (nc_seq pc) (nc_send_key pc)) as [out Eo].
  exists out. split; [exact Eo|].
  unfold process_packet. rewrite (ppi_pending_long _ _ _ _ Hl Ea Ep), Hdec.
  cbn [fst snd pend_step opt_replay]. rewrite nc_with_replay_id. unfold resp_step, find_by_id in *. nsimpl.
  rewrite Hcd. cbv beta iota.
  assert (E1 : (ts <? nc_chal_floor pc) = false) by lia. rewrite E1.
  rewrite N.eqb_refl, bytes_eqb_refl. cbn [negb orb]. cbv zeta. nsimpl.
  rewrite Ei, Ef, Eo. reflexivity.
Qed.

(* No hypothesis on ns_max: the limit is only looked at when the request arrives.  After NSSetMax has
   lowered the limit, pending clients are still promoted as long as a slot is free, so that
   connected_count can grow above ns_max (compare full_server_refuses, which needs
   len (ns_clients s) = ns_max s). *)
Theorem response_connects s a pc ts q buf idx :
  find_by_addr s a = None -> pend_find a (ns_pending s) = Some pc ->
  find_by_id s (nc_id pc) = None -> first_free (ns_clients s) 0 = Some idx ->
  nc_id pc < U64 -> len (nc_user pc) = NC_USER_DATA_BYTES -> ts < U64 -> q < U64 -> nc_chal_floor pc <= ts ->
  encode OUT_CAP (PResponse ts (aead_seal (ns_chal_key s) (nonce_of ts) [] (challenge_plain (nc_id pc) (nc_user pc))))
         (ns_protocol s) (Some (q, nc_recv_key pc)) = Ok buf ->
  exists s' out, process_packet s a buf = Ok (s', SRConnected (nc_id pc) a (nc_user pc) out) /\
                 connected_count s' = connected_count s + 1 /\ ns_max s' = ns_max s.
Proof.
  intros Ea Ep Ei Ef Hid Hu Hts Hq Hfl He.
  destruct (response_promotes _ _ _ _ _ _ _ Ea Ep Ei Ef Hid Hu Hts Hq Hfl He) as (out & _ & H).
  eexists. exists out. split; [exact H|]. split; [|reflexivity].
  apply (count_after_insert (set_pending s _) idx _ Ef).
Qed.

Corollary limit_bypassed_after_lowering s a pc ts q buf idx :
  ns_max s <= connected_count s ->
  find_by_addr s a = None -> pend_find a (ns_pending s) = Some pc ->
  find_by_id s (nc_id pc) = None -> first_free (ns_clients s) 0 = Some idx ->
  nc_id pc < U64 -> len (nc_user pc) = NC_USER_DATA_BYTES -> ts < U64 -> q < U64 -> nc_chal_floor pc <= ts ->
  encode OUT_CAP (PResponse ts (aead_seal (ns_chal_key s) (nonce_of ts) [] (challenge_plain (nc_id pc) (nc_user pc))))
         (ns_protocol s) (Some (q, nc_recv_key pc)) = Ok buf ->
  exists s' id u p, process_packet s a buf = Ok (s', SRConnected id a u p) /\ ns_max s' < connected_count s'.
Proof.
  intros Hm Ea Ep Ei Ef Hid Hu Hts Hq Hfl He.
  destruct (response_connects _ _ _ _ _ _ _ Ea Ep Ei Ef Hid Hu Hts Hq Hfl He) as [s' [out [H1 [H2 H3]]]].
  exists s', (nc_id pc), (nc_user pc), out. split; [exact H1 | lia].
Qed.

(* the hypotheses of the corollary are consistent with table_inv: a state with limit 0, one free slot
   (the limit was 1 when the request came in) and one pending client *)
Definition bypass_pc : nconn :=
  {| nc_confirmed := false; nc_id := 7; nc_send_key := ex_key; nc_recv_key := ex_key; nc_user := zeros NC_USER_DATA_BYTES;
     nc_addr := ex_peer; nc_last_recv := 0; nc_last_send := 0; nc_timeout := 15%Z; nc_seq := 0; nc_expire := 100;
     nc_replay := replay_new; nc_chal_floor := 1 |}.
Definition bypass_state : nserver :=
  {| ns_clients := [None]; ns_pending := [(ex_peer, bypass_pc)]; ns_entries := []; ns_protocol := 42;
     ns_connect_key := ex_key; ns_max := 0; ns_chal_seq := 1; ns_chal_key := ex_chal_key; ns_addrs := [ex_addr];
     ns_now := 0; ns_global_seq := NC_GLOBAL_SEQUENCE_INIT + 1; ns_secure := true |}.

Example limit_bypass_witness :
  table_inv bypass_state /\ pending_fresh bypass_state /\
  exists buf s' id u p,
    process_packet bypass_state ex_peer buf = Ok (s', SRConnected id ex_peer u p) /\
    ns_max s' = 0 /\ connected_count s' = 1.
Proof.
  split; [|split].
  - unfold table_inv, bypass_state, connected. nsimpl. cbn [some_list map fst distinct_by In].
    repeat split; try tauto; try constructor.
    + destruct H as [H|[]]. injection H as <- <-. reflexivity.
    + cbn [snd]. apply replay_new_wf.
    + constructor.
  - repeat constructor.
  - assert (Hu : len (nc_user bypass_pc) = NC_USER_DATA_BYTES) by apply len_zeros.
    destruct (response_encodes (nc_id bypass_pc) (nc_user bypass_pc) 1 (ns_chal_key bypass_state)
                (ns_protocol bypass_state) 0 (nc_recv_key bypass_pc) (N.eq_le_incl _ _ Hu)) as [buf Eb].
    assert (U : 1 < U64 /\ 0 < U64 /\ 7 < U64) by (unfold U64; lia).
    destruct U as [U1 [U0 U7]].
    assert (Hfl : nc_chal_floor bypass_pc <= 1) by (cbn [bypass_pc nc_chal_floor]; lia).
    destruct (response_connects bypass_state ex_peer bypass_pc 1 0 buf 0
                eq_refl eq_refl eq_refl eq_refl U7 Hu U1 U0 Hfl Eb) as [s' [out [H1 [H2 H3]]]].
    exists buf, s', (nc_id bypass_pc), (nc_user bypass_pc), out. split; [exact H1|]. split; [exact H3|].
    rewrite H2. reflexivity.
Qed.

Definition clock_inv (s : nserver) : Prop := Forall (fun c => nc_last_recv c <= ns_now s) (connected s).

Theorem clock_inv_init now max protocol addrs key chal s :
  nserver_new now max protocol addrs key chal = Ok s -> clock_inv s.
Proof.
  intros H. unfold clock_inv. rewrite (connected_new _ _ _ _ _ _ _ H). constructor.
Qed.

Theorem clock_inv_step s o s' out : clock_inv s -> nsstep s o = Ok (s', out) -> clock_inv s'.
Proof.
  unfold clock_inv. intros C E. rewrite Forall_forall in C.
  assert (Hnow : ns_now s <= ns_now s').
  { destruct (nsstep_frame _ _ _ _ E) as (_ & -> & _). destruct o; lia. }
  assert (Old : forall c, In (Some c) (ns_clients s) -> nc_last_recv c <= ns_now s').
  { intros c Hc. apply some_list_In in Hc. specialize (C _ Hc). lia. }
  apply Forall_forall. intros c' Hc'. unfold connected in Hc'. apply some_list_In in Hc'.
  destruct (nsstep_slot_change _ _ _ _ E) as [Hc | n Hc | k c0 c2 buf Hk Hc _ _ Hr _ _ | k c0 pkt d Hk Hc _ _ _
                                             | k c0 Hk Hc | k a0 buf pc c2 Hk Hc Hr _ _ _]; rewrite Hc in Hc'.
  - auto.
  - apply in_app_or in Hc'. destruct Hc' as [H|H]; [auto|]. apply In_repeatN in H. discriminate.
  - apply In_upd in Hc'. destruct Hc' as [H|H]; [|auto]. injection H as ->.
    apply nth_opt_in in Hk. specialize (Old _ Hk). lia.
  - apply In_upd in Hc'. destruct Hc' as [H|H]; [|auto]. injection H as ->.
    apply nth_opt_in in Hk. apply (Old _ Hk).
  - apply In_upd in Hc'. destruct Hc' as [H|H]; [discriminate|auto].
  - apply In_upd in Hc'. destruct Hc' as [H|H]; [|auto]. injection H as ->. lia.
Qed.

Theorem time_since_no_panic s id : clock_inv s -> exists r, time_since_last_received s id = Ok r.
Proof.
  intros C. unfold time_since_last_received. destruct (find_by_id s id) as [[slot c]|] eqn:E; [|eauto].
  apply find_slot_by_In in E. destruct E as [Hin _]. unfold clock_inv in C. rewrite Forall_forall in C.
  specialize (C _ Hin). unfold sub_chk. destruct (nc_last_recv c <=? ns_now s) eqn:E1; [|lia].
  cbn [bind]. eauto.
Qed.

Print Assumptions process_packet_no_panic.
Print Assumptions update_client_no_panic.
Print Assumptions nserver_disconnect_no_panic.
Print Assumptions generate_payload_no_panic.
Print Assumptions nsstep_no_panic.
Print Assumptions table_inv_init.
Print Assumptions table_inv_step.
Print Assumptions table_inv_run.
Print Assumptions lookup_unique.
Print Assumptions slots_bound.
Print Assumptions connected_le_slots.
Print Assumptions connected_bound_run.
Print Assumptions events_matched.
Print Assumptions full_server_refuses.
Print Assumptions no_amplification.
Print Assumptions server_times_out_silent.
Print Assumptions server_keeps_live.
Print Assumptions pending_expires.
Print Assumptions global_seq_monotone.
Print Assumptions global_seq_ge_init_run.
Print Assumptions global_seq_used_iff.
Print Assumptions server_seals_with.
Print Assumptions seq_frame.
Print Assumptions pending_fresh_step.
Print Assumptions conn_seqs_contiguous.
Print Assumptions conn_dgram_seqs_distinct.
Print Assumptions encode_dgram_seq.
Print Assumptions server_example.
Print Assumptions response_connects.
Print Assumptions limit_bypassed_after_lowering.
Print Assumptions clock_inv_step.
Print Assumptions time_since_no_panic.
Print Assumptions limit_bypass_witness.

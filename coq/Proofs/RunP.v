(* RunP.v - the run of a step function in the outcome monad, once.

   [crun], [srun] and [nsrun] are [run cstep], [run sstep], [run nsstep] by conversion, and [sys_run] is
   [steps sys_step] (no outputs), so the lemmas here apply to goals stated with those names as they stand.
   Applied to a closed run, though, unification would compare the two fixpoints by evaluating the run: the
   file with evaluated examples over [crun] keeps an instance stated over variables ([DisconnectP.crun_app]).
   [GlueSpec.wrun] and [NSysSpec.run_rounds] take their state pair, resp. their round, apart and so are not
   convertible to a [run]: they agree with one pointwise ([GlueP.wrun_is_run], [NSysP.run_rounds_run]). *)
From RenetV Require Import Base.
From RenetV.Proofs Require Import BaseP.

Section Run.
  Context {Er S Op O : Type} (step : S -> Op -> res Er (S * O)).

  Fixpoint run (s : S) (ops : list Op) : res Er (S * list O) :=
    match ops with
    | [] => Ok (s, [])
    | o :: t =>
        do r <- step s o;
        let (s1, out) := r in
        do r2 <- run s1 t;
        let (s2, outs) := r2 in
        Ok (s2, out :: outs)
    end.

  Lemma run_cons_ok s o t s' outs :
    run s (o :: t) = Ok (s', outs) ->
    exists s1 out outs1, step s o = Ok (s1, out) /\ run s1 t = Ok (s', outs1) /\ outs = out :: outs1.
  Proof.
    cbn [run]. intros H. apply bind_ok in H as ([s1 out] & E1 & H). apply bind_ok in H as ([s2 outs1] & E2 & H).
    injection H as <- <-. exists s1, out, outs1. auto.
  Qed.

  Lemma run_cons_intro s o t s1 out s' outs :
    step s o = Ok (s1, out) -> run s1 t = Ok (s', outs) -> run s (o :: t) = Ok (s', out :: outs).
  Proof. intros E1 E2. cbn [run]. rewrite E1. cbn [bind]. rewrite E2. reflexivity. Qed.

  Lemma run_app a b : forall s,
    run s (a ++ b) = (do r1 <- run s a; do r2 <- run (fst r1) b; Ok (fst r2, snd r1 ++ snd r2)).
  Proof.
    induction a as [|o a IH]; intros s; cbn [app run bind fst snd].
    - destruct (run s b) as [[s2 o2]|e|site]; reflexivity.
    - destruct (step s o) as [[s1 out]|e|site]; cbn [bind]; [|reflexivity..].
      rewrite IH. destruct (run s1 a) as [[s2 o1]|e|site]; cbn [bind fst snd]; [|reflexivity..].
      destruct (run s2 b) as [[s3 o2]|e|site]; reflexivity.
  Qed.

  Lemma run_app_intro a b s s1 o1 s2 o2 :
    run s a = Ok (s1, o1) -> run s1 b = Ok (s2, o2) -> run s (a ++ b) = Ok (s2, o1 ++ o2).
  Proof. intros E1 E2. rewrite run_app, E1. cbn [bind fst snd]. rewrite E2. reflexivity. Qed.

  Lemma run_app_ok a b s s' outs :
    run s (a ++ b) = Ok (s', outs) ->
    exists s1 o1 o2, run s a = Ok (s1, o1) /\ run s1 b = Ok (s', o2) /\ outs = o1 ++ o2.
  Proof.
    rewrite run_app. intros H. apply bind_ok in H as ([s1 o1] & E1 & H). apply bind_ok in H as ([s2 o2] & E2 & H).
    injection H as <- <-. exists s1, o1, o2. auto.
  Qed.

  Lemma run_snoc_ok l o s s' outs :
    run s (l ++ [o]) = Ok (s', outs) ->
    exists s1 o1 out, run s l = Ok (s1, o1) /\ step s1 o = Ok (s', out) /\ outs = o1 ++ [out].
  Proof.
    intros H. apply run_app_ok in H as (s1 & o1 & o2 & E1 & E2 & ->).
    apply run_cons_ok in E2 as (s2 & out & outs1 & E2 & E3 & ->). injection E3 as <- <-.
    exists s1, o1, out. auto.
  Qed.

  Lemma run_nth ops : forall s s' outs k out,
    run s ops = Ok (s', outs) -> nth_error outs k = Some out ->
    exists s1 o1 op s2, run s (firstn k ops) = Ok (s1, o1) /\ nth_error ops k = Some op /\
                        step s1 op = Ok (s2, out).
  Proof.
    induction ops as [|o ops IH]; intros s s' outs k out H Hn.
    - injection H as _ <-. destruct k; discriminate Hn.
    - apply run_cons_ok in H as (s1 & out1 & outs1 & E & E2 & ->). destruct k as [|k]; cbn [nth_error firstn] in *.
      + injection Hn as <-. exists s, [], o, s1. auto.
      + destruct (IH _ _ _ _ _ E2 Hn) as (sa & oa & op & sb & Ha & Hop & Hs).
        exists sa, (out1 :: oa), op, sb. rewrite (run_cons_intro _ _ _ _ _ _ _ E Ha). auto.
  Qed.

  Lemma run_snoc_ind s0 (Q : list Op -> S -> list O -> Prop) :
    Q [] s0 [] ->
    (forall l o s1 o1 s out, run s0 l = Ok (s1, o1) -> Q l s1 o1 -> step s1 o = Ok (s, out) ->
                             Q (l ++ [o]) s (o1 ++ [out])) ->
    forall ops s outs, run s0 ops = Ok (s, outs) -> Q ops s outs.
  Proof.
    intros Q0 Step. induction ops as [|o l IH] using rev_ind; intros s outs H.
    - injection H as <- <-. exact Q0.
    - apply run_snoc_ok in H as (s1 & o1 & out & H1 & E & ->). exact (Step _ _ _ _ _ _ H1 (IH _ _ H1) E).
  Qed.

  Lemma run_inv (P : S -> Prop) :
    (forall s o s' out, P s -> step s o = Ok (s', out) -> P s') ->
    forall ops s s' outs, P s -> run s ops = Ok (s', outs) -> P s'.
  Proof.
    intros Step. induction ops as [|o t IH]; intros s s' outs Ps H.
    - injection H as <- _. exact Ps.
    - apply run_cons_ok in H as (s1 & out & outs1 & E & E2 & _). exact (IH _ _ _ (Step _ _ _ _ Ps E) E2).
  Qed.

  Lemma run_inv_outs (Q : list O -> S -> Prop) :
    (forall T s o s' out, Q T s -> step s o = Ok (s', out) -> Q (T ++ [out]) s') ->
    forall ops T s s' outs, Q T s -> run s ops = Ok (s', outs) -> Q (T ++ outs) s'.
  Proof.
    intros Step. induction ops as [|o t IH]; intros T s s' outs HQ H.
    - injection H as <- <-. now rewrite app_nil_r.
    - apply run_cons_ok in H as (s1 & out & outs1 & E & E2 & ->).
      change (out :: outs1) with ([out] ++ outs1). rewrite app_assoc. exact (IH _ _ _ _ (Step _ _ _ _ _ HQ E) E2).
  Qed.

  Lemma run_inv_outs_under (P : S -> Prop) (Q : list O -> S -> Prop) :
    (forall s o s' out, P s -> step s o = Ok (s', out) -> P s') ->
    (forall T s o s' out, P s -> Q T s -> step s o = Ok (s', out) -> Q (T ++ [out]) s') ->
    forall ops T s s' outs, P s -> Q T s -> run s ops = Ok (s', outs) -> Q (T ++ outs) s'.
  Proof.
    intros HP HQ ops T s s' outs Ps Qs H.
    apply (run_inv_outs (fun T s => P s /\ Q T s)) with (3 := H); [|auto].
    intros T0 s0 o s1 out [P0 Q0] E. split; [exact (HP _ _ _ _ P0 E) | exact (HQ _ _ _ _ _ P0 Q0 E)].
  Qed.
End Run.

Arguments run_cons_intro {Er S Op O} step {s o t s1 out s' outs}.
Arguments run_app_intro {Er S Op O} step {a b s s1 o1 s2 o2}.
Arguments run_nth {Er S Op O} step {ops s s' outs k out}.

Section Steps.
  Context {Er S Op : Type} (step : S -> Op -> res Er S).

  Fixpoint steps (s : S) (ops : list Op) : res Er S :=
    match ops with
    | [] => Ok s
    | o :: t => do s' <- step s o; steps s' t
    end.

  Lemma steps_app a b : forall s, steps s (a ++ b) = (do s' <- steps s a; steps s' b).
  Proof.
    induction a as [|o a IH]; intros s; cbn [app steps]; [reflexivity|].
    destruct (step s o); cbn [bind]; auto.
  Qed.

  Lemma steps_inv (P : S -> Prop) :
    (forall s o s', P s -> step s o = Ok s' -> P s') ->
    forall ops s s', P s -> steps s ops = Ok s' -> P s'.
  Proof.
    intros Step. induction ops as [|o t IH]; intros s s' Ps H; cbn [steps] in H.
    - injection H as <-. exact Ps.
    - apply bind_ok in H as (s1 & E1 & H). exact (IH _ _ (Step _ _ _ Ps E1) H).
  Qed.

  Lemma steps_inv_under (P Q : S -> Prop) :
    (forall s o s', P s -> step s o = Ok s' -> P s') ->
    (forall s o s', P s -> Q s -> step s o = Ok s' -> Q s') ->
    forall ops s s', P s -> Q s -> steps s ops = Ok s' -> Q s'.
  Proof.
    intros HP HQ ops s s' Ps Qs H. apply (steps_inv (fun s => P s /\ Q s)) with (3 := H); [|auto].
    intros s0 o s1 [P0 Q0] E. split; [exact (HP _ _ _ P0 E) | exact (HQ _ _ _ P0 Q0 E)].
  Qed.
End Steps.

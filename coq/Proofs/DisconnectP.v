(* DisconnectP.v - "disconnection is final": once a connection is Disconnected r, every public
   call leaves it Disconnected with the same first reason r, emits no packet and yields no message. *)
From RenetV Require Import Base Consts Varint Packet Channels Conn ConnSpec BaseP RunP ConnStepP.
Open Scope N_scope.

Lemma is_disconnected_status : forall c, is_disconnected c = true <-> exists r, c_status c = Disconnected r.
Proof.
  intros c. unfold is_disconnected. split.
  - destruct (c_status c); try discriminate. eauto.
  - intros [r ->]. reflexivity.
Qed.

Lemma status_is_disconnected : forall c r, c_status c = Disconnected r -> is_disconnected c = true.
Proof. intros c r H. unfold is_disconnected. rewrite H. reflexivity. Qed.

Lemma status_with_sr : forall c x, c_status (with_sr c x) = c_status c. Proof. reflexivity. Qed.
Lemma status_with_su : forall c x, c_status (with_su c x) = c_status c. Proof. reflexivity. Qed.
Lemma status_with_rr : forall c x, c_status (with_rr c x) = c_status c. Proof. reflexivity. Qed.
Lemma status_with_ru : forall c x, c_status (with_ru c x) = c_status c. Proof. reflexivity. Qed.
Lemma status_with_acks : forall c x, c_status (with_acks c x) = c_status c. Proof. reflexivity. Qed.
Lemma status_with_sent : forall c x, c_status (with_sent c x) = c_status c. Proof. reflexivity. Qed.
Lemma status_with_seq : forall c x, c_status (with_seq c x) = c_status c. Proof. reflexivity. Qed.
Lemma status_with_now : forall c x, c_status (with_now c x) = c_status c. Proof. reflexivity. Qed.
Lemma status_set_status : forall c s, c_status (set_status c s) = s. Proof. reflexivity. Qed.

Lemma disconnect_with_is_disconnected : forall c r, is_disconnected (disconnect_with c r) = true.
Proof.
  intros c r. unfold disconnect_with. destruct (is_disconnected c) eqn:E; [exact E | reflexivity].
Qed.

Lemma send_message_disconnected_noop : forall c ch m,
    is_disconnected c = true -> send_message c ch m = Ok c.
Proof. intros c ch m H. unfold send_message. rewrite H. reflexivity. Qed.

Lemma receive_message_disconnected_noop : forall c ch,
    is_disconnected c = true -> receive_message c ch = Ok (c, None).
Proof. intros c ch H. unfold receive_message. rewrite H. reflexivity. Qed.

Lemma process_packet_disconnected_noop : forall c b,
    is_disconnected c = true -> process_packet c b = Ok c.
Proof. intros c b H. unfold process_packet. rewrite H. reflexivity. Qed.

Lemma get_packets_to_send_disconnected_noop : forall c,
    is_disconnected c = true -> get_packets_to_send c = Ok (c, []).
Proof. intros c H. unfold get_packets_to_send. rewrite H. reflexivity. Qed.

Lemma set_connected_disconnected_noop : forall c, is_disconnected c = true -> set_connected c = c.
Proof. intros c H. unfold set_connected. rewrite H. reflexivity. Qed.

Lemma set_connecting_disconnected_noop : forall c, is_disconnected c = true -> set_connecting c = c.
Proof. intros c H. unfold set_connecting. rewrite H. reflexivity. Qed.

(* disconnect and disconnect_transport are disconnect_with at a fixed reason *)
Lemma disconnect_with_disconnected_noop : forall c r, is_disconnected c = true -> disconnect_with c r = c.
Proof. intros c r H. unfold disconnect_with. rewrite H. reflexivity. Qed.

(* update still advances the clock and ages the receive/sent tables of a disconnected connection *)
Lemma update_status : forall c dt c', update c dt = Ok c' -> c_status c' = c_status c.
Proof.
  intros c dt c' E. destruct (update_unfold c dt c' E) as (ru & sent & _ & _ & ->). reflexivity.
Qed.

Lemma cstep_disconnected : forall c o c' out,
    is_disconnected c = true -> cstep c o = Ok (c', out) ->
    quiet out /\ c_status c' = c_status c /\ ((forall dt, o <> CUpdate dt) -> c' = c).
Proof.
  intros c o c' out Hd E.
  destruct (cstep_inv _ _ _ _ E) as [op st S| | | | |dt ru sent _ _| |]; try congruence.
  - destruct S as [op _ _| | |]; try congruence.
    rewrite set_status_same. split; [now destruct op|]. split; [reflexivity|]. intros _. reflexivity.
  - split; [exact I|]. split; [reflexivity|]. intros H. now destruct (H dt).
Qed.

Lemma cstep_status : forall c o c' out,
    cstep c o = Ok (c', out) -> forall r, c_status c = Disconnected r -> c_status c' = Disconnected r.
Proof.
  intros c o c' out H r Hs.
  destruct (cstep_disconnected _ _ _ _ (status_is_disconnected c r Hs) H) as (_ & E & _). congruence.
Qed.

Lemma cstep_dead_mono c o c' out : cstep c o = Ok (c', out) -> is_disconnected c = true -> is_disconnected c' = true.
Proof.
  intros E Hd. destruct (cstep_disconnected _ _ _ _ Hd E) as (_ & Es & _). unfold is_disconnected in *. now rewrite Es.
Qed.

Lemma cstep_disconnected_same : forall c o c' out,
    cstep c o = Ok (c', out) -> is_disconnected c = true ->
    (forall dt, o <> CUpdate dt) -> c' = c.
Proof. intros c o c' out H Hd. apply (cstep_disconnected _ _ _ _ Hd H). Qed.

(* the instance is named for the closed examples: applied to a concrete run, [run_app_intro cstep] would have
   the unifier compare [crun] and [run cstep] by evaluating the run *)
Lemma crun_app a b c c1 o1 c2 o2 :
  crun c a = Ok (c1, o1) -> crun c1 b = Ok (c2, o2) -> crun c (a ++ b) = Ok (c2, o1 ++ o2).
Proof. exact (run_app_intro cstep). Qed.

Theorem disconnected_absorbing : forall c ops c' outs r,
    c_status c = Disconnected r -> crun c ops = Ok (c', outs) ->
    c_status c' = Disconnected r /\ Forall quiet outs.
Proof.
  intros c ops c' outs r Hs H.
  apply (run_inv_outs cstep (fun T c => c_status c = Disconnected r /\ Forall quiet T)) with (T := []) (3 := H).
  2:{ auto. }
  intros T s o s' out [Hs0 HT] E.
  destruct (cstep_disconnected _ _ _ _ (status_is_disconnected _ _ Hs0) E) as (Hq & Hs1 & _).
  rewrite Hs0 in Hs1. split; [exact Hs1 | apply Forall_app; auto].
Qed.

Corollary first_reason_kept : forall c ops1 ops2 c1 c2 o1 o2 r,
    crun c ops1 = Ok (c1, o1) -> c_status c1 = Disconnected r ->
    crun c1 ops2 = Ok (c2, o2) -> c_status c2 = Disconnected r.
Proof.
  intros c ops1 ops2 c1 c2 o1 o2 r _ Hs H2.
  exact (proj1 (disconnected_absorbing _ _ _ _ _ Hs H2)).
Qed.

Lemma disconnect_with_idem : forall c r1 r2,
    disconnect_with (disconnect_with c r1) r2 = disconnect_with c r1.
Proof.
  intros c r1 r2. apply disconnect_with_disconnected_noop. apply disconnect_with_is_disconnected.
Qed.

Lemma disconnect_with_first : forall c r1 r2,
    c_status (disconnect_with (disconnect_with c r1) r2) = c_status (disconnect_with c r1).
Proof. intros c r1 r2. rewrite disconnect_with_idem. reflexivity. Qed.

Definition packet_reason (r : reason) : Prop :=
  (exists e, r = RPacketDeserialization e) \/
  (exists ch, r = RReceivedInvalidChannelId ch) \/
  (exists ch e, r = RReceiveChannelError ch e).

Lemma parsed_step_status c1 p c' : is_disconnected c1 = false -> parsed_step c1 p c' ->
  c_status c' = c_status c1 \/ exists r, c_status c' = Disconnected r /\ refusal r.
Proof.
  intros Hd [p0 r Hr| | | | |sq rs l c2 _ Ea]; try (left; reflexivity).
  - right. exists r. split; [reflexivity|exact Hr].
  - left. exact (af_status (apply_acks_frame _ _ _ Ea)).
Qed.

Theorem process_packet_reasons : forall c b c',
    process_packet c b = Ok c' ->
    c_status c' = c_status c \/
    exists r, c_status c' = Disconnected r /\
              ((exists e, r = RPacketDeserialization e) \/
               (exists ch, r = RReceivedInvalidChannelId ch) \/
               (exists ch e, r = RReceiveChannelError ch e)).
Proof.
  intros c b c' E. destruct (process_packet_cases _ _ _ E) as [(st & S & ->)|(p & Hd & Hp & PS)].
  - inversion S as [op Hd _|op _ Hs| |b0 e Hd He]; subst; cbn [set_status c_status].
    + now left.
    + discriminate Hs.
    + right. exists (RPacketDeserialization e). split; [reflexivity|]. left. now exists e.
  - destruct (parsed_step_status (note_seq c (packet_seq p)) _ _ Hd PS) as [H|(r & H & Hr)]; [now left|right].
    exists r. split; [exact H|]. right. destruct Hr as [ch|ch e]; [left|right]; eauto.
Qed.

Corollary process_packet_keeps_reason : forall c b c' r,
    c_status c = Disconnected r -> process_packet c b = Ok c' -> c' = c.
Proof.
  intros c b c' r Hs H.
  rewrite process_packet_disconnected_noop in H by (eapply status_is_disconnected; eauto). congruence.
Qed.

(* non-vacuity: a connection that is disconnected by the transport, then by the application (the first reason
   stays), then fed everything *)
Definition ex_cfg : list chan_config := [ {| cc_id := 0; cc_max := 10000; cc_type := TReliableOrdered 300 |} ].

Example absorbing_run :
  match conn_new 60000 ex_cfg ex_cfg with
  | Ok c =>
      match crun c [CSetConnected; CSend 0 [1;2;3]; CDisconnectTransport; CDisconnect; CSetConnected;
                    CSend 0 [4]; CProcess [9;9;9]; CRecv 0; CFlush; CUpdate 5] with
      | Ok (c', outs) => (c_status c', outs)
      | _ => (Connecting, [])
      end
  | _ => (Connecting, [])
  end
  = (Disconnected RTransport,
     [ONone; ONone; ONone; ONone; ONone; ONone; ONone; OMsg None; OPkts []; ONone]).
Proof. evaluates. Qed.

(* update on a disconnected connection is NOT the identity: the clock still advances, so the
   per-call lemma for update can only speak about the status *)
Example update_not_identity_when_disconnected :
  match conn_new 60000 ex_cfg ex_cfg with
  | Ok c => match update (disconnect c) 5 with
            | Ok c' => (c_now (disconnect c), c_now c', c_status c')
            | _ => (0, 0, Connecting)
            end
  | _ => (0, 0, Connecting)
  end = (0, 5, Disconnected RDisconnectedByClient).
Proof. evaluates. Qed.

Print Assumptions send_message_disconnected_noop.
Print Assumptions receive_message_disconnected_noop.
Print Assumptions process_packet_disconnected_noop.
Print Assumptions get_packets_to_send_disconnected_noop.
Print Assumptions set_connected_disconnected_noop.
Print Assumptions set_connecting_disconnected_noop.
Print Assumptions disconnect_with_disconnected_noop.
Print Assumptions update_status.
Print Assumptions cstep_status.
Print Assumptions disconnected_absorbing.
Print Assumptions first_reason_kept.
Print Assumptions disconnect_with_first.
Print Assumptions process_packet_reasons.

(* TokenP.v - renetcode connect tokens (token.rs): no panics on arbitrary bytes,
   round trips of the address list, of the sealed private part and of the public
   token, and what a private part that opens is bound to. *)
From Coq Require Import ZArith Lia ZifyBool ZifyN ZifyNat.
From RenetV Require Import Base Consts Aead NPacket Token NetSpec AeadP NPacketP.
Import ListNotations.
Open Scope N_scope.

(* the readers skip several fields at once: [dropN (a + b)] is cut into the fields *)
#[global] Hint Rewrite @dropN_add : fields.

Lemma addr_none_val : NC_ADDR_NONE = 0.  Proof. reflexivity. Qed.
Lemma addr_v4_val : NC_ADDR_V4 = 1.  Proof. reflexivity. Qed.
Lemma addr_v6_val : NC_ADDR_V6 = 2.  Proof. reflexivity. Qed.

Lemma len_i32_bytes z : len (i32_bytes z) = 4.
Proof. apply len_le32. Qed.

Lemma i32_roundtrip z : (-2147483648 <= z < 2147483648)%Z -> i32_of (le_val (i32_bytes z)) = z.
Proof.
  intro H. unfold i32_bytes.
  pose proof (Z.mod_pos_bound z 4294967296 eq_refl) as B.
  rewrite le_val_le32 by lia. unfold i32_of.
  assert (z mod 4294967296 = z \/ z mod 4294967296 = z + 4294967296)%Z as [M|M].
  { pose proof (Z.div_mod z 4294967296 ltac:(discriminate)).
    assert (z / 4294967296 = 0 \/ z / 4294967296 = -1)%Z by lia. lia. }
  - destruct (Z.to_N (z mod 4294967296) <? 2147483648) eqn:E; [rewrite Z2N.id; lia | exfalso; lia].
  - destruct (Z.to_N (z mod 4294967296) <? 2147483648) eqn:E; [exfalso; lia | rewrite Z2N.id; lia].
Qed.

Lemma i32_of_range v : v < 4294967296 -> (-2147483648 <= i32_of v < 2147483648)%Z.
Proof. intro H. unfold i32_of. destruct (v <? 2147483648) eqn:E; lia. Qed.

Lemma read_addrs_loop_no_panic : forall fuel src acc, is_panic (read_addrs_loop fuel src acc) = false.
Proof.
  induction fuel as [|f IH]; intros src acc; cbn [read_addrs_loop]; [reflexivity|].
  destruct src as [|ty r]; [reflexivity|].
  destruct (ty =? NC_ADDR_V4).
  { destruct (len r <? 6); [reflexivity | apply IH]. }
  destruct (ty =? NC_ADDR_V6).
  { destruct (len r <? 18); [reflexivity | apply IH]. }
  destruct (ty =? NC_ADDR_NONE); [apply IH | reflexivity].
Qed.

Theorem read_server_addresses_no_panic : forall src, is_panic (read_server_addresses src) = false.
Proof.
  intro src. unfold read_server_addresses.
  destruct (len src <? 4); [reflexivity|]. cbv zeta.
  apply bind_no_panic; [apply read_addrs_loop_no_panic|].
  intros [found rest]. destruct found; reflexivity.
Qed.

Lemma read_ip_port k ip port r : len ip = k -> port < 65536 ->
  (len (ip ++ le16 port ++ r) <? k + 2) = false /\
  takeN k (ip ++ le16 port ++ r) = ip /\ le_val (takeN 2 (dropN k (ip ++ le16 port ++ r))) = port /\
  dropN (k + 2) (ip ++ le16 port ++ r) = r.
Proof.
  intros Hl Hp. rewrite !len_app, len_le16, Hl. autorewrite with fields.
  rewrite le_val_le16 by exact Hp. split; [lia | auto].
Qed.

Lemma read_addrs_loop_some f a r acc : addr_wf a ->
  read_addrs_loop (S f) (write_addr a ++ r) acc = read_addrs_loop f r (acc ++ [Some a]).
Proof.
  destruct a as [ip port|ip port]; cbn [addr_wf write_addr app read_addrs_loop]; intros (Hl & _ & Hp);
    rewrite <- app_assoc.
  - destruct (read_ip_port 4 ip port r Hl Hp) as (E & -> & -> & D). change (4 + 2) with 6 in E, D.
    rewrite N.eqb_refl, E, D. reflexivity.
  - destruct (read_ip_port 16 ip port r Hl Hp) as (E & -> & -> & D). change (16 + 2) with 18 in E, D.
    change (NC_ADDR_V6 =? NC_ADDR_V4) with false. cbv iota. rewrite N.eqb_refl, E, D. reflexivity.
Qed.

Lemma write_addrs_body_app a b : write_addrs_body (a ++ b) = write_addrs_body a ++ write_addrs_body b.
Proof.
  induction a as [|[x|] a IH]; cbn [app write_addrs_body]; [reflexivity| |exact IH].
  rewrite IH, app_assoc. reflexivity.
Qed.

Lemma write_addrs_body_none k : write_addrs_body (repeatN None k) = [].
Proof. induction k; cbn [repeatN write_addrs_body]; auto. Qed.

Lemma write_addrs_body_pad l : write_addrs_body (pad_slots l) = write_addrs_body l.
Proof. unfold pad_slots. rewrite write_addrs_body_app, write_addrs_body_none, app_nil_r. reflexivity. Qed.

Lemma count_some_app {A} (a b : list (option A)) : count_some (a ++ b) = count_some a + count_some b.
Proof. unfold count_some. rewrite filter_app, len_app. reflexivity. Qed.

Lemma count_some_none {A} k : count_some (repeatN (@None A) k) = 0.
Proof. induction k; cbn [repeatN]; [reflexivity|]. unfold count_some in *. cbn [filter]. exact IHk. Qed.

Lemma count_some_map_some {A} (l : list A) : count_some (map Some l) = len l.
Proof.
  unfold count_some. induction l as [|x l IH]; [reflexivity|].
  cbn [map filter]. rewrite !len_cons, IH. reflexivity.
Qed.

Lemma count_some_pad (addrs : list addr) : count_some (pad_slots (map Some addrs)) = len addrs.
Proof. unfold pad_slots. rewrite count_some_app, count_some_none, count_some_map_some. lia. Qed.

Lemma read_addrs_loop_write : forall addrs acc rest,
  Forall addr_wf addrs ->
  read_addrs_loop (length addrs) (write_addrs_body (map Some addrs) ++ rest) acc =
  Ok (acc ++ map Some addrs, rest).
Proof.
  induction addrs as [|a t IH]; intros acc rest F.
  - cbn [length map write_addrs_body app read_addrs_loop]. rewrite app_nil_r. reflexivity.
  - inversion F as [|? ? Ha Ft]; subst. cbn [length map write_addrs_body].
    rewrite <- app_assoc, read_addrs_loop_some, IH, <- app_assoc by assumption. reflexivity.
Qed.

Theorem addrs_roundtrip : forall l rest, slots_wf l ->
  read_server_addresses (write_server_addresses l ++ rest) = Ok (l, rest).
Proof.
  intros l rest (addrs & -> & H1 & H32 & F).
  unfold write_server_addresses. rewrite count_some_pad, write_addrs_body_pad.
  unfold read_server_addresses. rewrite <- app_assoc.
  assert (E : (len (le32 (len addrs) ++ write_addrs_body (map Some addrs) ++ rest) <? 4) = false).
  { rewrite len_app, len_le32. lia. }
  rewrite E. cbv zeta. autorewrite with fields. rewrite le_val_le32 by lia.
  assert (E2 : (32 <? len addrs) = false) by lia. rewrite E2.
  unfold len at 1. rewrite Nat2N.id.
  rewrite read_addrs_loop_write by exact F. cbn [bind app].
  destruct addrs as [|a t]; [rewrite len_nil in H1; lia|]. reflexivity.
Qed.

Lemma len_write_server_addresses_ge l : 4 <= len (write_server_addresses l).
Proof. unfold write_server_addresses. rewrite len_app, len_le32. lia. Qed.

Lemma read_addrs_loop_step f src acc res : read_addrs_loop (S f) src acc = Ok res ->
  exists r acc', read_addrs_loop f r acc' = Ok res /\ (bytes_ok src -> bytes_ok r) /\
    (acc' = acc \/ exists a, acc' = acc ++ [Some a] /\ (bytes_ok src -> addr_wf a)).
Proof.
  intros H. cbn [read_addrs_loop] in H. destruct src as [|ty r]; [discriminate|].
  assert (B : bytes_ok (ty :: r) -> bytes_ok r) by (intros Br; apply bytes_ok_cons in Br; apply Br).
  assert (W : forall k, k + 2 <= len r -> bytes_ok (ty :: r) ->
            len (takeN k r) = k /\ bytes_ok (takeN k r) /\ le_val (takeN 2 (dropN k r)) < 65536).
  { intros k L Br. apply B in Br. split; [apply len_takeN_le; lia|]. split; [apply bytes_ok_takeN, Br|].
    apply (le_val_takeN_lt 2), bytes_ok_dropN, Br. }
  destruct (ty =? NC_ADDR_V4).
  { destruct (len r <? 6) eqn:E; [discriminate|]. exists (dropN 6 r). eexists.
    split; [exact H|]. split; [intros Br; apply bytes_ok_dropN, B, Br|]. right. eexists. split; [reflexivity|].
    apply (W 4). lia. }
  destruct (ty =? NC_ADDR_V6).
  { destruct (len r <? 18) eqn:E; [discriminate|]. exists (dropN 18 r). eexists.
    split; [exact H|]. split; [intros Br; apply bytes_ok_dropN, B, Br|]. right. eexists. split; [reflexivity|].
    apply (W 16). lia. }
  destruct (ty =? NC_ADDR_NONE); [|discriminate]. exists r, acc. auto.
Qed.

Lemma read_addrs_loop_wf : forall fuel src acc found rest,
  read_addrs_loop fuel src acc = Ok (found, rest) ->
  exists addrs, found = acc ++ map Some addrs /\ (length addrs <= fuel)%nat /\
                (bytes_ok src -> Forall addr_wf addrs /\ bytes_ok rest).
Proof.
  induction fuel as [|f IH]; intros src acc found rest H.
  - injection H as <- <-. exists []. rewrite app_nil_r. auto.
  - destruct (read_addrs_loop_step _ _ _ _ H) as (r & acc' & H' & Br & Hacc).
    destruct (IH _ _ _ _ H') as (addrs & -> & L & F).
    destruct Hacc as [->|(a & -> & Wa)].
    + exists addrs. auto.
    + exists (a :: addrs). rewrite <- app_assoc.
      split; [reflexivity|]. split; [cbn [length]; lia|].
      intros B. destruct (F (Br B)) as [Fa Brest]. split; [constructor; auto | exact Brest].
Qed.

Lemma read_server_addresses_inv src l rest : read_server_addresses src = Ok (l, rest) ->
  exists addrs, l = pad_slots (map Some addrs) /\ 1 <= len addrs /\ len addrs <= 32 /\
                (bytes_ok src -> Forall addr_wf addrs /\ bytes_ok rest).
Proof.
  intros H. unfold read_server_addresses in H.
  destruct (len src <? 4); [discriminate|]. cbv zeta in H.
  apply bind_ok in H. destruct H as ([found rest'] & R & H).
  apply read_addrs_loop_wf in R. destruct R as (addrs & -> & L & F). cbn [app] in H.
  destruct addrs as [|a t]; [discriminate|].
  cbn [map] in H. injection H as <- <-.
  exists (a :: t). split; [reflexivity|]. split; [rewrite len_cons; lia|]. split.
  - destruct (32 <? le_val (takeN 4 src)) eqn:E; unfold len; lia.
  - intros B. apply F, bytes_ok_dropN, B.
Qed.

Theorem read_server_addresses_wf : forall src l rest,
  bytes_ok src -> read_server_addresses src = Ok (l, rest) -> slots_wf l /\ bytes_ok rest.
Proof.
  intros src l rest B H. destruct (read_server_addresses_inv _ _ _ H) as (addrs & -> & H1 & H32 & F).
  destruct (F B) as [Fa Br]. split; [exists addrs; auto | exact Br].
Qed.

Theorem private_read_no_panic : forall src, is_panic (private_read src) = false.
Proof.
  intro src. unfold private_read.
  destruct (len src <? 12); [reflexivity|]. cbv zeta.
  apply bind_no_panic; [apply read_server_addresses_no_panic|].
  intros [addrs r1]. destruct (len r1 <? _); reflexivity.
Qed.

Theorem private_decode_no_panic : forall data protocol expire xn key,
  is_panic (private_decode data protocol expire xn key) = false.
Proof.
  intros. unfold private_decode. destruct (xaead_open _ _ _ _) as [plain|]; [|reflexivity].
  pose proof (private_read_no_panic plain) as NP.
  destruct (private_read plain); [reflexivity|reflexivity|discriminate].
Qed.

Theorem token_read_no_panic : forall src, is_panic (token_read src) = false.
Proof.
  intro src. unfold token_read.
  destruct (len src <? 8 + 13); [reflexivity|]. cbv zeta.
  destruct (negb _); [reflexivity|].
  destruct (len (dropN 21 src) <? _); [reflexivity|].
  apply bind_no_panic; [apply read_server_addresses_no_panic|].
  intros [addrs r4]. destruct (len r4 <? _); reflexivity.
Qed.

Lemma private_read_plain : forall t, private_wf t -> private_read (private_plain t) = Ok t.
Proof.
  intros [id timeout addrs c2s s2c user] (Hid & Hto & Hsl & Hc & Hs & Hu).
  cbn [pt_client_id pt_timeout pt_addrs pt_c2s pt_s2c pt_user] in *.
  unfold private_plain. cbn [pt_client_id pt_timeout pt_addrs pt_c2s pt_s2c pt_user]. cbv zeta.
  set (pad := zeros _). rewrite <- !app_assoc.
  unfold private_read.
  assert (E : (len (le64 id ++ i32_bytes timeout ++ write_server_addresses addrs ++ c2s ++ s2c ++ user ++ pad) <? 12) = false).
  { rewrite !len_app, len_le64, len_i32_bytes. lia. }
  rewrite E. cbv zeta.
  change 12 with (8 + 4). autorewrite with fields.
  rewrite addrs_roundtrip by exact Hsl. cbn [bind].
  assert (E2 : (len (c2s ++ s2c ++ user ++ pad) <? NC_KEY_BYTES + NC_KEY_BYTES + NC_USER_DATA_BYTES) = false).
  { rewrite !len_app, Hc, Hs, Hu. lia. }
  rewrite E2.
  change (2 * NC_KEY_BYTES) with (NC_KEY_BYTES + NC_KEY_BYTES). autorewrite with fields.
  rewrite le_val_le64 by exact Hid. rewrite i32_roundtrip by exact Hto. reflexivity.
Qed.

Theorem private_roundtrip : forall t protocol expire xn key, private_wf t ->
  private_decode (private_encode t protocol expire xn key) protocol expire xn key = Ok t.
Proof.
  intros t protocol expire xn key W. unfold private_decode, private_encode.
  rewrite xaead_open_seal, private_read_plain by exact W. reflexivity.
Qed.

(* the private part opens only if it was sealed under this key and extended nonce with THIS
   protocol id and expiry as associated data *)
Theorem private_decode_sound : forall data protocol expire xn key t,
  private_decode data protocol expire xn key = Ok t ->
  exists plain, data = xaead_seal key xn (token_aad protocol expire) plain /\ private_read plain = Ok t.
Proof.
  intros data protocol expire xn key t H. unfold private_decode in H.
  destruct (xaead_open key xn (token_aad protocol expire) data) as [plain|] eqn:Eo; [|discriminate].
  exists plain. split; [apply xaead_open_iff; exact Eo|].
  destruct (private_read plain); [injection H as <-; reflexivity | discriminate | discriminate].
Qed.

Lemma token_aad_inj p1 e1 p2 e2 : p1 < U64 -> e1 < U64 -> p2 < U64 -> e2 < U64 ->
  token_aad p1 e1 = token_aad p2 e2 -> p1 = p2 /\ e1 = e2.
Proof.
  intros H1 H2 H3 H4 E. unfold token_aad in E. apply app_inv_head in E.
  assert (E1 : takeN 8 (le64 p1 ++ le64 e1) = takeN 8 (le64 p2 ++ le64 e2)) by (rewrite E; reflexivity).
  assert (E2 : dropN 8 (le64 p1 ++ le64 e1) = dropN 8 (le64 p2 ++ le64 e2)) by (rewrite E; reflexivity).
  rewrite !(takeN_app_exact 8) in E1 by apply len_le64.
  rewrite !(dropN_app_exact 8) in E2 by apply len_le64.
  split.
  - rewrite <- (le_val_le64 p1 H1), <- (le_val_le64 p2 H3), E1. reflexivity.
  - rewrite <- (le_val_le64 e1 H2), <- (le_val_le64 e2 H4), E2. reflexivity.
Qed.

Lemma len_write_addr a : addr_wf a -> len (write_addr a) <= 19.
Proof.
  destruct a as [ip p|ip p]; cbn [addr_wf write_addr]; intros (H & _ & _);
    rewrite !len_app, len_le16, H; cbn; lia.
Qed.

Lemma len_write_addrs_body addrs : Forall addr_wf addrs ->
  len (write_addrs_body (map Some addrs)) <= 19 * len addrs.
Proof.
  induction 1 as [|a t Ha Ft IH]; [cbn; lia|].
  cbn [map write_addrs_body]. rewrite len_app, len_cons. pose proof (len_write_addr a Ha). lia.
Qed.

Theorem private_encode_length : forall t protocol expire xn key, private_wf t ->
  len (private_encode t protocol expire xn key) = NC_PRIVATE_BYTES.
Proof.
  intros [id timeout addrs c2s s2c user] protocol expire xn key (Hid & Hto & Hsl & Hc & Hs & Hu).
  cbn [pt_client_id pt_timeout pt_addrs pt_c2s pt_s2c pt_user] in *.
  unfold private_encode. rewrite xaead_seal_len. unfold private_plain.
  cbn [pt_client_id pt_timeout pt_addrs pt_c2s pt_s2c pt_user]. cbv zeta.
  rewrite len_app, len_zeros.
  destruct Hsl as (al & -> & H1 & H32 & F).
  rewrite !len_app, len_le64, len_i32_bytes, Hc, Hs, Hu.
  unfold write_server_addresses. rewrite len_app, len_le32, write_addrs_body_pad.
  pose proof (len_write_addrs_body al F) as L.
  rewrite key_bytes_val, user_data_bytes_val, private_bytes_val, mac_bytes_val. lia.
Qed.

Theorem token_roundtrip : forall t rest, token_wf t -> token_read (token_write t ++ rest) = Ok t.
Proof.
  intros [id version protocol create expire xn addrs c2s s2c private timeout] rest
         (Hid & Hv & Hp & Hcr & He & Hx & Hsl & Hc & Hs & Hpr & Hto).
  cbn [ct_client_id ct_version ct_protocol ct_create ct_expire ct_xnonce ct_addrs ct_c2s ct_s2c
       ct_private ct_timeout] in *. subst version.
  unfold token_write.
  cbn [ct_client_id ct_version ct_protocol ct_create ct_expire ct_xnonce ct_addrs ct_c2s ct_s2c
       ct_private ct_timeout].
  rewrite <- !app_assoc.
  unfold token_read.
  match goal with |- context [len ?l <? 8 + 13] =>
    assert (E : (len l <? 8 + 13) = false) by (rewrite !len_app, len_le64, len_version_info; lia) end.
  rewrite E. cbv zeta.
  change 21 with (8 + 13). autorewrite with fields.
  rewrite bytes_eqb_refl. cbn [negb].
  match goal with |- context [len ?l <? 8 + 8 + 8 + NC_XNONCE_BYTES + NC_PRIVATE_BYTES + 4] =>
    assert (E2 : (len l <? 8 + 8 + 8 + NC_XNONCE_BYTES + NC_PRIVATE_BYTES + 4) = false)
      by (rewrite !len_app, !len_le64, len_i32_bytes, Hx, Hpr; lia) end.
  rewrite E2.
  change 24 with (8 + 8 + 8). change 16 with (8 + 8). autorewrite with fields.
  rewrite addrs_roundtrip by exact Hsl. cbn [bind].
  assert (E3 : (len (c2s ++ s2c ++ rest) <? 2 * NC_KEY_BYTES) = false).
  { rewrite !len_app, Hc, Hs. lia. }
  rewrite E3.
  autorewrite with fields.
  rewrite !le_val_le64 by assumption. rewrite i32_roundtrip by exact Hto. reflexivity.
Qed.

Lemma token_read_inv src t : token_read src = Ok t ->
  let r0 := dropN 21 src in
  let r1 := dropN 24 r0 in
  let r2 := dropN NC_XNONCE_BYTES r1 in
  let r3 := dropN NC_PRIVATE_BYTES r2 in
  exists slots r4,
    8 + 13 <= len src /\ takeN 13 (dropN 8 src) = NC_VERSION_INFO /\
    8 + 8 + 8 + NC_XNONCE_BYTES + NC_PRIVATE_BYTES + 4 <= len r0 /\
    read_server_addresses (dropN 4 r3) = Ok (slots, r4) /\ 2 * NC_KEY_BYTES <= len r4 /\
    t = {| ct_client_id := le_val (takeN 8 src); ct_version := takeN 13 (dropN 8 src);
           ct_protocol := le_val (takeN 8 r0); ct_create := le_val (takeN 8 (dropN 8 r0));
           ct_expire := le_val (takeN 8 (dropN 16 r0)); ct_xnonce := takeN NC_XNONCE_BYTES r1; ct_addrs := slots;
           ct_c2s := takeN NC_KEY_BYTES r4; ct_s2c := takeN NC_KEY_BYTES (dropN NC_KEY_BYTES r4);
           ct_private := takeN NC_PRIVATE_BYTES r2; ct_timeout := i32_of (le_val (takeN 4 r3)) |}.
Proof.
  unfold token_read. destruct (len src <? 8 + 13) eqn:E1; [discriminate|]. cbv zeta.
  destruct (negb (bytes_eqb (takeN 13 (dropN 8 src)) NC_VERSION_INFO)) eqn:Ev; [discriminate|].
  destruct (len (dropN 21 src) <? 8 + 8 + 8 + NC_XNONCE_BYTES + NC_PRIVATE_BYTES + 4) eqn:E2; [discriminate|].
  destruct (read_server_addresses _) as [[slots r4]|e|site]; cbn [bind]; try discriminate.
  destruct (len r4 <? 2 * NC_KEY_BYTES) eqn:E3; [discriminate|].
  intros H. injection H as <-. apply negb_false_iff, bytes_eqb_eq in Ev. exists slots, r4.
  split; [lia|]. split; [exact Ev|]. repeat split; lia.
Qed.

Theorem token_read_wf : forall b t, bytes_ok b -> token_read b = Ok t -> token_wf t.
Proof.
  intros b t B H. destruct (token_read_inv _ _ H) as (slots & r4 & _ & Ev & E2 & Ra & E3 & ->).
  apply read_server_addresses_wf in Ra; [|repeat apply bytes_ok_dropN; exact B].
  destruct Ra as [Hsl Br4].
  set (r0 := dropN 21 b) in *.
  assert (B0 : bytes_ok r0) by (apply bytes_ok_dropN; exact B).
  rewrite xnonce_bytes_val, private_bytes_val in E2. rewrite key_bytes_val in E3.
  unfold token_wf.
  cbn [ct_client_id ct_version ct_protocol ct_create ct_expire ct_xnonce ct_addrs ct_c2s ct_s2c
       ct_private ct_timeout].
  split. { apply (le_val_takeN_lt 8), B. }
  split. { exact Ev. }
  split. { apply (le_val_takeN_lt 8), B0. }
  split. { apply (le_val_takeN_lt 8), bytes_ok_dropN, B0. }
  split. { apply (le_val_takeN_lt 8), bytes_ok_dropN, B0. }
  split. { rewrite len_takeN, len_dropN, xnonce_bytes_val. lia. }
  split. { exact Hsl. }
  split. { rewrite len_takeN, key_bytes_val. lia. }
  split. { rewrite len_takeN, len_dropN, key_bytes_val. lia. }
  split. { rewrite len_takeN, !len_dropN, xnonce_bytes_val, private_bytes_val. lia. }
  apply i32_of_range, (le_val_takeN_lt 4). repeat apply bytes_ok_dropN. exact B.
Qed.

Theorem token_read_write_read : forall b t, bytes_ok b -> token_read b = Ok t ->
  token_read (token_write t) = Ok t.
Proof.
  intros b t B H. pose proof (token_read_wf b t B H) as W.
  rewrite <- (app_nil_r (token_write t)). apply token_roundtrip. exact W.
Qed.

Lemma private_read_inv src t : private_read src = Ok t ->
  exists slots r1,
    12 <= len src /\ read_server_addresses (dropN 12 src) = Ok (slots, r1) /\
    NC_KEY_BYTES + NC_KEY_BYTES + NC_USER_DATA_BYTES <= len r1 /\
    t = {| pt_client_id := le_val (takeN 8 src); pt_timeout := i32_of (le_val (takeN 4 (dropN 8 src)));
           pt_addrs := slots; pt_c2s := takeN NC_KEY_BYTES r1; pt_s2c := takeN NC_KEY_BYTES (dropN NC_KEY_BYTES r1);
           pt_user := takeN NC_USER_DATA_BYTES (dropN (2 * NC_KEY_BYTES) r1) |}.
Proof.
  unfold private_read. destruct (len src <? 12) eqn:E1; [discriminate|]. cbv zeta.
  destruct (read_server_addresses (dropN 12 src)) as [[slots r1]|e|site]; cbn [bind]; try discriminate.
  destruct (len r1 <? NC_KEY_BYTES + NC_KEY_BYTES + NC_USER_DATA_BYTES) eqn:E2; [discriminate|].
  intros H. injection H as <-. exists slots, r1. repeat split; lia.
Qed.

Theorem private_read_wf : forall b t, bytes_ok b -> private_read b = Ok t -> private_wf t.
Proof.
  intros b t B H. destruct (private_read_inv _ _ H) as (slots & r1 & _ & Ra & E2 & ->).
  apply read_server_addresses_wf in Ra; [|apply bytes_ok_dropN; exact B].
  destruct Ra as [Hsl Br1].
  rewrite key_bytes_val, user_data_bytes_val in E2.
  unfold private_wf. cbn [pt_client_id pt_timeout pt_addrs pt_c2s pt_s2c pt_user].
  split. { apply (le_val_takeN_lt 8), B. }
  split. { apply i32_of_range, (le_val_takeN_lt 4), bytes_ok_dropN, B. }
  split. { exact Hsl. }
  split. { rewrite len_takeN, key_bytes_val. lia. }
  split. { rewrite len_takeN, len_dropN, key_bytes_val. lia. }
  rewrite len_takeN, len_dropN, key_bytes_val, user_data_bytes_val. lia.
Qed.

Lemma token_generate_eq now protocol es id timeout addrs user key xn c2s s2c t :
  token_generate now protocol es id timeout addrs user key xn c2s s2c = Ok t ->
  let slots := pad_slots (map Some addrs) in
  let pt := {| pt_client_id := id; pt_timeout := timeout; pt_addrs := slots;
               pt_c2s := c2s; pt_s2c := s2c; pt_user := user |} in
  1 <= len addrs <= 32 /\
  t = {| ct_client_id := id; ct_version := NC_VERSION_INFO; ct_protocol := protocol;
         ct_create := as_secs now; ct_expire := as_secs now + es; ct_xnonce := xn; ct_addrs := slots;
         ct_c2s := c2s; ct_s2c := s2c; ct_private := private_encode pt protocol (as_secs now + es) xn key;
         ct_timeout := timeout |}.
Proof.
  unfold token_generate. destruct (32 <? len addrs) eqn:E32; [discriminate|].
  destruct addrs as [|a al]; [discriminate|]. intros H. injection H as <-.
  split; [rewrite len_cons in *; lia | reflexivity].
Qed.

Theorem token_generate_wf : forall now protocol expire_seconds id timeout addrs user key xn c2s s2c t,
  token_generate now protocol expire_seconds id timeout addrs user key xn c2s s2c = Ok t ->
  id < U64 -> protocol < U64 -> as_secs now + expire_seconds < U64 ->
  (-2147483648 <= timeout < 2147483648)%Z -> Forall addr_wf addrs ->
  len user = NC_USER_DATA_BYTES -> len xn = NC_XNONCE_BYTES ->
  len c2s = NC_KEY_BYTES -> len s2c = NC_KEY_BYTES ->
  let pt := {| pt_client_id := id; pt_timeout := timeout; pt_addrs := pad_slots (map Some addrs);
               pt_c2s := c2s; pt_s2c := s2c; pt_user := user |} in
  token_wf t /\ private_wf pt /\
  private_decode (ct_private t) (ct_protocol t) (ct_expire t) (ct_xnonce t) key = Ok pt.
Proof.
  intros now protocol es id timeout addrs user key xn c2s s2c t H Hid Hp He Hto F Hu Hx Hc Hs pt.
  destruct (token_generate_eq _ _ _ _ _ _ _ _ _ _ _ _ H) as [Hn ->]. clear H.
  assert (Hsl : slots_wf (pad_slots (map Some addrs))).
  { exists addrs. split; [reflexivity|]. split; [lia|]. split; [lia | exact F]. }
  assert (Wp : private_wf pt) by (unfold private_wf, pt; cbn; tauto).
  cbn [ct_protocol ct_expire ct_xnonce ct_private].
  split; [|split; [exact Wp | apply private_roundtrip; exact Wp]].
  unfold token_wf. cbn [ct_client_id ct_version ct_protocol ct_create ct_expire ct_xnonce ct_addrs
    ct_c2s ct_s2c ct_private ct_timeout].
  repeat split; try assumption; try lia.
  apply private_encode_length. exact Wp.
Qed.

Definition ex_addrs : list addr :=
  [AddrV4 [127; 0; 0; 1] 5000;
   AddrV6 [32; 1; 13; 184; 0; 0; 0; 0; 0; 0; 0; 0; 0; 0; 0; 1] 65535].

Definition ex_slots : list (option addr) := pad_slots (map Some ex_addrs).

Lemma ex_addrs_wf : Forall addr_wf ex_addrs.
Proof. repeat constructor; apply bytes_ok_dec_true; reflexivity. Qed.

Example ex_slots_wf : slots_wf ex_slots.
Proof.
  exists ex_addrs. split; [reflexivity|]. split; [cbn; lia|]. split; [cbn; lia|]. exact ex_addrs_wf.
Qed.

Definition ex_private : private_token :=
  {| pt_client_id := 18446744073709551615; pt_timeout := (-1)%Z; pt_addrs := ex_slots;
     pt_c2s := repeatN 17 32; pt_s2c := repeatN 34 32; pt_user := repeatN 255 256 |}.

Example ex_private_wf : private_wf ex_private.
Proof.
  unfold private_wf. cbn [ex_private pt_client_id pt_timeout pt_addrs pt_c2s pt_s2c pt_user].
  split; [reflexivity|]. split; [lia|]. split; [exact ex_slots_wf|].
  repeat split.
Qed.

Definition ex_token : connect_token :=
  {| ct_client_id := 7; ct_version := NC_VERSION_INFO; ct_protocol := 18446744073709551615;
     ct_create := 1000; ct_expire := 1300; ct_xnonce := repeatN 9 24; ct_addrs := ex_slots;
     ct_c2s := repeatN 17 32; ct_s2c := repeatN 34 32; ct_private := repeatN 200 1024;
     ct_timeout := (-2147483648)%Z |}.

Example ex_token_wf : token_wf ex_token.
Proof.
  unfold token_wf. cbn [ex_token ct_client_id ct_version ct_protocol ct_create ct_expire ct_xnonce
    ct_addrs ct_c2s ct_s2c ct_private ct_timeout].
  split; [reflexivity|]. split; [reflexivity|]. split; [reflexivity|]. split; [reflexivity|].
  split; [reflexivity|]. split; [reflexivity|]. split; [exact ex_slots_wf|].
  split; [reflexivity|]. split; [reflexivity|]. split; [reflexivity|]. lia.
Qed.

Example ex_token_roundtrip : token_read (token_write ex_token) = Ok ex_token.
Proof. rewrite <- (app_nil_r (token_write ex_token)). apply token_roundtrip, ex_token_wf. Qed.

Example ex_token_length : len (token_write ex_token) = 1191.
Proof. vm_compute. reflexivity. Qed.

Example ex_private_plain_roundtrip : private_read (private_plain ex_private) = Ok ex_private.
Proof. apply private_read_plain, ex_private_wf. Qed.

Example ex_addrs_roundtrip :
  read_server_addresses (write_server_addresses ex_slots ++ [1; 2; 3]) = Ok (ex_slots, [1; 2; 3]).
Proof. apply addrs_roundtrip, ex_slots_wf. Qed.

Definition ex_generated : nres connect_token :=
  token_generate 5000000000 42 300 9 15%Z ex_addrs (repeatN 255 256) (repeatN 7 32) (repeatN 9 24)
                 (repeatN 17 32) (repeatN 34 32).

(* the token, sealed once *)
Definition ex_generated_token : connect_token := ltac:(evaluated ex_generated).

Lemma ex_generated_eq : ex_generated = Ok ex_generated_token.
Proof. evaluates. Qed.

(* that the token is well formed, reads back and opens under its own parameters is
   token_generate_wf; evaluation is left for the three refusals *)
Example ex_generated_ok :
  match ex_generated with
  | Ok t =>
      token_read (token_write t) = Ok t /\
      len (ct_private t) = NC_PRIVATE_BYTES /\
      ct_expire t = 305 /\
      (exists pt, private_decode (ct_private t) 42 (ct_expire t) (ct_xnonce t) (repeatN 7 32) = Ok pt /\
                  pt_client_id pt = 9 /\ pt_addrs pt = ex_slots) /\
      (* another protocol id, expiry or key: refused *)
      private_decode (ct_private t) 43 (ct_expire t) (ct_xnonce t) (repeatN 7 32) = Err ETokenGeneration /\
      private_decode (ct_private t) 42 (ct_expire t + 1) (ct_xnonce t) (repeatN 7 32) = Err ETokenGeneration /\
      private_decode (ct_private t) 42 (ct_expire t) (ct_xnonce t) (repeatN 8 32) = Err ETokenGeneration
  | _ => False
  end.
Proof.
  destruct (token_generate_wf _ _ _ _ _ _ _ _ _ _ _ _ ex_generated_eq) as (W & _ & D);
    try reflexivity; [lia | exact ex_addrs_wf |].
  rewrite ex_generated_eq.
  split; [rewrite <- (app_nil_r (token_write _)); apply token_roundtrip, W|].
  split; [apply W|]. split; [reflexivity|].
  split; [eexists; split; [exact D | split; reflexivity]|].
  do 2 (split; [vm_compute; reflexivity|]). vm_compute. reflexivity.
Qed.

Print Assumptions private_decode_no_panic.
Print Assumptions token_read_no_panic.
Print Assumptions read_server_addresses_no_panic.
Print Assumptions addrs_roundtrip.
Print Assumptions read_server_addresses_wf.
Print Assumptions private_roundtrip.
Print Assumptions private_decode_sound.
Print Assumptions private_encode_length.
Print Assumptions token_roundtrip.
Print Assumptions token_read_wf.
Print Assumptions token_read_write_read.
Print Assumptions private_read_wf.
Print Assumptions token_generate_wf.
Print Assumptions ex_private_wf.
Print Assumptions ex_token_wf.
Print Assumptions ex_token_roundtrip.
Print Assumptions ex_generated_ok.

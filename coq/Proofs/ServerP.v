(* ServerP.v - RenetServer: the connection map stays a sorted finite map, the reported events
   alternate Connected / Disconnected per client id, removal reports the connection's own first
   reason, and what a call does to one client's connection depends on that connection only. *)
From RenetV Require Import Base Consts Varint Packet Channels Conn Server ConnSpec.
From RenetV.Proofs Require Import SMapSrvP DisconnectP BaseP RunP.
Require Import Lia ZifyBool ZifyN.
Open Scope N_scope.

Definition conns_sorted (s : server) : Prop := sm_sorted (s_conns s).

Lemma conns_sorted_new : forall budget scfg ccfg, conns_sorted (server_new budget scfg ccfg).
Proof. intros. exact I. Qed.

Definition conn_at (F : N -> conn -> pres conn) (cs cs' : list (N * conn)) (id : N) : Prop :=
  match sm_find id cs with
  | Some c => exists c', F id c = Ok c' /\ sm_find id cs' = Some c'
  | None => sm_find id cs' = None
  end.

Lemma conn_at_ext : forall F G cs cs' id,
    (forall c, F id c = G id c) -> conn_at F cs cs' id -> conn_at G cs cs' id.
Proof.
  unfold conn_at. intros F G cs cs' id E H. destruct (sm_find id cs) as [c|]; [|exact H].
  rewrite <- E. exact H.
Qed.

Lemma conn_at_keep : forall F cs cs' id,
    sm_find id cs' = sm_find id cs -> (forall c, sm_find id cs = Some c -> F id c = Ok c) -> conn_at F cs cs' id.
Proof. unfold conn_at. intros F cs cs' id E H. rewrite E. destruct (sm_find id cs) as [c|]; eauto. Qed.

Lemma conn_at_some : forall F cs cs' id c,
    conn_at F cs cs' id -> sm_find id cs = Some c -> exists c', F id c = Ok c' /\ sm_find id cs' = Some c'.
Proof. unfold conn_at. intros F cs cs' id c H Hf. rewrite Hf in H. exact H. Qed.

Lemma conn_at_none : forall F cs cs' id, conn_at F cs cs' id -> sm_find id cs = None -> sm_find id cs' = None.
Proof. unfold conn_at. intros F cs cs' id H Hf. rewrite Hf in H. exact H. Qed.

Lemma conn_at_mem : forall F cs cs' id, conn_at F cs cs' id -> sm_mem id cs' = sm_mem id cs.
Proof.
  unfold conn_at, sm_mem. intros F cs cs' id H. destruct (sm_find id cs) as [c|].
  - destruct H as (c' & _ & ->). reflexivity.
  - rewrite H. reflexivity.
Qed.

Lemma conn_at_comp : forall F G cs cs1 cs2 id,
    conn_at F cs cs1 id -> conn_at G cs1 cs2 id -> conn_at (fun i c => do c1 <- F i c; G i c1) cs cs2 id.
Proof.
  unfold conn_at. intros F G cs cs1 cs2 id A B. destruct (sm_find id cs) as [c|].
  - destruct A as (c1 & -> & F1). rewrite F1 in B. exact B.
  - rewrite A in B. exact B.
Qed.

Inductive each (F : N -> conn -> pres conn) : list (N * conn) -> list (N * conn) -> Prop :=
| each_nil : each F [] []
| each_cons : forall id c c' t t', F id c = Ok c' -> each F t t' -> each F ((id, c) :: t) ((id, c') :: t').

Lemma each_keys : forall F cs cs', each F cs cs' -> map fst cs' = map fst cs.
Proof. induction 1; cbn [map fst]; congruence. Qed.

Lemma each_at : forall F cs cs' id, each F cs cs' -> conn_at F cs cs' id.
Proof.
  unfold conn_at. induction 1 as [|k c c' t t' Hc _ IH]; cbn [sm_find]; [reflexivity|].
  destruct (N.eqb_spec id k) as [->|]; [eauto | exact IH].
Qed.

Definition send_one (except : option N) (ch : N) (m : list N) (id : N) (c : conn) : pres conn :=
  match except with
  | Some x => if x =? id then Ok c else send_message c ch m
  | None => send_message c ch m
  end.

Lemma send_each_each : forall cs ex ch m cs',
    send_each cs ex ch m = Ok cs' -> each (send_one ex ch m) cs cs'.
Proof.
  induction cs as [|[k c] t IH]; intros ex ch m cs' H; cbn [send_each] in H.
  - injection H as <-. constructor.
  - apply bind_ok in H as (c' & E1 & H). apply bind_ok in H as (t' & E2 & H).
    injection H as <-. constructor; [exact E1 | eauto].
Qed.

Lemma update_each_each : forall cs dt cs',
    update_each cs dt = Ok cs' -> each (fun _ c => update c dt) cs cs'.
Proof.
  induction cs as [|[k c] t IH]; intros dt cs' H; cbn [update_each] in H.
  - injection H as <-. constructor.
  - apply bind_ok in H as (c' & E1 & H). apply bind_ok in H as (t' & E2 & H).
    injection H as <-. constructor; [exact E1 | eauto].
Qed.

Lemma map_conn_each : forall (f : conn -> conn) cs,
    each (fun _ c => Ok (f c)) cs (map (fun ic : N * conn => (fst ic, f (snd ic))) cs).
Proof. induction cs as [|[k c] t IH]; cbn [map fst snd]; constructor; [reflexivity | exact IH]. Qed.

Inductive client_upd (x : N) (f : conn -> pres conn) (s s' : server) : Prop :=
| CUAbsent : sm_find x (s_conns s) = None -> s' = s -> client_upd x f s s'
| CUPresent : forall c c', sm_find x (s_conns s) = Some c -> f c = Ok c' ->
    s' = with_conns s (sm_insert x c' (s_conns s)) -> client_upd x f s s'.

Lemma srv_disconnect_upd : forall s x,
    client_upd x (fun c => Ok (disconnect_with c RDisconnectedByServer)) s (srv_disconnect s x).
Proof.
  intros s x. unfold srv_disconnect. destruct (sm_find x (s_conns s)) as [c|] eqn:Ex.
  - eapply CUPresent; eauto.
  - now apply CUAbsent.
Qed.

Lemma srv_send_message_upd : forall s x ch m s',
    srv_send_message s x ch m = Ok s' -> client_upd x (fun c => send_message c ch m) s s'.
Proof.
  intros s x ch m s'. unfold srv_send_message. destruct (sm_find x (s_conns s)) as [c|] eqn:Ex.
  - intros H. apply bind_ok in H as (c' & Ec & H). injection H as <-. eapply CUPresent; eauto.
  - intros H. injection H as <-. now apply CUAbsent.
Qed.

Lemma srv_receive_message_upd : forall s x ch s' m,
    srv_receive_message s x ch = Ok (s', m) ->
    client_upd x (fun c => do r <- receive_message c ch; Ok (fst r)) s s'.
Proof.
  intros s x ch s' m. unfold srv_receive_message. destruct (sm_find x (s_conns s)) as [c|] eqn:Ex.
  - intros H. apply bind_ok in H as ([c' m'] & Ec & H). injection H as <- <-.
    eapply CUPresent; [exact Ex | rewrite Ec | ]; reflexivity.
  - intros H. injection H as <- <-. now apply CUAbsent.
Qed.

Lemma srv_get_packets_to_send_upd : forall s x s' pk,
    srv_get_packets_to_send s x = Ok (s', pk) ->
    client_upd x (fun c => do r <- get_packets_to_send c; Ok (fst r)) s s'.
Proof.
  intros s x s' pk. unfold srv_get_packets_to_send. destruct (sm_find x (s_conns s)) as [c|] eqn:Ex.
  - intros H. apply bind_ok in H as ([c' pk'] & Ec & H). injection H as <- <-.
    eapply CUPresent; [exact Ex | rewrite Ec | ]; reflexivity.
  - intros H. injection H as <- <-. now apply CUAbsent.
Qed.

Lemma process_packet_from_upd : forall s b x s' ok,
    process_packet_from s b x = Ok (s', ok) -> client_upd x (fun c => process_packet c b) s s'.
Proof.
  intros s b x s' ok. unfold process_packet_from. destruct (sm_find x (s_conns s)) as [c|] eqn:Ex.
  - intros H. apply bind_ok in H as (c' & Ec & H). injection H as <- <-. eapply CUPresent; eauto.
  - intros H. injection H as <- <-. now apply CUAbsent.
Qed.

Definition step_effect (F : N -> conn -> pres conn) (s s' : server) : Prop :=
  (conns_sorted s -> conns_sorted s') /\
  (forall id, conn_at F (s_conns s) (s_conns s') id) /\
  s_events s' = s_events s.

Lemma each_effect : forall F s cs', each F (s_conns s) cs' -> step_effect F s (with_conns s cs').
Proof.
  intros F s cs' H. split; [|split; [|reflexivity]].
  - intros Hs. exact (sm_sorted_keys _ _ (each_keys _ _ _ H) Hs).
  - intros id. now apply each_at.
Qed.

Lemma client_upd_effect : forall x f s s',
    client_upd x f s s' -> step_effect (fun id c => if x =? id then f c else Ok c) s s'.
Proof.
  intros x f s s' [Hx ->|c c' Hx Hf ->]; (split; [|split; [|reflexivity]]); cbn [s_conns with_conns].
  - auto.
  - intros id. apply conn_at_keep; [reflexivity|]. intros c Hc.
    destruct (N.eqb_spec x id) as [->|]; [congruence | reflexivity].
  - apply sm_sorted_insert.
  - intros id. unfold conn_at. destruct (N.eqb_spec x id) as [<-|Hn].
    + rewrite Hx, SMapP.sm_find_insert_same. eauto.
    + rewrite SMapP.sm_find_insert_other by congruence. destruct (sm_find id (s_conns s)); eauto.
Qed.

Lemma sstep_effect : forall s o s' out,
    sstep s o = Ok (s', out) ->
    match o with
    | SAdd _ | SRemove _ | SGetEvent => True
    | _ => step_effect (local_step o) s s' /\ taken_events [out] = []
    end.
Proof.
  intros s o s' out H.
  destruct o as [x|x|x| |ch m|x ch m|x ch m|x ch|dt|x|x b| ]; cbn [sstep] in H; try exact I.
  - injection H as <- <-. split; [|reflexivity].
    destruct (client_upd_effect _ _ _ _ (srv_disconnect_upd s x)) as (A & B & C).
    split; [exact A|]. split; [|exact C]. intros id. eapply conn_at_ext; [|exact (B id)].
    intros c. cbn [local_step]. destruct (x =? id); reflexivity.
  - injection H as <- <-. split; [|reflexivity]. apply each_effect. apply map_conn_each.
  - apply bind_ok in H as (s1 & E & H). injection H as <- <-. split; [|reflexivity].
    apply bind_ok in E as (cs & E & H). injection H as <-.
    apply each_effect. exact (send_each_each _ _ _ _ _ E).
  - apply bind_ok in H as (s1 & E & H). injection H as <- <-. split; [|reflexivity].
    apply bind_ok in E as (cs & E & H). injection H as <-.
    apply each_effect. exact (send_each_each _ _ _ _ _ E).
  - apply bind_ok in H as (s1 & E & H). injection H as <- <-. split; [|reflexivity].
    exact (client_upd_effect _ _ _ _ (srv_send_message_upd _ _ _ _ _ E)).
  - apply bind_ok in H as ([s1 m] & E & H). injection H as <- <-. split; [|reflexivity].
    exact (client_upd_effect _ _ _ _ (srv_receive_message_upd _ _ _ _ _ E)).
  - apply bind_ok in H as (s1 & E & H). injection H as <- <-. split; [|reflexivity].
    apply bind_ok in E as (cs & E & H). injection H as <-.
    apply each_effect. exact (update_each_each _ _ _ E).
  - apply bind_ok in H as ([s1 pk] & E & H). injection H as <- <-. split; [|reflexivity].
    exact (client_upd_effect _ _ _ _ (srv_get_packets_to_send_upd _ _ _ _ E)).
  - apply bind_ok in H as ([s1 ok] & E & H). injection H as <- <-. split; [|reflexivity].
    exact (client_upd_effect _ _ _ _ (process_packet_from_upd _ _ _ _ _ E)).
Qed.

Lemma add_connection_cases : forall s x s',
    add_connection s x = Ok s' ->
    sm_mem x (s_conns s) = true /\ s' = s \/
    exists c0, sm_mem x (s_conns s) = false /\
      s' = with_events (with_conns s (sm_insert x c0 (s_conns s))) (s_events s ++ [EvConnected x]).
Proof.
  intros s x s'. unfold add_connection. destruct (sm_mem x (s_conns s)).
  - intros H. injection H as <-. left. auto.
  - intros H. apply bind_ok in H as (c & _ & H). injection H as <-. right. eauto.
Qed.

Theorem sstep_sorted : forall s o s' out,
    conns_sorted s -> sstep s o = Ok (s', out) -> conns_sorted s'.
Proof.
  intros s o s' out Hs H. pose proof (sstep_effect _ _ _ _ H) as He.
  (* sstep_effect covers all calls but SAdd, SRemove and SGetEvent *)
  destruct o; try exact (proj1 (proj1 He) Hs); clear He; unfold conns_sorted in *; cbn [sstep] in H.
  - apply bind_ok in H as (s1 & E & H). injection H as <- <-.
    destruct (add_connection_cases _ _ _ E) as [[_ ->]|(c0 & _ & ->)]; [exact Hs|].
    apply sm_sorted_insert. exact Hs.
  - injection H as <- <-. unfold remove_connection.
    destruct (sm_find id (s_conns s)) as [c|]; [|exact Hs].
    cbn [s_conns with_events with_conns]. apply sm_sorted_remove. exact Hs.
  - unfold get_event in H. destruct (s_events s) as [|e t]; injection H as <- <-; exact Hs.
Qed.

Theorem srun_sorted : forall ops s s' outs,
    conns_sorted s -> srun s ops = Ok (s', outs) -> conns_sorted s'.
Proof. exact (run_inv sstep conns_sorted sstep_sorted). Qed.

Corollary reachable_sorted : forall budget scfg ccfg ops s outs,
    srun (server_new budget scfg ccfg) ops = Ok (s, outs) -> conns_sorted s.
Proof. intros. eapply srun_sorted; [apply conns_sorted_new | eauto]. Qed.

(* non-interference *)

Lemma sstep_conns : forall s o s' out id,
    sstep s o = Ok (s', out) -> touches_presence o id = false ->
    conn_at (local_step o) (s_conns s) (s_conns s') id.
Proof.
  intros s o s' out id H Ht. pose proof (sstep_effect _ _ _ _ H) as He.
  destruct o as [x|x|x| |ch m|x ch m|x ch m|x ch|dt|x|x b| ];
    try exact (proj1 (proj2 (proj1 He)) id); clear He;
    cbn [sstep] in H; cbn [touches_presence] in Ht; (apply conn_at_keep; [|reflexivity]).
  - apply bind_ok in H as (s1 & E & H). injection H as <- <-.
    destruct (add_connection_cases _ _ _ E) as [[_ ->]|(c0 & _ & ->)]; [reflexivity|].
    apply SMapP.sm_find_insert_other. lia.
  - injection H as <- <-. unfold remove_connection. destruct (sm_find x (s_conns s)) as [cx|]; [|reflexivity].
    apply SMapP.sm_find_remove_other. lia.
  - unfold get_event in H. destruct (s_events s) as [|e t]; injection H as <- <-; reflexivity.
Qed.

Theorem server_frame : forall s o s' out id c,
    conns_sorted s -> sstep s o = Ok (s', out) ->
    sm_find id (s_conns s) = Some c -> touches_presence o id = false ->
    exists c', local_step o id c = Ok c' /\ sm_find id (s_conns s') = Some c'.
Proof.
  intros s o s' out id c _ H Hf Ht. exact (conn_at_some _ _ _ _ _ (sstep_conns _ _ _ _ id H Ht) Hf).
Qed.

Theorem server_frame_absent : forall s o s' out id,
    sstep s o = Ok (s', out) ->
    sm_find id (s_conns s) = None -> touches_presence o id = false ->
    sm_find id (s_conns s') = None.
Proof.
  intros s o s' out id H Hf Ht. exact (conn_at_none _ _ _ _ (sstep_conns _ _ _ _ id H Ht) Hf).
Qed.

Fixpoint local_run (ops : list sop) (id : N) (c : conn) : pres conn :=
  match ops with
  | [] => Ok c
  | o :: t => do c1 <- local_step o id c; local_run t id c1
  end.

Lemma srun_conns : forall ops s s' outs id,
    Forall (fun o => touches_presence o id = false) ops -> srun s ops = Ok (s', outs) ->
    conn_at (local_run ops) (s_conns s) (s_conns s') id.
Proof.
  induction ops as [|o t IH]; intros s s' outs id Hall H.
  - cbn [srun] in H. injection H as <- <-. apply conn_at_keep; reflexivity.
  - apply (run_cons_ok sstep) in H as (s1 & out & outs' & H1 & H2 & ->). inversion Hall as [|? ? Ho Ht]; subst.
    exact (conn_at_comp _ _ _ _ _ _ (sstep_conns _ _ _ _ id H1 Ho) (IH _ _ _ id Ht H2)).
Qed.

Theorem server_frame_run : forall ops s s' outs id c,
    conns_sorted s ->
    Forall (fun o => touches_presence o id = false) ops ->
    srun s ops = Ok (s', outs) -> sm_find id (s_conns s) = Some c ->
    exists c', local_run ops id c = Ok c' /\ sm_find id (s_conns s') = Some c'.
Proof.
  intros ops s s' outs id c _ Hall H Hf. exact (conn_at_some _ _ _ _ _ (srun_conns _ _ _ _ id Hall H) Hf).
Qed.

Theorem server_frame_run_absent : forall ops s s' outs id,
    Forall (fun o => touches_presence o id = false) ops ->
    srun s ops = Ok (s', outs) -> sm_find id (s_conns s) = None ->
    sm_find id (s_conns s') = None.
Proof.
  intros ops s s' outs id Hall H Hf. exact (conn_at_none _ _ _ _ (srun_conns _ _ _ _ id Hall H) Hf).
Qed.

Lemma last_is_connect_app id l1 l2 cur :
  last_is_connect id (l1 ++ l2) cur = last_is_connect id l2 (last_is_connect id l1 cur).
Proof. revert cur. induction l1 as [|e l1 IH]; intros cur; cbn [app last_is_connect]; [reflexivity | apply IH]. Qed.

Lemma alternates_app id l1 l2 b :
  alternates id b l1 -> alternates id (negb (last_is_connect id l1 (negb b))) l2 -> alternates id b (l1 ++ l2).
Proof.
  revert b. induction l1 as [|e l1 IH]; intros b; cbn [app alternates last_is_connect].
  - rewrite negb_involutive. auto.
  - destruct (ev_id e =? id).
    + intros [E A1] A2. split; [exact E|]. apply IH; [exact A1|]. rewrite negb_involutive. rewrite E in A2. exact A2.
    + apply IH.
Qed.

Lemma taken_events_cons : forall out outs,
    taken_events (out :: outs) = taken_events [out] ++ taken_events outs.
Proof.
  intros out outs. destruct out as [| | |[e|]]; reflexivity.
Qed.

Lemma taken_events_app : forall a b, taken_events (a ++ b) = taken_events a ++ taken_events b.
Proof.
  induction a as [|x a IH]; intros b; [reflexivity|].
  cbn [app]. rewrite taken_events_cons, (taken_events_cons x a), IH, app_assoc. reflexivity.
Qed.

(* From s to s' the application took [taken] from the front of the event queue and [evs] were appended to it.
   Per id, evs alternate, starting with the opposite of the presence in s, and the presence in s' is what the
   last of them says.  With taken = [] this is GlueSpec.ev_rel, by conversion. *)
Definition follows (s s' : server) (taken evs : list event) : Prop :=
  taken ++ s_events s' = s_events s ++ evs /\
  forall id, alternates id (negb (sm_mem id (s_conns s))) evs /\
             sm_mem id (s_conns s') = last_is_connect id evs (sm_mem id (s_conns s)).

Lemma follows_quiet s s' taken :
  taken ++ s_events s' = s_events s -> (forall id, sm_mem id (s_conns s') = sm_mem id (s_conns s)) ->
  follows s s' taken [].
Proof. intros E M. split; [rewrite app_nil_r; exact E|]. intros id. split; [exact I | apply M]. Qed.

Lemma follows_one s s' e :
  s_events s' = s_events s ++ [e] -> sm_mem (ev_id e) (s_conns s) = negb (ev_is_connect e) ->
  (forall id, sm_mem id (s_conns s') = if ev_id e =? id then ev_is_connect e else sm_mem id (s_conns s)) ->
  follows s s' [] [e].
Proof.
  intros E Hx M. split; [exact E|]. intros id. cbn [alternates last_is_connect]. rewrite M.
  destruct (N.eqb_spec (ev_id e) id) as [<-|_].
  - rewrite Hx, negb_involutive. auto.
  - auto.
Qed.

Lemma follows_trans a b c t1 e1 t2 e2 : follows a b t1 e1 -> follows b c t2 e2 -> follows a c (t1 ++ t2) (e1 ++ e2).
Proof.
  intros [E1 R1] [E2 R2]. split.
  - rewrite <- app_assoc, E2, !app_assoc, E1. reflexivity.
  - intros id. destruct (R1 id) as [A1 M1]. destruct (R2 id) as [A2 M2]. split.
    + apply alternates_app; [exact A1|]. rewrite negb_involutive, <- M1. exact A2.
    + rewrite last_is_connect_app, <- M1. exact M2.
Qed.

Definition reason_of (c : conn) : reason := match disconnect_reason c with Some r => r | None => RTransport end.

Definition presence_evs (s : server) (o : sop) : list event :=
  match o with
  | SAdd x => if sm_mem x (s_conns s) then [] else [EvConnected x]
  | SRemove x => match sm_find x (s_conns s) with Some c => [EvDisconnected x (reason_of c)] | None => [] end
  | _ => []
  end.

Lemma sstep_mem_same : forall s o s' out,
    sstep s o = Ok (s', out) -> (forall id, touches_presence o id = false) ->
    forall id, sm_mem id (s_conns s') = sm_mem id (s_conns s).
Proof.
  intros s o s' out H Ht id. exact (conn_at_mem _ _ _ _ (sstep_conns _ _ _ _ id H (Ht id))).
Qed.

Lemma sstep_events_same : forall s o s' out,
    sstep s o = Ok (s', out) ->
    match o with SAdd _ | SRemove _ | SGetEvent => True | _ => s_events s' = s_events s /\ taken_events [out] = [] end.
Proof.
  intros s o s' out H. pose proof (sstep_effect _ _ _ _ H) as He.
  destruct o; try exact I; exact (conj (proj2 (proj2 (proj1 He))) (proj2 He)).
Qed.

Lemma sstep_presence s o s' out :
  conns_sorted s -> sstep s o = Ok (s', out) -> follows s s' (taken_events [out]) (presence_evs s o).
Proof.
  intros Hs H. pose proof (sstep_events_same _ _ _ _ H) as Hev. pose proof (sstep_mem_same _ _ _ _ H) as Hm.
  destruct o as [x|x|x| |ch m|x ch m|x ch m|x ch|dt|x|x b| ]; cbn [presence_evs];
    try (rewrite (proj2 Hev); apply follows_quiet; [exact (proj1 Hev) | apply Hm; intros id; reflexivity]);
    clear Hev Hm; cbn [sstep] in H.
  - apply bind_ok in H as (s1 & E & H). injection H as <- <-.
    destruct (add_connection_cases _ _ _ E) as [[Em ->]|(c0 & Em & ->)]; rewrite Em.
    + apply follows_quiet; reflexivity.
    + apply follows_one; [reflexivity | exact Em |]. intros id.
      cbn [s_conns with_events with_conns ev_id ev_is_connect].
      rewrite SMapP.sm_mem_insert, (N.eqb_sym id x). destruct (x =? id); reflexivity.
  - injection H as <- <-. unfold remove_connection. destruct (sm_find x (s_conns s)) as [cx|] eqn:Ex.
    + apply follows_one; [reflexivity | exact (SMapP.sm_find_some_mem _ _ _ Ex) |]. intros id.
      cbn [s_conns with_events with_conns ev_id ev_is_connect].
      rewrite SMapP.sm_mem_remove, (N.eqb_sym id x) by exact (sm_sorted_asc _ Hs). destruct (x =? id); reflexivity.
    + apply follows_quiet; reflexivity.
  - unfold get_event in H. destruct (s_events s) as [|e t] eqn:Ee; injection H as <- <-.
    + apply follows_quiet; reflexivity.
    + apply follows_quiet; [symmetry; exact Ee | reflexivity].
Qed.

(* T = the events the application has already taken out.  By conversion this is the second half of
   [follows s0 s T (T ++ s_events s)] for a server s0 with no connection and no event. *)
Definition ev_inv (T : list event) (s : server) : Prop :=
  forall id, alternates id true (T ++ s_events s) /\
             sm_mem id (s_conns s) = last_is_connect id (T ++ s_events s) false.

Lemma follows_ev_inv T s s' taken evs : ev_inv T s -> follows s s' taken evs -> ev_inv (T ++ taken) s'.
Proof.
  intros Hi F. destruct (follows_trans (server_new 0 [] []) s s' T _ taken evs (conj eq_refl Hi) F) as [E R].
  unfold ev_inv. rewrite E. exact R.
Qed.

Lemma sstep_ev_inv : forall T s o s' out,
    conns_sorted s -> ev_inv T s -> sstep s o = Ok (s', out) ->
    ev_inv (T ++ taken_events [out]) s'.
Proof. intros T s o s' out Hs Hi H. exact (follows_ev_inv _ _ _ _ _ Hi (sstep_presence _ _ _ _ Hs H)). Qed.

Lemma srun_ev_inv : forall ops T s s' outs,
    conns_sorted s -> ev_inv T s -> srun s ops = Ok (s', outs) ->
    ev_inv (T ++ taken_events outs) s'.
Proof.
  intros ops T s s' outs Hs Hi H.
  apply (run_inv_outs_under sstep conns_sorted (fun O s => ev_inv (T ++ taken_events O) s) sstep_sorted)
    with (T := []) (4 := H); [|exact Hs|cbn [taken_events]; rewrite app_nil_r; exact Hi].
  intros O s0 o s1 out Hs0 Hi0 E. rewrite taken_events_app, app_assoc. eapply sstep_ev_inv; eauto.
Qed.

Lemma ev_inv_new : forall budget scfg ccfg, ev_inv [] (server_new budget scfg ccfg).
Proof. intros budget scfg ccfg id. cbn. split; [exact I | reflexivity]. Qed.

Theorem events_alternate : forall budget scfg ccfg ops s outs,
    srun (server_new budget scfg ccfg) ops = Ok (s, outs) ->
    forall id, alternates id true (all_events s outs) /\
               sm_mem id (s_conns s) = last_is_connect id (all_events s outs) false.
Proof.
  intros budget scfg ccfg ops s outs H.
  pose proof (srun_ev_inv ops [] _ _ _ (conns_sorted_new budget scfg ccfg) (ev_inv_new budget scfg ccfg) H) as Hi.
  cbn [app] in Hi. exact Hi.
Qed.

Theorem removal_reports_first_reason : forall s id c,
    conns_sorted s -> sm_find id (s_conns s) = Some c ->
    s_events (remove_connection s id) =
      s_events s ++ [EvDisconnected id (match disconnect_reason c with Some r => r | None => RTransport end)]
    /\ sm_find id (s_conns (remove_connection s id)) = None.
Proof.
  intros s id c Hs Hf. unfold remove_connection. rewrite Hf.
  cbn [s_conns s_events with_events with_conns]. split; [reflexivity|].
  rewrite SMapP.sm_find_remove, N.eqb_refl by exact (sm_sorted_asc _ Hs). reflexivity.
Qed.

Theorem remove_connection_absent : forall s id,
    sm_find id (s_conns s) = None -> remove_connection s id = s.
Proof. intros s id Hf. unfold remove_connection. rewrite Hf. reflexivity. Qed.

Theorem remove_connection_others : forall s id j,
    j <> id -> sm_find j (s_conns (remove_connection s id)) = sm_find j (s_conns s).
Proof.
  intros s id j Hn. unfold remove_connection. destruct (sm_find id (s_conns s)); [|reflexivity].
  cbn [s_conns with_events with_conns]. apply SMapP.sm_find_remove_other. exact Hn.
Qed.

Theorem disconnect_local_reports_first_reason : forall s id c client,
    conns_sorted s -> is_disconnected client = false -> sm_find id (s_conns s) = Some c ->
    let s' := fst (disconnect_local_client s id client) in
    s_events s' =
      s_events s ++ [EvDisconnected id (match disconnect_reason c with Some r => r | None => RDisconnectedByClient end)]
    /\ sm_find id (s_conns s') = None
    /\ c_status (snd (disconnect_local_client s id client)) = Disconnected RDisconnectedByClient.
Proof.
  intros s id c client Hs Hc Hf. unfold disconnect_local_client. rewrite Hc, Hf.
  cbn [fst snd s_conns s_events with_events with_conns]. split; [reflexivity|]. split.
  - rewrite SMapP.sm_find_remove, N.eqb_refl by exact (sm_sorted_asc _ Hs). reflexivity.
  - unfold disconnect, disconnect_with. rewrite Hc. reflexivity.
Qed.

Theorem disconnect_local_absent : forall s id client,
    sm_find id (s_conns s) = None -> fst (disconnect_local_client s id client) = s.
Proof.
  intros s id client Hf. unfold disconnect_local_client.
  destruct (is_disconnected client); [reflexivity|]. rewrite Hf. reflexivity.
Qed.

(* an already disconnected local client handle makes the call a no-op, even if the server still
   holds the connection *)
Theorem disconnect_local_client_disconnected : forall s id client,
    is_disconnected client = true -> disconnect_local_client s id client = (s, client).
Proof. intros s id client H. unfold disconnect_local_client. rewrite H. reflexivity. Qed.

Corollary removal_reason_is_status : forall s id c r,
    sm_find id (s_conns s) = Some c -> c_status c = Disconnected r ->
    s_events (remove_connection s id) = s_events s ++ [EvDisconnected id r].
Proof.
  intros s id c r Hf Hst. unfold remove_connection, disconnect_reason. rewrite Hf, Hst. reflexivity.
Qed.

Lemma broadcast_each : forall s ex ch m s',
    (do cs <- send_each (s_conns s) ex ch m; Ok (with_conns s cs)) = Ok s' ->
    each (send_one ex ch m) (s_conns s) (s_conns s') /\ s_events s' = s_events s.
Proof.
  intros s ex ch m s' H. apply bind_ok in H as (cs & E & H). injection H as <-.
  split; [exact (send_each_each _ _ _ _ _ E) | reflexivity].
Qed.

Theorem broadcast_exact : forall s ch m s',
    conns_sorted s -> broadcast_message s ch m = Ok s' ->
    map fst (s_conns s') = map fst (s_conns s) /\
    forall id c, sm_find id (s_conns s) = Some c ->
                 exists c', send_message c ch m = Ok c' /\ sm_find id (s_conns s') = Some c'.
Proof.
  intros s ch m s' _ H. destruct (broadcast_each _ _ _ _ _ H) as [He _].
  split; [exact (each_keys _ _ _ He)|].
  intros id c Hf. exact (conn_at_some _ _ _ _ _ (each_at _ _ _ id He) Hf).
Qed.

Theorem broadcast_events : forall s ch m s',
    broadcast_message s ch m = Ok s' -> s_events s' = s_events s.
Proof. intros s ch m s' H. exact (proj2 (broadcast_each _ _ _ _ _ H)). Qed.

Theorem broadcast_absent : forall s ch m s' id,
    broadcast_message s ch m = Ok s' -> sm_find id (s_conns s) = None -> sm_find id (s_conns s') = None.
Proof.
  intros s ch m s' id H Hf. destruct (broadcast_each _ _ _ _ _ H) as [He _].
  exact (conn_at_none _ _ _ _ (each_at _ _ _ id He) Hf).
Qed.

Theorem broadcast_except_exact : forall s x ch m s',
    conns_sorted s -> broadcast_message_except s x ch m = Ok s' ->
    map fst (s_conns s') = map fst (s_conns s) /\
    (forall id c, id <> x -> sm_find id (s_conns s) = Some c ->
                  exists c', send_message c ch m = Ok c' /\ sm_find id (s_conns s') = Some c') /\
    sm_find x (s_conns s') = sm_find x (s_conns s).
Proof.
  intros s x ch m s' _ H. destruct (broadcast_each _ _ _ _ _ H) as [He _].
  split; [exact (each_keys _ _ _ He)|]. split.
  - intros id c Hn Hf. destruct (conn_at_some _ _ _ _ _ (each_at _ _ _ id He) Hf) as (c' & E & Ha).
    unfold send_one in E. destruct (N.eqb_spec x id); [congruence|eauto].
  - pose proof (each_at _ _ _ x He) as Ha. destruct (sm_find x (s_conns s)) as [c|] eqn:Hf.
    + destruct (conn_at_some _ _ _ _ _ Ha Hf) as (c' & E & Hc). unfold send_one in E. rewrite N.eqb_refl in E.
      injection E as <-. exact Hc.
    + exact (conn_at_none _ _ _ _ Ha Hf).
Qed.

Theorem broadcast_except_events : forall s x ch m s',
    broadcast_message_except s x ch m = Ok s' -> s_events s' = s_events s.
Proof. intros s x ch m s' H. exact (proj2 (broadcast_each _ _ _ _ _ H)). Qed.

(* "only currently connected clients are reached": a disconnected entry is left as it is *)
Corollary broadcast_skips_disconnected : forall s ch m s' id c,
    broadcast_message s ch m = Ok s' -> sm_find id (s_conns s) = Some c ->
    is_disconnected c = true -> sm_find id (s_conns s') = Some c.
Proof.
  intros s ch m s' id c H Hf Hd. destruct (broadcast_each _ _ _ _ _ H) as [He _].
  destruct (conn_at_some _ _ _ _ _ (each_at _ _ _ id He) Hf) as (c' & E & Ha).
  unfold send_one in E. rewrite send_message_disconnected_noop in E by exact Hd. injection E as <-. exact Ha.
Qed.

Theorem attribution_state : forall s id ch s' m,
    srv_receive_message s id ch = Ok (s', Some m) ->
    exists c c', sm_find id (s_conns s) = Some c /\ receive_message c ch = Ok (c', Some m) /\
                 sm_find id (s_conns s') = Some c' /\
                 forall j, j <> id -> sm_find j (s_conns s') = sm_find j (s_conns s).
Proof.
  intros s id ch s' m. unfold srv_receive_message.
  destruct (sm_find id (s_conns s)) as [c|] eqn:Ef; [|discriminate].
  intros H. apply bind_ok in H as ([c' m'] & Er & H). injection H as <- ->.
  exists c, c'. cbn [s_conns with_conns].
  split; [reflexivity|]. split; [exact Er|]. split; [apply SMapP.sm_find_insert_same|].
  intros j Hn. apply SMapP.sm_find_insert_other. exact Hn.
Qed.

Theorem attribution : forall s id ch s' m,
    srv_receive_message s id ch = Ok (s', Some m) ->
    exists c c', sm_find id (s_conns s) = Some c /\ receive_message c ch = Ok (c', Some m).
Proof.
  intros s id ch s' m H. destruct (attribution_state _ _ _ _ _ H) as (c & c' & A & B & _). eauto.
Qed.

Theorem process_packet_from_others : forall s b id s' ok,
    process_packet_from s b id = Ok (s', ok) ->
    forall j, j <> id -> sm_find j (s_conns s') = sm_find j (s_conns s).
Proof.
  intros s b id s' ok H j Hn.
  destruct (process_packet_from_upd _ _ _ _ _ H) as [_ ->|c c' _ _ ->]; [reflexivity|].
  apply SMapP.sm_find_insert_other. exact Hn.
Qed.

Theorem process_packet_from_self : forall s b id s' ok,
    process_packet_from s b id = Ok (s', ok) ->
    s_events s' = s_events s /\
    match sm_find id (s_conns s) with
    | Some c => ok = true /\ exists c', process_packet c b = Ok c' /\ sm_find id (s_conns s') = Some c'
    | None => ok = false /\ s' = s
    end.
Proof.
  intros s b id s' ok. unfold process_packet_from.
  destruct (sm_find id (s_conns s)) as [c|] eqn:Ef.
  - destruct (process_packet c b) as [c'|e|p] eqn:Ep; cbn [bind]; try discriminate.
    intros H. injection H as <- <-. cbn [s_conns s_events with_conns].
    split; [reflexivity|]. split; [reflexivity|]. exists c'. split; [reflexivity|].
    apply SMapP.sm_find_insert_same.
  - intros H. injection H as <- <-. auto.
Qed.

Definition ex_chan : list chan_config :=
  [ {| cc_id := 0; cc_max := 10000; cc_type := TReliableOrdered 300 |} ].
Definition ex_server : server := server_new 60000 ex_chan ex_chan.

Definition ex_ops : list sop :=
  [SAdd 7; SAdd 3; SSend 3 0 [1;2;3]; SDisconnect 7; SAdd 7; SRemove 7; SGetEvent; SGetEvent; SGetEvent; SGetEvent].

Definition run_summary (s : server) (ops : list sop) :=
  match srun s ops with
  | Ok (s', outs) => Some (taken_events outs, s_events s', map fst (s_conns s'))
  | _ => None
  end.

Definition ex_result : server * list sout := ltac:(evaluated (srun ex_server ex_ops)).
Lemma ex_result_eq : srun ex_server ex_ops = Ok ex_result.
Proof. evaluates. Qed.

Example ex_run :
  run_summary ex_server ex_ops =
  Some ([EvConnected 7; EvConnected 3; EvDisconnected 7 RDisconnectedByServer], [], [3]).
Proof. unfold run_summary. rewrite ex_result_eq. reflexivity. Qed.

(* the hypotheses of events_alternate hold of this run, and its conclusion can be read off *)
Example ex_run_alternates :
  exists s outs, srun ex_server ex_ops = Ok (s, outs) /\
    all_events s outs = [EvConnected 7; EvConnected 3; EvDisconnected 7 RDisconnectedByServer] /\
    alternates 7 true (all_events s outs) /\ alternates 3 true (all_events s outs) /\
    sm_mem 7 (s_conns s) = false /\ sm_mem 3 (s_conns s) = true.
Proof.
  exists (fst ex_result), (snd ex_result).
  assert (E : srun ex_server ex_ops = Ok (fst ex_result, snd ex_result)) by exact ex_result_eq.
  pose proof (events_alternate _ _ _ _ _ _ E) as Ha.
  assert (Hev : all_events (fst ex_result) (snd ex_result) =
                [EvConnected 7; EvConnected 3; EvDisconnected 7 RDisconnectedByServer]) by reflexivity.
  destruct (Ha 7) as [A7 M7]. destruct (Ha 3) as [A3 M3].
  split; [exact E|]. split; [exact Hev|]. split; [exact A7|]. split; [exact A3|].
  rewrite M7, M3, Hev. split; reflexivity.
Qed.

(* re-adding after removal gives Connected again, and a removal with no recorded reason reports
   RTransport *)
Example ex_run2 :
  run_summary ex_server [SAdd 1; SRemove 1; SRemove 1; SAdd 1; SAdd 1; SGetEvent] =
  Some ([EvConnected 1], [EvDisconnected 1 RTransport; EvConnected 1], [1]).
Proof. evaluates. Qed.

(* oddity: after srv_disconnect the (disconnected) connection object stays in the map until
   remove_connection, so adding the same id again is a silent no-op - no second Connected event and
   the client stays disconnected *)
Example ex_readd_while_disconnected :
  match srun ex_server [SAdd 5; SDisconnect 5; SAdd 5; SGetEvent; SGetEvent] with
  | Ok (s', outs) => Some (taken_events outs, s_events s', srv_is_connected s' 5, srv_disconnect_reason s' 5)
  | _ => None
  end = Some ([EvConnected 5], [], false, Some RDisconnectedByServer).
Proof. evaluates. Qed.

(* non-interference is not vacuous: client 3's connection after the run of ex_ops minus the
   operations on 7 equals its connection after the full run *)
Example ex_frame :
  match srun ex_server [SAdd 7; SAdd 3], srun ex_server [SAdd 7; SAdd 3; SSend 3 0 [1;2;3]; SDisconnect 7; SProcess 7 [255;255]; SRemove 7; SBroadcast 0 [9]] with
  | Ok (s0, _), Ok (s1, _) =>
      match sm_find 3 (s_conns s0) with
      | Some c =>
          match local_run [SSend 3 0 [1;2;3]; SDisconnect 7; SProcess 7 [255;255]; SRemove 7; SBroadcast 0 [9]] 3 c with
          | Ok c' => sm_find 3 (s_conns s1) = Some c'
          | _ => False
          end
      | None => False
      end
  | _, _ => False
  end.
Proof. vm_compute. reflexivity. Qed.

Print Assumptions conns_sorted_new.
Print Assumptions sstep_sorted.
Print Assumptions srun_sorted.
Print Assumptions events_alternate.
Print Assumptions removal_reports_first_reason.
Print Assumptions remove_connection_absent.
Print Assumptions disconnect_local_reports_first_reason.
Print Assumptions server_frame.
Print Assumptions server_frame_absent.
Print Assumptions server_frame_run.
Print Assumptions broadcast_exact.
Print Assumptions broadcast_except_exact.
Print Assumptions broadcast_events.
Print Assumptions broadcast_except_events.
Print Assumptions broadcast_skips_disconnected.
Print Assumptions attribution.
Print Assumptions process_packet_from_others.
Print Assumptions ex_run.
Print Assumptions ex_run_alternates.
Print Assumptions ex_frame.

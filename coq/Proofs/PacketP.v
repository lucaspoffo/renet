(* PacketP.v - proofs about the packet codec: canonical encoding, totality of
   to_bytes, round trip, decoder soundness, length closed forms. *)
From RenetV Require Import Base Consts Varint Packet.
From RenetV Require Import Spec.CodecSpec Proofs.VarintP.
Require Import Lia ZifyBool ZifyN.
Open Scope N_scope.

(* facts about the generated constants (the only place in this file where they are unfolded) *)
Lemma MAX_NUM_SLICES_le_VARINT_MAX : MAX_NUM_SLICES <= VARINT_MAX.
Proof. unfold MAX_NUM_SLICES, VARINT_MAX. lia. Qed.

Lemma SLICE_SIZE_le_VARINT_MAX : SLICE_SIZE <= VARINT_MAX.
Proof. unfold SLICE_SIZE, VARINT_MAX. lia. Qed.

Definition enc_rel_msg (im : N * list N) : list N :=
  varint_bytes (fst im) ++ varint_bytes (len (snd im)) ++ snd im.
Definition enc_unrel_msg (m : list N) : list N := varint_bytes (len m) ++ m.

Fixpoint enc_rel_msgs (ms : list (N * list N)) : list N :=
  match ms with [] => [] | im :: t => enc_rel_msg im ++ enc_rel_msgs t end.
Fixpoint enc_unrel_msgs (ms : list (list N)) : list N :=
  match ms with [] => [] | m :: t => enc_unrel_msg m ++ enc_unrel_msgs t end.

Definition enc_slice (s : slice) : list N :=
  varint_bytes (sl_id s) ++ varint_bytes (sl_index s) ++ varint_bytes (sl_num s) ++
  varint_bytes (len (sl_payload s)) ++ sl_payload s.

(* [rest] is in descending order, as in put_ranges *)
Fixpoint enc_ranges (prev_start : N) (rest : list (N * N)) : list N :=
  match rest with
  | [] => []
  | (a, b) :: t =>
      varint_bytes (prev_start - b - 1) ++ varint_bytes (b - 1 - a) ++ enc_ranges a t
  end.

Definition enc_ack_body (rrs : list (N * N)) : list N :=
  match rrs with
  | [] => []
  | (a, b) :: rest =>
      varint_bytes (b - 1) ++ varint_bytes (b - 1 - a) ++ varint_bytes (len rest) ++
      enc_ranges a rest
  end.

Definition enc_packet (p : packet) : list N :=
  match p with
  | SmallReliable seq ch ms =>
      [0] ++ varint_bytes seq ++ [ch] ++ be_bytes 2 (len ms) ++ enc_rel_msgs ms
  | SmallUnreliable seq ch ms =>
      [1] ++ varint_bytes seq ++ [ch] ++ be_bytes 2 (len ms) ++ enc_unrel_msgs ms
  | ReliableSlice seq ch s => [2] ++ varint_bytes seq ++ [ch] ++ enc_slice s
  | UnreliableSlice seq ch s => [3] ++ varint_bytes seq ++ [ch] ++ enc_slice s
  | Ack seq rs => [4] ++ varint_bytes seq ++ enc_ack_body (rev rs)
  end.

Fixpoint desc_wf (lo prev : N) (l : list (N * N)) : Prop :=
  match l with
  | [] => True
  | (a, b) :: t => lo <= a /\ a < b /\ b + 1 <= prev /\ desc_wf lo a t
  end.

Lemma ranges_wf_mono lo lo' l : lo' <= lo -> ranges_wf lo l -> ranges_wf lo' l.
Proof.
  destruct l as [|[a b] t]; cbn [ranges_wf]; [auto|].
  intros H (H1 & H2 & H3). repeat split; [lia | exact H2 | exact H3].
Qed.

Lemma ranges_wf_snoc2 lo l c d a b :
  ranges_wf lo (l ++ [(c, d); (a, b)]) <-> ranges_wf lo (l ++ [(c, d)]) /\ d + 1 <= a /\ a < b.
Proof.
  revert lo. induction l as [|[x y] t IH]; intros lo; cbn [app ranges_wf]; [|rewrite IH]; tauto.
Qed.

Lemma ranges_wf_desc lo l a b :
  ranges_wf lo (rev l ++ [(a, b)]) <-> desc_wf lo a l /\ lo <= a /\ a < b.
Proof.
  revert a b. induction l as [|[c d] t IH]; intros a b; cbn [rev desc_wf].
  - cbn [app ranges_wf]. tauto.
  - rewrite <- app_assoc. cbn [app]. rewrite ranges_wf_snoc2, IH. intuition lia.
Qed.

Lemma desc_wf_below lo prev l B : desc_wf lo prev l -> prev <= B + 1 -> ranges_below B l.
Proof.
  revert prev. induction l as [|[a b] t IH]; intros prev H Hp; [constructor|].
  cbn [desc_wf] in H. destruct H as (H1 & H2 & H3 & H4).
  constructor; [cbn [snd]; lia | apply (IH a H4); lia].
Qed.

(* wf ranges below a bound are few: each takes an element and a gap *)
Lemma ranges_wf_count lo B l :
  ranges_wf lo l -> ranges_below B l -> l = [] \/ lo + 2 * len l <= B + 1.
Proof.
  revert lo. induction l as [|[a b] t IH]; intros lo Hw Hb; [left; reflexivity|right].
  cbn [ranges_wf] in Hw. destruct Hw as (H1 & H2 & H3).
  unfold ranges_below in Hb. apply Forall_cons_iff in Hb. destruct Hb as [Hb1 Hb2].
  cbn [snd] in Hb1. rewrite len_cons.
  destruct (IH (b + 1) H3 Hb2) as [->|H]; [rewrite len_nil|]; lia.
Qed.

Lemma rev_snoc_inv {A} (l : list A) x t : rev l = x :: t -> l = rev t ++ [x].
Proof. intros H. rewrite <- (rev_involutive l), H. reflexivity. Qed.

Definition rel_msg_wf (im : N * list N) : Prop := fst im <= VARINT_MAX /\ len (snd im) <= VARINT_MAX.
Definition unrel_msg_wf (m : list N) : Prop := len m <= VARINT_MAX.

Lemma wr_put_rel_msgs ms : forall w,
  wr (Forall rel_msg_wf ms) (put_rel_msgs w ms) w (enc_rel_msgs ms).
Proof.
  induction ms as [|[id m] t IH]; intros w; cbn [put_rel_msgs enc_rel_msgs].
  - eapply wr_ext; [apply wr_ok | | reflexivity]. split; auto.
  - eapply wr_ext.
    + apply wr_bind; [apply wr_put_varint|]. intros w1.
      apply wr_bind; [apply wr_put_varint|]. intros w2.
      apply wr_bind; [apply wr_put_bytes|]. intros w3. apply IH.
    + rewrite Forall_cons_iff. unfold rel_msg_wf. cbn [fst snd]. tauto.
    + unfold enc_rel_msg. cbn [fst snd]. rewrite <- !app_assoc. reflexivity.
Qed.

Lemma wr_put_unrel_msgs ms : forall w,
  wr (Forall unrel_msg_wf ms) (put_unrel_msgs w ms) w (enc_unrel_msgs ms).
Proof.
  induction ms as [|m t IH]; intros w; cbn [put_unrel_msgs enc_unrel_msgs].
  - eapply wr_ext; [apply wr_ok | | reflexivity]. split; auto.
  - eapply wr_ext.
    + apply wr_bind; [apply wr_put_varint|]. intros w1.
      apply wr_bind; [apply wr_put_bytes|]. intros w2. apply IH.
    + rewrite Forall_cons_iff. unfold unrel_msg_wf. tauto.
    + unfold enc_unrel_msg. rewrite <- !app_assoc. reflexivity.
Qed.

(* sl_num may exceed MAX_NUM_SLICES: the encoder does not look *)
Definition slice_v (s : slice) : Prop :=
  sl_id s <= VARINT_MAX /\ sl_index s <= VARINT_MAX /\ sl_num s <= VARINT_MAX /\
  len (sl_payload s) <= VARINT_MAX.

Lemma wr_put_slice w s : wr (slice_v s) (put_slice w s) w (enc_slice s).
Proof.
  unfold put_slice. eapply wr_ext.
  - apply wr_bind; [apply wr_put_varint|]. intros w1.
    apply wr_bind; [apply wr_put_varint|]. intros w2.
    apply wr_bind; [apply wr_put_varint|]. intros w3.
    apply wr_bind; [apply wr_put_varint|]. intros w4. apply wr_put_bytes.
  - unfold slice_v. tauto.
  - reflexivity.
Qed.

(* descending ranges below VARINT_MAX + 1: no subtraction underflows and every gap and size is a varint *)
Lemma wr_put_ranges lo rest : forall w prev,
  desc_wf lo prev rest -> prev <= VARINT_MAX + 1 ->
  wr True (put_ranges w prev rest) w (enc_ranges prev rest).
Proof.
  induction rest as [|[a b] t IH]; intros w prev Hd Hp; cbn [put_ranges enc_ranges]; [apply wr_ok|].
  cbn [desc_wf] in Hd. destruct Hd as (H1 & H2 & H3 & H4).
  rewrite (sub_chk_ok _ prev b) by lia. cbn [bind].
  rewrite (sub_chk_ok _ (prev - b) 1) by lia. cbn [bind].
  rewrite (sub_chk_ok _ b 1) by lia. cbn [bind].
  rewrite (sub_chk_ok _ (b - 1) a) by lia. cbn [bind].
  eapply wr_ext.
  - apply wr_bind; [apply wr_put_varint|]. intros w1.
    apply wr_bind; [apply wr_put_varint|]. intros w2. apply (IH _ _ H4). lia.
  - split; [intros _; exact I | intros _; lia].
  - reflexivity.
Qed.

Lemma ack_rev_wf rs a b rest :
  rs <> [] -> ranges_wf 0 rs -> ranges_below (VARINT_MAX + 1) rs -> rev rs = (a, b) :: rest ->
  desc_wf 0 a rest /\ a < b /\ b <= VARINT_MAX + 1 /\ len rest <= VARINT_MAX.
Proof.
  intros Hne Hw Hb Hr.
  apply rev_snoc_inv in Hr. cbn [rev app] in Hr.
  assert (Hlen : len rs = 1 + len rest).
  { rewrite Hr, len_app, len_rev, len_cons, len_nil. lia. }
  pose proof (ranges_wf_count 0 _ rs Hw Hb) as Hc.
  destruct Hc as [Hc|Hc]; [contradiction|].
  subst rs. apply ranges_wf_desc in Hw.
  destruct Hw as (Hw1 & Hw2 & Hw3).
  unfold ranges_below in Hb. apply Forall_app in Hb. destruct Hb as [_ Hb].
  apply Forall_cons_iff in Hb. destruct Hb as [Hb _]. cbn [snd] in Hb.
  repeat split; try assumption. lia.
Qed.

(* What the encoder needs of a packet: its varints in range ([packet_v]; otherwise it panics) and,
   of an Ack, ranges as pending_acks keeps them ([packet_a]).  These are ConnEncP.varints_ok and
   ConnEncP.ack_ok, by which the callers know them; they are stated there, in a file that imports
   this one, and each is convertible with its twin here.  The channel id is written as the one
   byte ch mod 256 whatever it is, while enc_packet has [ch]: what is written is
   enc_packet (on_wire p), and that is enc_packet p only when ch < 256. *)
Definition packet_v (p : packet) : Prop :=
  match p with
  | SmallReliable seq _ ms => seq <= VARINT_MAX /\ Forall rel_msg_wf ms
  | SmallUnreliable seq _ ms => seq <= VARINT_MAX /\ Forall unrel_msg_wf ms
  | ReliableSlice seq _ s | UnreliableSlice seq _ s => seq <= VARINT_MAX /\ slice_v s
  | Ack seq _ => seq <= VARINT_MAX
  end.

Definition packet_a (p : packet) : Prop :=
  match p with
  | Ack _ rs => rs <> [] /\ ranges_wf 0 rs /\ ranges_below (VARINT_MAX + 1) rs
  | _ => True
  end.

Definition on_wire (p : packet) : packet :=
  match p with
  | SmallReliable seq ch ms => SmallReliable seq (ch mod 256) ms
  | SmallUnreliable seq ch ms => SmallUnreliable seq (ch mod 256) ms
  | ReliableSlice seq ch s => ReliableSlice seq (ch mod 256) s
  | UnreliableSlice seq ch s => UnreliableSlice seq (ch mod 256) s
  | Ack _ _ => p
  end.

Theorem to_bytes_w_wr w p : packet_a p -> wr (packet_v p) (to_bytes_w w p) w (enc_packet (on_wire p)).
Proof.
  destruct p as [seq ch ms|seq ch ms|seq ch s|seq ch s|seq rs]; cbn [packet_a packet_v on_wire]; intros Ha;
    unfold to_bytes_w, enc_packet.
  - eapply wr_ext.
    + apply wr_bind; [apply wr_put_u8|]. intros w1.
      apply wr_bind; [apply wr_put_varint|]. intros w2.
      apply wr_bind; [apply wr_put_u8|]. intros w3.
      apply wr_bind; [apply wr_put_u16|]. intros w4. apply wr_put_rel_msgs.
    + tauto.
    + reflexivity.
  - eapply wr_ext.
    + apply wr_bind; [apply wr_put_u8|]. intros w1.
      apply wr_bind; [apply wr_put_varint|]. intros w2.
      apply wr_bind; [apply wr_put_u8|]. intros w3.
      apply wr_bind; [apply wr_put_u16|]. intros w4. apply wr_put_unrel_msgs.
    + tauto.
    + reflexivity.
  - eapply wr_ext.
    + apply wr_bind; [apply wr_put_u8|]. intros w1.
      apply wr_bind; [apply wr_put_varint|]. intros w2.
      apply wr_bind; [apply wr_put_u8|]. intros w3. apply wr_put_slice.
    + tauto.
    + reflexivity.
  - eapply wr_ext.
    + apply wr_bind; [apply wr_put_u8|]. intros w1.
      apply wr_bind; [apply wr_put_varint|]. intros w2.
      apply wr_bind; [apply wr_put_u8|]. intros w3. apply wr_put_slice.
    + tauto.
    + reflexivity.
  - destruct Ha as (Hne & Hwf & Hbel).
    destruct (rev rs) as [|[a b] rest] eqn:Hr.
    { exfalso. apply Hne. rewrite <- (rev_involutive rs), Hr. reflexivity. }
    destruct (ack_rev_wf rs a b rest Hne Hwf Hbel Hr) as (Hd & Hab & Hb & Hl).
    rewrite (sub_chk_ok _ b 1) by lia. cbn [bind].
    rewrite (sub_chk_ok _ (b - 1) a) by lia. cbn [bind].
    eapply wr_ext.
    + apply wr_bind; [apply wr_put_u8|]. intros w1.
      apply wr_bind; [apply wr_put_varint|]. intros w2.
      apply wr_bind; [apply wr_put_varint|]. intros w3.
      apply wr_bind; [apply wr_put_varint|]. intros w4.
      apply wr_bind; [apply wr_put_varint|]. intros w5. apply (wr_put_ranges 0); [exact Hd | lia].
    + (* beside seq, the varints of an Ack are bounded by the end of its last range *)
      split; [tauto|]. intros Hs. repeat split; [exact Hs | lia | lia | exact Hl].
    + reflexivity.
Qed.

Lemma enc_on_wire_len p : len (enc_packet (on_wire p)) = len (enc_packet p).
Proof. destruct p; cbn [on_wire enc_packet]; rewrite ?len_app, ?len_cons; reflexivity. Qed.

Theorem to_bytes_wr cap p : packet_a p ->
  match to_bytes cap p with
  | Ok b => packet_v p /\ b = enc_packet (on_wire p) /\ len b <= cap
  | Err e => e = BufferTooShort /\ cap < len (enc_packet p)
  | Panic s => s = SITE_VARINT_TOO_LARGE /\ ~ packet_v p
  end.
Proof.
  intros Ha. unfold to_bytes.
  pose proof (to_bytes_w_wr {| w_out := []; w_cap := cap |} p Ha) as H.
  destruct (to_bytes_w {| w_out := []; w_cap := cap |} p) as [w'|e|s]; cbn [bind wr w_cap] in *.
  - destruct H as (A & B & ->). cbn [w_push w_out app]. auto.
  - rewrite enc_on_wire_len in H. exact H.
  - exact H.
Qed.

(* what the encoder returns for a slice packet, if anything (num_slices may exceed the decoder's limit) *)
Lemma slice_to_bytes_enc cap (rel : bool) sq ch s b :
  ch < 256 ->
  to_bytes cap (if rel then ReliableSlice sq ch s else UnreliableSlice sq ch s) = Ok b ->
  b = (if rel then 2 else 3) :: varint_bytes sq ++ [ch] ++ enc_slice s.
Proof.
  intros Hch E.
  pose proof (to_bytes_wr cap (if rel then ReliableSlice sq ch s else UnreliableSlice sq ch s)) as H.
  rewrite E in H. destruct rel.
  - destruct (H I) as (_ & -> & _). cbn [on_wire enc_packet app].
    rewrite N.mod_small by exact Hch. reflexivity.
  - destruct (H I) as (_ & -> & _). cbn [on_wire enc_packet app].
    rewrite N.mod_small by exact Hch. reflexivity.
Qed.

Lemma slice_wf_v r s : slice_wf r s -> slice_v s.
Proof.
  intros (H1 & H2 & _ & H4 & H5 & _). pose proof MAX_NUM_SLICES_le_VARINT_MAX as HM.
  repeat split; [exact H1 | exact H2 | lia | exact H5].
Qed.

Lemma packet_wf_enc p : packet_wf p -> packet_a p /\ packet_v p /\ on_wire p = p.
Proof.
  destruct p as [seq ch ms|seq ch ms|seq ch s|seq ch s|seq rs]; cbn [packet_wf packet_a packet_v on_wire].
  - intros (H1 & H2 & _ & H4). rewrite (N.mod_small ch 256 H2). auto.
  - intros (H1 & H2 & _ & H4). rewrite (N.mod_small ch 256 H2). auto.
  - intros (H1 & H2 & H3). rewrite (N.mod_small ch 256 H2). pose proof (slice_wf_v _ _ H3). auto.
  - intros (H1 & H2 & H3). rewrite (N.mod_small ch 256 H2). pose proof (slice_wf_v _ _ H3). auto.
  - tauto.
Qed.

Lemma to_bytes_w_enc w p : packet_wf p -> to_bytes_w w p = put_bytes w (enc_packet p).
Proof.
  intros H. destruct (packet_wf_enc p H) as (Ha & Hv & E).
  rewrite <- E at 2. exact (wr_eq _ _ _ _ (to_bytes_w_wr w p Ha) Hv).
Qed.

Theorem to_bytes_enc : forall cap p, packet_wf p ->
  to_bytes cap p = if len (enc_packet p) <=? cap then Ok (enc_packet p) else Err BufferTooShort.
Proof.
  intros cap p Hwf. unfold to_bytes. rewrite (to_bytes_w_enc _ p Hwf), put_bytes_spec.
  cbn [w_cap w_out].
  destruct (len (enc_packet p) <=? cap) eqn:Hc; reflexivity.
Qed.

Theorem to_bytes_total : forall cap p, packet_wf p ->
  (exists b, to_bytes cap p = Ok b) \/ to_bytes cap p = Err BufferTooShort.
Proof.
  intros cap p Hwf. rewrite (to_bytes_enc cap p Hwf).
  destruct (len (enc_packet p) <=? cap); [left; eauto | right; reflexivity].
Qed.

Theorem to_bytes_fits : forall p, packet_wf p ->
  exists b, forall cap, len b <= cap -> to_bytes cap p = Ok b.
Proof.
  intros p Hwf. exists (enc_packet p). intros cap Hc. rewrite (to_bytes_enc cap p Hwf).
  destruct (len (enc_packet p) <=? cap) eqn:E; [reflexivity | lia].
Qed.

Lemma to_bytes_ok_enc cap p b : packet_wf p -> to_bytes cap p = Ok b -> b = enc_packet p /\ len b <= cap.
Proof.
  intros Hwf. rewrite (to_bytes_enc cap p Hwf).
  destruct (len (enc_packet p) <=? cap) eqn:E; [|discriminate].
  intros H; injection H as <-. split; [reflexivity | lia].
Qed.

Tactic Notation "bind_inv" hyp(H) ident(x) ident(y) ident(Hx) :=
  apply bind_ok in H; destruct H as ([x y] & Hx & H); cbv beta iota in H.

(* get_rel_msgs, get_unrel_msgs and get_ranges are one loop: [n] items are read one after
   the other, each with the state left by the one before ([next]); [out] is applied to
   the items in reverse order of reading.  What the loop does on encodings, what it can
   return, that it does not panic and that spare fuel is never used follow from the same
   facts about one item. *)
Section Rep.
  Context {S A R : Type}.
  Variable item : S -> list N -> sres (A * list N).
  Variable next : S -> A -> S.
  Variable out : list A -> R.

  Fixpoint rep (fuel : nat) (n : N) (st : S) (l : list N) (acc : list A) : sres (R * list N) :=
    if n =? 0 then Ok (out acc, l) else
    match fuel with
    | O => Err BufferTooShort
    | Datatypes.S f => do (a, l1) <- item st l; rep f (n - 1) (next st a) l1 (a :: acc)
    end.

  Variable enc : S -> A -> list N.
  Variable wf : S -> A -> Prop.

  Fixpoint encs (st : S) (xs : list A) : list N :=
    match xs with [] => [] | x :: t => enc st x ++ encs (next st x) t end.
  Fixpoint wfs (st : S) (xs : list A) : Prop :=
    match xs with [] => True | x :: t => wf st x /\ wfs (next st x) t end.

  Lemma rep_no_panic : (forall st l, is_panic (item st l) = false) ->
    forall fuel n st l acc, is_panic (rep fuel n st l acc) = false.
  Proof.
    intros Hi. induction fuel as [|f IH]; intros n st l acc; cbn [rep];
      destruct (n =? 0); try reflexivity.
    apply bind_no_panic; [apply Hi|]. intros [a l1]. apply IH.
  Qed.

  Hypothesis item_sound : forall st, sound (item st) (enc st) (wf st).

  (* every iteration consumes a byte, so fuel beyond the input length is never used *)
  Lemma rep_fuel : (forall st, item st [] = Err BufferTooShort) ->
    forall f1 f2 n st l acc, (length l <= f1)%nat -> (length l <= f2)%nat ->
    rep f1 n st l acc = rep f2 n st l acc.
  Proof.
    intros Hnil. induction f1 as [|f1 IH]; intros f2 n st l acc H1 H2.
    - apply Nat.le_0_r, length_zero_iff_nil in H1. subst l. destruct f2 as [|f2]; [reflexivity|]. cbn [rep].
      rewrite Hnil. reflexivity.
    - destruct f2 as [|f2].
      + apply Nat.le_0_r, length_zero_iff_nil in H2. subst l. cbn [rep]. rewrite Hnil. reflexivity.
      + cbn [rep]. destruct (n =? 0); [reflexivity|].
        destruct (item st l) as [[a l1]|e|s] eqn:Ha; cbn [bind]; try reflexivity.
        apply item_sound in Ha. apply IH; lia.
  Qed.

  Lemma rep_inv fuel n st l acc r l' :
    rep fuel n st l acc = Ok (r, l') ->
    exists xs, r = out (rev xs ++ acc) /\ len xs = n /\ wfs st xs /\
               len (encs st xs) + len l' <= len l.
  Proof.
    revert n st l acc. induction fuel as [|f IH]; intros n st l acc H; cbn [rep] in H;
      destruct (n =? 0) eqn:Hn; try discriminate;
      [exists []; injection H as <- <-; cbn [wfs encs rev app];
       rewrite (@len_nil A), (@len_nil N); repeat split; lia ..|].
    bind_inv H a l1 Ha. apply item_sound in Ha. destruct Ha as (Hw & Hl & _).
    apply IH in H. destruct H as (xs & -> & Hlen & Hws & Hle).
    exists (a :: xs). cbn [rev wfs encs]. rewrite <- app_assoc, len_cons, len_app.
    repeat split; [lia | exact Hw | exact Hws | lia].
  Qed.

  Hypothesis item_parses : forall st, parses (item st) (enc st) (wf st).

  Lemma rep_enc fuel st xs rest acc :
    wfs st xs -> (length (encs st xs ++ rest) <= fuel)%nat ->
    rep fuel (len xs) st (encs st xs ++ rest) acc = Ok (out (rev xs ++ acc), rest).
  Proof.
    revert fuel st acc. induction xs as [|x t IH]; intros fuel st acc Hw Hf.
    - destruct fuel; reflexivity.
    - destruct Hw as [Hx Ht]. cbn [encs] in *. rewrite <- app_assoc in *.
      pose proof (item_parses st x (encs (next st x) t ++ rest) Hx) as Hp.
      pose proof (item_sound st _ _ _ Hp) as (_ & _ & Hs).
      destruct fuel as [|f]; [lia|]. cbn [rep]. rewrite len_cons.
      destruct (1 + len t =? 0) eqn:Hc; [lia|].
      rewrite Hp. cbn [bind]. replace (1 + len t - 1) with (len t) by lia.
      rewrite IH; [|exact Ht | lia]. cbn [rev]. rewrite <- app_assoc. reflexivity.
  Qed.
End Rep.

Definition rel_item (_ : unit) (l : list N) : sres ((N * list N) * list N) :=
  do (id, l1) <- get_varint l; do (m, l2) <- get_bytes_with_varint_length l1; Ok ((id, m), l2).
Definition unrel_item (_ : unit) := get_bytes_with_varint_length.
Definition range_item (prev : N) (l : list N) : sres ((N * N) * list N) :=
  do (gap, l1) <- get_varint l;
  if prev <? 2 + gap then Err InvalidAckRange else
  do (size, l2) <- get_varint l1;
  if prev - gap - 2 <? size then Err InvalidAckRange else
  Ok ((prev - gap - 2 - size, prev - gap - 2 + 1), l2).
Definition no_state {A} (_ : unit) (_ : A) := tt.

Lemma get_rel_msgs_rep f n l acc :
  get_rel_msgs f n l acc = rep rel_item no_state (@rev _) f n tt l acc.
Proof.
  revert n l acc. induction f as [|f IH]; intros n l acc; cbn [get_rel_msgs rep];
    destruct (n =? 0); try reflexivity.
  unfold rel_item. destruct (get_varint l) as [[id l1]|e|s]; cbn [bind]; try reflexivity.
  destruct (get_bytes_with_varint_length l1) as [[m l2]|e|s]; cbn [bind]; [apply IH | reflexivity..].
Qed.

Lemma get_unrel_msgs_rep f n l acc :
  get_unrel_msgs f n l acc = rep unrel_item no_state (@rev _) f n tt l acc.
Proof.
  revert n l acc. induction f as [|f IH]; intros n l acc; cbn [get_unrel_msgs rep];
    destruct (n =? 0); try reflexivity.
  apply bind_ext. intros [m l1]. apply IH.
Qed.

Lemma get_ranges_rep f n prev l acc :
  get_ranges f n prev l acc = rep range_item (fun _ => fst) (fun rs => rs) f n prev l acc.
Proof.
  revert n prev l acc. induction f as [|f IH]; intros n prev l acc; cbn [get_ranges rep];
    destruct (n =? 0); try reflexivity.
  unfold range_item. destruct (get_varint l) as [[gap l1]|e|s]; cbn [bind]; try reflexivity.
  destruct (prev <? 2 + gap); [reflexivity|].
  destruct (get_varint l1) as [[size l2]|e|s]; cbn [bind]; try reflexivity.
  destruct (prev - gap - 2 <? size); [reflexivity | apply IH].
Qed.

Definition range_enc (prev : N) (ab : N * N) : list N :=
  varint_bytes (prev - snd ab - 1) ++ varint_bytes (snd ab - 1 - fst ab).
Definition range_wf (prev : N) (ab : N * N) : Prop :=
  fst ab < snd ab /\ snd ab + 1 <= prev /\
  prev - snd ab - 1 <= VARINT_MAX /\ snd ab - 1 - fst ab <= VARINT_MAX.

Lemma enc_rel_msgs_encs ms : enc_rel_msgs ms = encs no_state (fun _ => enc_rel_msg) tt ms.
Proof. induction ms as [|im t IH]; cbn [enc_rel_msgs encs]; [|rewrite IH]; reflexivity. Qed.

Lemma enc_unrel_msgs_encs ms : enc_unrel_msgs ms = encs no_state (fun _ => enc_unrel_msg) tt ms.
Proof. induction ms as [|m t IH]; cbn [enc_unrel_msgs encs]; [|rewrite IH]; reflexivity. Qed.

Lemma enc_ranges_encs prev l : enc_ranges prev l = encs (fun _ => fst) range_enc prev l.
Proof.
  revert prev. induction l as [|[a b] t IH]; intros prev; cbn [enc_ranges encs]; [reflexivity|].
  rewrite IH. unfold range_enc. cbn [fst snd]. apply app_assoc.
Qed.

Lemma wfs_Forall {A} (P : A -> Prop) xs : wfs no_state (fun _ => P) tt xs <-> Forall P xs.
Proof.
  induction xs as [|x t IH]; cbn [wfs]; [split; constructor|].
  rewrite Forall_cons_iff, IH. reflexivity.
Qed.

Lemma desc_wf_wfs prev l :
  prev <= VARINT_MAX + 1 -> (desc_wf 0 prev l <-> wfs (fun _ => fst) range_wf prev l).
Proof.
  revert prev. induction l as [|[a b] t IH]; intros prev Hp; cbn [desc_wf wfs]; [reflexivity|].
  unfold range_wf. cbn [fst snd]. split.
  - intros (H1 & H2 & H3 & H4). apply IH in H4; [|lia]. repeat split; [lia .. | exact H4].
  - intros ((H1 & H2 & _) & H4). apply IH in H4; [|lia]. repeat split; [lia .. | exact H4].
Qed.

Lemma rel_item_parses st : parses (rel_item st) enc_rel_msg rel_msg_wf.
Proof.
  intros [id m] rest [H1 H2]. unfold rel_item, enc_rel_msg. cbn [fst snd] in *.
  rewrite <- !app_assoc, varint_roundtrip by exact H1. cbn [bind].
  rewrite get_bwvl_app by exact H2. reflexivity.
Qed.

Lemma rel_item_sound st : sound (rel_item st) enc_rel_msg rel_msg_wf.
Proof.
  intros l im r H. unfold rel_item in H. bind_inv H id l1 Hid. bind_inv H m l2 Hm.
  injection H as <- <-.
  apply varint_sound in Hid. destruct Hid as (Hv1 & Hl1 & Hs1).
  apply bwvl_sound in Hm. destruct Hm as (Hv2 & Hl2 & Hs2).
  unfold enc_rel_msg, rel_msg_wf. cbn [fst snd]. rewrite len_app. repeat split; [assumption .. | lia | lia].
Qed.

Lemma range_item_parses prev : parses (range_item prev) (range_enc prev) (range_wf prev).
Proof.
  intros [a b] rest (H1 & H2 & H3 & H4). unfold range_item, range_enc. cbn [fst snd] in *.
  rewrite <- app_assoc, varint_roundtrip by exact H3. cbn [bind].
  destruct (prev <? 2 + (prev - b - 1)) eqn:Hg; [lia|].
  rewrite varint_roundtrip by exact H4. cbn [bind].
  replace (prev - (prev - b - 1) - 2) with (b - 1) by lia.
  destruct (b - 1 <? b - 1 - a) eqn:Hs; [lia|].
  replace (b - 1 - (b - 1 - a)) with a by lia. replace (b - 1 + 1) with b by lia. reflexivity.
Qed.

Lemma range_item_sound prev : sound (range_item prev) (range_enc prev) (range_wf prev).
Proof.
  intros l ab r H. unfold range_item in H. bind_inv H gap l1 Hgap.
  destruct (prev <? 2 + gap) eqn:Hg; [discriminate|].
  bind_inv H size l2 Hsize.
  destruct (prev - gap - 2 <? size) eqn:Hs; [discriminate|]. injection H as <- <-.
  apply varint_sound in Hgap. destruct Hgap as (Hv1 & Hl1 & Hs1).
  apply varint_sound in Hsize. destruct Hsize as (Hv2 & Hl2 & Hs2).
  unfold range_enc, range_wf. cbn [fst snd].
  replace (prev - (prev - gap - 2 + 1) - 1) with gap by lia.
  replace (prev - gap - 2 + 1 - 1 - (prev - gap - 2 - size)) with size by lia.
  rewrite len_app. repeat split; [lia | lia | assumption | assumption | lia | lia].
Qed.

Lemma get_rel_msgs_enc ms rest :
  Forall rel_msg_wf ms ->
  get_rel_msgs (length (enc_rel_msgs ms ++ rest)) (len ms) (enc_rel_msgs ms ++ rest) [] = Ok (ms, rest).
Proof.
  intros Hw. rewrite get_rel_msgs_rep, enc_rel_msgs_encs.
  rewrite (rep_enc _ _ _ _ _ rel_item_sound rel_item_parses); [|apply wfs_Forall, Hw | apply le_n].
  rewrite app_nil_r, rev_involutive. reflexivity.
Qed.

Lemma get_unrel_msgs_enc ms rest :
  Forall unrel_msg_wf ms ->
  get_unrel_msgs (length (enc_unrel_msgs ms ++ rest)) (len ms) (enc_unrel_msgs ms ++ rest) [] = Ok (ms, rest).
Proof.
  intros Hw. rewrite get_unrel_msgs_rep, enc_unrel_msgs_encs.
  rewrite (rep_enc _ _ _ _ _ (fun _ => bwvl_sound) (fun _ => bwvl_parses)); [|apply wfs_Forall, Hw | apply le_n].
  rewrite app_nil_r, rev_involutive. reflexivity.
Qed.

Lemma get_ranges_enc prev rest tail acc :
  desc_wf 0 prev rest -> prev <= VARINT_MAX + 1 ->
  get_ranges (length (enc_ranges prev rest ++ tail)) (len rest) prev (enc_ranges prev rest ++ tail) acc =
  Ok (rev rest ++ acc, tail).
Proof.
  intros Hd Hp. rewrite get_ranges_rep, enc_ranges_encs.
  apply (rep_enc _ _ (fun rs => rs) _ _ range_item_sound range_item_parses); [|apply le_n].
  apply desc_wf_wfs; assumption.
Qed.

Lemma get_rel_msgs_inv fuel n l ms r :
  get_rel_msgs fuel n l [] = Ok (ms, r) ->
  len ms = n /\ Forall rel_msg_wf ms /\ len (enc_rel_msgs ms) + len r <= len l.
Proof.
  rewrite get_rel_msgs_rep. intros H.
  apply (rep_inv _ _ _ _ _ rel_item_sound) in H. destruct H as (xs & -> & Hn & Hw & Hl).
  rewrite app_nil_r, rev_involutive, enc_rel_msgs_encs.
  split; [exact Hn|]. split; [apply wfs_Forall, Hw | exact Hl].
Qed.

Lemma get_unrel_msgs_inv fuel n l ms r :
  get_unrel_msgs fuel n l [] = Ok (ms, r) ->
  len ms = n /\ Forall unrel_msg_wf ms /\ len (enc_unrel_msgs ms) + len r <= len l.
Proof.
  rewrite get_unrel_msgs_rep. intros H.
  apply (rep_inv _ _ _ _ _ (fun _ => bwvl_sound)) in H. destruct H as (xs & -> & Hn & Hw & Hl).
  rewrite app_nil_r, rev_involutive, enc_unrel_msgs_encs.
  split; [exact Hn|]. split; [apply wfs_Forall, Hw | exact Hl].
Qed.

Lemma get_ranges_inv fuel n prev l acc rs r :
  prev <= VARINT_MAX + 1 -> get_ranges fuel n prev l acc = Ok (rs, r) ->
  exists new, rs = rev new ++ acc /\ len new = n /\ desc_wf 0 prev new /\
              len (enc_ranges prev new) + len r <= len l.
Proof.
  rewrite get_ranges_rep. intros Hp H.
  apply (rep_inv _ _ _ _ _ range_item_sound) in H. destruct H as (xs & E & Hn & Hw & Hl).
  exists xs. rewrite enc_ranges_encs.
  repeat split; [exact E | exact Hn | apply desc_wf_wfs; assumption | exact Hl].
Qed.

(* Readers do not panic because their parts do not: one step peels a bind, whose first
   part is a reader already known not to panic (the no_panic hints), or a test. *)
Create HintDb no_panic discriminated.
#[local] Hint Resolve get_varint_no_panic get_u8_no_panic get_u16_no_panic
  get_bytes_with_varint_length_no_panic : no_panic.
Ltac np_step :=
  match goal with
  | |- is_panic (Ok _) = false => reflexivity
  | |- is_panic (Err _) = false => reflexivity
  | |- is_panic (if ?c then _ else _) = false => destruct c eqn:?
  | |- is_panic (bind _ _) = false =>
      apply bind_no_panic; [solve [auto with no_panic nocore] | intros [? ?]]
  end.

Lemma get_rel_msgs_no_panic fuel n l acc : is_panic (get_rel_msgs fuel n l acc) = false.
Proof.
  rewrite get_rel_msgs_rep. apply rep_no_panic. intros st l0. unfold rel_item. repeat np_step.
Qed.

Lemma get_unrel_msgs_no_panic fuel n l acc : is_panic (get_unrel_msgs fuel n l acc) = false.
Proof.
  rewrite get_unrel_msgs_rep. apply rep_no_panic. intros st. apply get_bytes_with_varint_length_no_panic.
Qed.

Lemma get_ranges_no_panic fuel n prev l acc : is_panic (get_ranges fuel n prev l acc) = false.
Proof.
  rewrite get_ranges_rep. apply rep_no_panic. intros st l0. unfold range_item. repeat np_step.
Qed.
#[local] Hint Resolve get_rel_msgs_no_panic get_unrel_msgs_no_panic get_ranges_no_panic : no_panic.

Lemma get_rel_msgs_fuel f1 f2 n l acc :
  (length l <= f1)%nat -> (length l <= f2)%nat ->
  get_rel_msgs f1 n l acc = get_rel_msgs f2 n l acc.
Proof. rewrite !get_rel_msgs_rep. apply (rep_fuel _ _ _ _ _ rel_item_sound). reflexivity. Qed.

Lemma get_unrel_msgs_fuel f1 f2 n l acc :
  (length l <= f1)%nat -> (length l <= f2)%nat ->
  get_unrel_msgs f1 n l acc = get_unrel_msgs f2 n l acc.
Proof. rewrite !get_unrel_msgs_rep. apply (rep_fuel _ _ _ _ _ (fun _ => bwvl_sound)). reflexivity. Qed.

Lemma get_ranges_fuel f1 f2 n prev l acc :
  (length l <= f1)%nat -> (length l <= f2)%nat ->
  get_ranges f1 n prev l acc = get_ranges f2 n prev l acc.
Proof. rewrite !get_ranges_rep. apply (rep_fuel _ _ _ _ _ range_item_sound). reflexivity. Qed.

Lemma get_slice_enc r : parses (get_slice r) enc_slice (slice_wf r).
Proof.
  intros s rest (H1 & H2 & H3 & H4 & H5 & H6).
  pose proof MAX_NUM_SLICES_le_VARINT_MAX as HM.
  unfold get_slice, enc_slice. rewrite <- !app_assoc.
  rewrite varint_roundtrip by exact H1. cbn [bind].
  rewrite varint_roundtrip by exact H2. cbn [bind].
  rewrite varint_roundtrip by lia. cbn [bind].
  destruct (sl_num s =? 0) eqn:Hz; [lia|].
  destruct (MAX_NUM_SLICES <? sl_num s) eqn:Hm; [lia|].
  cbn [orb].
  rewrite get_bwvl_app by exact H5. cbn [bind].
  destruct s as [id idx num payload]. cbn [sl_id sl_index sl_num sl_payload] in *.
  destruct r; cbn [andb]; [|reflexivity].
  destruct (H6 eq_refl) as [H7 H8].
  destruct (len payload =? 0) eqn:Hp; [lia|].
  destruct (SLICE_SIZE <? len payload) eqn:Hq; [lia|].
  reflexivity.
Qed.

Lemma from_bytes_rest_enc : parses from_bytes_rest enc_packet packet_wf.
Proof.
  (* every packet starts with its type byte and sequence number *)
  intros [seq ch ms|seq ch ms|seq ch s|seq ch s|seq rs] rest; cbn [packet_wf]; intros (H1 & H2 & H3);
    unfold from_bytes_rest, enc_packet; rewrite <- !app_assoc; cbn [app get_u8 bind];
    rewrite varint_roundtrip by exact H1; cbn [bind get_u8].
  - destruct H3 as [H3 H4]. rewrite get_u16_be by exact H3. cbn [bind].
    rewrite get_rel_msgs_enc by exact H4. reflexivity.
  - destruct H3 as [H3 H4]. rewrite get_u16_be by exact H3. cbn [bind].
    rewrite get_unrel_msgs_enc by exact H4. reflexivity.
  - rewrite (get_slice_enc true) by exact H3. reflexivity.
  - rewrite (get_slice_enc false) by exact H3. reflexivity.
  - destruct H3 as [H3 H4]. destruct (rev rs) as [|[a b] rs'] eqn:Hr.
    { exfalso. apply H2. rewrite <- (rev_involutive rs), Hr. reflexivity. }
    destruct (ack_rev_wf rs a b rs' H2 H3 H4 Hr) as (Hd & Hab & Hb & Hl).
    unfold enc_ack_body. rewrite <- !app_assoc.
    rewrite varint_roundtrip by lia. cbn [bind].
    rewrite varint_roundtrip by lia. cbn [bind].
    rewrite varint_roundtrip by exact Hl. cbn [bind].
    destruct (b - 1 <? b - 1 - a) eqn:Hs; [lia|].
    replace (b - 1 - (b - 1 - a)) with a by lia.
    replace (b - 1 + 1) with b by lia.
    rewrite get_ranges_enc; [|exact Hd | lia].
    cbn [bind]. apply rev_snoc_inv in Hr. cbn [rev app] in Hr. rewrite <- Hr. reflexivity.
Qed.

Theorem packet_roundtrip : forall p cap b rest,
  packet_wf p -> to_bytes cap p = Ok b -> from_bytes_rest (b ++ rest) = Ok (p, rest).
Proof.
  intros p cap b rest Hwf Hb. apply (to_bytes_ok_enc cap p b Hwf) in Hb.
  destruct Hb as [-> _]. apply from_bytes_rest_enc. exact Hwf.
Qed.

Theorem packet_roundtrip' : forall p cap b,
  packet_wf p -> to_bytes cap p = Ok b -> from_bytes b = Ok p.
Proof.
  intros p cap b Hwf Hb. unfold from_bytes.
  pose proof (packet_roundtrip p cap b [] Hwf Hb) as H. rewrite app_nil_r in H.
  rewrite H. reflexivity.
Qed.

Lemma get_slice_no_panic r l : is_panic (get_slice r l) = false.
Proof. unfold get_slice. repeat np_step. Qed.
#[local] Hint Resolve get_slice_no_panic : no_panic.

Lemma from_bytes_rest_no_panic b : is_panic (from_bytes_rest b) = false.
Proof.
  unfold from_bytes_rest.
  apply bind_no_panic; [apply get_u8_no_panic|]. intros [ty l0].
  destruct ty as [|[[[q|q|]|[q|q|]|]|[[q|q|]|[q|q|]|]|]]; try reflexivity; repeat np_step.
Qed.

Theorem from_bytes_no_panic : forall b, is_panic (from_bytes b) = false.
Proof.
  intros b. unfold from_bytes.
  apply bind_no_panic; [apply from_bytes_rest_no_panic|]. intros [p r]. reflexivity.
Qed.

Lemma get_slice_inv rl l s rest :
  get_slice rl l = Ok (s, rest) -> slice_wf rl s /\ len (enc_slice s) + len rest <= len l.
Proof.
  unfold get_slice. intros H.
  bind_inv H id l1 Hid. bind_inv H idx l2 Hidx. bind_inv H n l3 Hn.
  destruct (n =? 0) eqn:Hz; [discriminate|].
  destruct (MAX_NUM_SLICES <? n) eqn:Hm; [discriminate|].
  cbn [orb] in H.
  bind_inv H payload l4 Hp.
  apply varint_sound in Hid. destruct Hid as (Hv1 & Hl1 & _).
  apply varint_sound in Hidx. destruct Hidx as (Hv2 & Hl2 & _).
  apply varint_sound in Hn. destruct Hn as (Hv3 & Hl3 & _).
  apply bwvl_sound in Hp. destruct Hp as (Hv4 & Hl4 & _).
  assert (Hlen : len (varint_bytes id ++ varint_bytes idx ++ varint_bytes n ++
                      varint_bytes (len payload) ++ payload) + len l4 <= len l).
  { rewrite !len_app in *. lia. }
  destruct (rl && (len payload =? 0)) eqn:Hp0; [discriminate|].
  destruct (rl && (SLICE_SIZE <? len payload)) eqn:Hp1; [discriminate|].
  injection H as <- <-. unfold slice_wf, enc_slice. cbn [sl_id sl_index sl_num sl_payload].
  split; [|exact Hlen].
  repeat split; try assumption; try lia; intros ->; lia.
Qed.

(* lens: push len through ++, ::, [], varint_bytes and be_bytes, so that lia sees the length of an
   encoding as a sum *)
Ltac lens :=
  repeat first [ rewrite len_app | rewrite len_cons | rewrite (@len_nil N)
               | rewrite varint_bytes_len_gen | rewrite len_be_bytes ].

Lemma packet_type_cases (ty : N) :
  ty = 0 \/ ty = 1 \/ ty = 2 \/ ty = 3 \/ ty = 4 \/ 5 <= ty.
Proof. lia. Qed.

(* a data packet is a sequence number, a channel byte and a body [x] read from [l2]: [enc x] is the
   body's encoding, [wf] what its reader guarantees *)
Lemma data_packet_inv {B} (enc : B -> list N) {wf : Prop} {l0 seq l1 ch l2 x} {r : list N} :
  bytes_ok l0 -> get_varint l0 = Ok (seq, l1) -> get_u8 l1 = Ok (ch, l2) ->
  (bytes_ok l2 -> wf /\ len (enc x) + len r <= len l2) ->
  (seq <= VARINT_MAX /\ ch < 256 /\ wf) /\
  1 + len (varint_bytes seq ++ [ch] ++ enc x) + len r <= 1 + len l0.
Proof.
  intros Hb Hseq Hch Hx. apply get_varint_inv in Hseq. destruct Hseq as (pre1 & -> & _ & Hv1 & Hl1).
  apply get_u8_inv in Hch. subst l1.
  apply bytes_ok_app in Hb. destruct Hb as [_ Hb]. apply bytes_ok_cons in Hb. destruct Hb as [Hc Hb2].
  destruct (Hx Hb2) as [Hwf Hlen]. split; [auto|]. revert Hlen. lens. lia.
Qed.

(* the body of a small packet is a 16-bit count and that many messages, encoded by [encs] *)
Lemma small_body_inv {A} (encs : list A -> list N) {wf : A -> Prop} {l2 n l3} {r : list N} {ms : list A} :
  get_u16 l2 = Ok (n, l3) -> len ms = n /\ Forall wf ms /\ len (encs ms) + len r <= len l3 -> bytes_ok l2 ->
  (len ms < 65536 /\ Forall wf ms) /\ len (be_bytes 2 (len ms) ++ encs ms) + len r <= len l2.
Proof.
  intros Hn (Hl & Hwf & Hlen) Hb. apply get_u16_inv in Hn. destruct Hn as (pre & -> & Hp & ->).
  apply bytes_ok_app in Hb. destruct Hb as [Hb _]. apply be_val_lt in Hb. rewrite Hp in Hb.
  split; [split; [lia | exact Hwf]|]. revert Hlen. lens. lia.
Qed.

Lemma from_bytes_rest_inv b p r :
  bytes_ok b -> from_bytes_rest b = Ok (p, r) ->
  packet_wf p /\ len (enc_packet p) + len r <= len b.
Proof.
  intros Hb H. unfold from_bytes_rest in H.
  bind_inv H ty l0 Hty. apply get_u8_inv in Hty. subst b.
  apply bytes_ok_cons in Hb. destruct Hb as [_ Hb0].
  rewrite len_cons.
  destruct (packet_type_cases ty) as [->|[->|[->|[->|[->|Hty]]]]].
  - bind_inv H seq l1 Hseq. bind_inv H ch l2 Hch. bind_inv H n l3 Hn. bind_inv H ms l4 Hms.
    injection H as <- <-. cbn [packet_wf enc_packet app]. rewrite len_cons.
    exact (data_packet_inv (fun ms => be_bytes 2 (len ms) ++ enc_rel_msgs ms) Hb0 Hseq Hch
             (small_body_inv enc_rel_msgs Hn (get_rel_msgs_inv _ _ _ _ _ Hms))).
  - bind_inv H seq l1 Hseq. bind_inv H ch l2 Hch. bind_inv H n l3 Hn. bind_inv H ms l4 Hms.
    injection H as <- <-. cbn [packet_wf enc_packet app]. rewrite len_cons.
    exact (data_packet_inv (fun ms => be_bytes 2 (len ms) ++ enc_unrel_msgs ms) Hb0 Hseq Hch
             (small_body_inv enc_unrel_msgs Hn (get_unrel_msgs_inv _ _ _ _ _ Hms))).
  - bind_inv H seq l1 Hseq. bind_inv H ch l2 Hch. bind_inv H s l3 Hs. injection H as <- <-.
    cbn [packet_wf enc_packet app]. rewrite len_cons.
    exact (data_packet_inv enc_slice Hb0 Hseq Hch (fun _ => get_slice_inv true _ _ _ Hs)).
  - bind_inv H seq l1 Hseq. bind_inv H ch l2 Hch. bind_inv H s l3 Hs. injection H as <- <-.
    cbn [packet_wf enc_packet app]. rewrite len_cons.
    exact (data_packet_inv enc_slice Hb0 Hseq Hch (fun _ => get_slice_inv false _ _ _ Hs)).
  - bind_inv H seq l1 Hseq. bind_inv H fe l2 Hfe. bind_inv H fs l3 Hfs. bind_inv H nrem l4 Hnrem.
    destruct (fe <? fs) eqn:Hc; [discriminate|].
    bind_inv H rs l5 Hrs. injection H as <- <-.
    apply varint_sound in Hseq. destruct Hseq as (Hv1 & Hl1 & _).
    apply varint_sound in Hfe. destruct Hfe as (Hv2 & Hl2 & _).
    apply varint_sound in Hfs. destruct Hfs as (Hv3 & Hl3 & _).
    apply varint_sound in Hnrem. destruct Hnrem as (Hv4 & Hl4 & _).
    apply get_ranges_inv in Hrs; [|lia]. destruct Hrs as (new & E & Hl & Hd & Hlen).
    cbn [packet_wf enc_packet]. split.
    + split; [exact Hv1|]. split; [|split].
      * rewrite E. intros E0. apply app_eq_nil in E0. destruct E0 as [_ E0]. discriminate.
      * rewrite E. apply ranges_wf_desc. split; [exact Hd | lia].
      * rewrite E. unfold ranges_below. apply Forall_app. split.
        -- apply Forall_rev, (desc_wf_below _ _ _ _ Hd). lia.
        -- constructor; [cbn [snd]; lia | constructor].
    + rewrite E, rev_app_distr, rev_involutive. cbn [rev app enc_ack_body].
      replace (fe + 1 - 1) with fe by lia.
      replace (fe - (fe - fs)) with fs by lia.
      rewrite Hl. lens. rewrite varint_bytes_len_gen in *. lia.
  - exfalso.
    destruct ty as [|[[[q|q|]|[q|q|]|]|[[q|q|]|[q|q|]|]|]]; try discriminate; lia.
Qed.

Theorem from_bytes_wf : forall b p, bytes_ok b -> from_bytes b = Ok p -> packet_wf p.
Proof.
  intros b p Hb H. unfold from_bytes in H. bind_inv H p' r Hp. injection H as <-.
  apply (from_bytes_rest_inv b p' r Hb Hp).
Qed.

Theorem from_bytes_enc_len : forall b p, bytes_ok b -> from_bytes b = Ok p ->
  len (enc_packet p) <= len b.
Proof.
  intros b p Hb H. unfold from_bytes in H. bind_inv H p' r Hp. injection H as <-.
  pose proof (from_bytes_rest_inv b p' r Hb Hp) as [_ Hl]. lia.
Qed.

Theorem reencode_len : forall b p, bytes_ok b -> from_bytes b = Ok p ->
  exists b', to_bytes (len b) p = Ok b' /\ from_bytes b' = Ok p /\ len b' <= len b.
Proof.
  intros b p Hb H.
  pose proof (from_bytes_wf b p Hb H) as Hwf.
  pose proof (from_bytes_enc_len b p Hb H) as Hl.
  exists (enc_packet p).
  assert (Ht : to_bytes (len b) p = Ok (enc_packet p)).
  { rewrite (to_bytes_enc _ p Hwf). destruct (len (enc_packet p) <=? len b) eqn:E; [reflexivity | lia]. }
  split; [exact Ht|]. split; [|exact Hl].
  apply (packet_roundtrip' p (len b)); assumption.
Qed.

Theorem reencode : forall b p, bytes_ok b -> from_bytes b = Ok p ->
  exists cap b', to_bytes cap p = Ok b' /\ from_bytes b' = Ok p.
Proof.
  intros b p Hb H. destruct (reencode_len b p Hb H) as (b' & H1 & H2 & _).
  exists (len b), b'. auto.
Qed.

Definition rel_msgs_size (ms : list (N * list N)) : N :=
  sum (map (fun im => varint_len (fst im) + varint_len (len (snd im)) + len (snd im)) ms).
Definition unrel_msgs_size (ms : list (list N)) : N :=
  sum (map (fun m => varint_len (len m) + len m) ms).

Lemma enc_rel_msgs_len ms : len (enc_rel_msgs ms) = rel_msgs_size ms.
Proof.
  unfold rel_msgs_size. induction ms as [|im t IH]; [reflexivity|].
  cbn [enc_rel_msgs map]. rewrite sum_cons, <- IH. unfold enc_rel_msg. lens. lia.
Qed.

Lemma enc_unrel_msgs_len ms : len (enc_unrel_msgs ms) = unrel_msgs_size ms.
Proof.
  unfold unrel_msgs_size. induction ms as [|m t IH]; [reflexivity|].
  cbn [enc_unrel_msgs map]. rewrite sum_cons, <- IH. unfold enc_unrel_msg. lens. lia.
Qed.

Lemma enc_slice_len s :
  len (enc_slice s) =
  varint_len (sl_id s) + varint_len (sl_index s) + varint_len (sl_num s) +
  varint_len (len (sl_payload s)) + len (sl_payload s).
Proof. unfold enc_slice. lens. lia. Qed.

(* four varints, of 8 bytes at most, before the payload *)
Lemma enc_slice_len_le s : len (enc_slice s) <= 32 + len (sl_payload s).
Proof.
  rewrite enc_slice_len.
  pose proof (varint_len_le8 (sl_id s)). pose proof (varint_len_le8 (sl_index s)).
  pose proof (varint_len_le8 (sl_num s)). pose proof (varint_len_le8 (len (sl_payload s))). lia.
Qed.

Lemma enc_ranges_len_le prev rest : len (enc_ranges prev rest) <= 16 * len rest.
Proof.
  revert prev. induction rest as [|[a b] t IH]; intros prev.
  - cbn [enc_ranges]. rewrite (@len_nil N). lia.
  - cbn [enc_ranges]. lens. specialize (IH a).
    pose proof (varint_len_le8 (prev - b - 1)). pose proof (varint_len_le8 (b - 1 - a)). lia.
Qed.

Theorem enc_len_small_reliable : forall seq ch ms,
  len (enc_packet (SmallReliable seq ch ms)) = 1 + varint_len seq + 1 + 2 + rel_msgs_size ms.
Proof.
  intros. cbn [enc_packet]. lens. rewrite enc_rel_msgs_len. change (N.of_nat 2) with 2. lia.
Qed.

Theorem enc_len_small_unreliable : forall seq ch ms,
  len (enc_packet (SmallUnreliable seq ch ms)) = 1 + varint_len seq + 1 + 2 + unrel_msgs_size ms.
Proof.
  intros. cbn [enc_packet]. lens. rewrite enc_unrel_msgs_len. change (N.of_nat 2) with 2. lia.
Qed.

Theorem enc_len_reliable_slice : forall seq ch s,
  len (enc_packet (ReliableSlice seq ch s)) =
  1 + varint_len seq + 1 + varint_len (sl_id s) + varint_len (sl_index s) + varint_len (sl_num s) +
  varint_len (len (sl_payload s)) + len (sl_payload s).
Proof. intros. cbn [enc_packet]. lens. rewrite enc_slice_len. lia. Qed.

Theorem enc_len_unreliable_slice : forall seq ch s,
  len (enc_packet (UnreliableSlice seq ch s)) =
  1 + varint_len seq + 1 + varint_len (sl_id s) + varint_len (sl_index s) + varint_len (sl_num s) +
  varint_len (len (sl_payload s)) + len (sl_payload s).
Proof. intros. cbn [enc_packet]. lens. rewrite enc_slice_len. lia. Qed.

Theorem enc_len_ack : forall seq rs,
  len (enc_packet (Ack seq rs)) <= 1 + 8 + 8 + 8 + 8 + 16 * (len rs - 1).
Proof.
  intros seq rs. cbn [enc_packet]. lens.
  pose proof (varint_len_le8 seq) as H0.
  pose proof (len_rev rs) as Hr.
  destruct (rev rs) as [|[a b] rest]; cbn [enc_ack_body].
  - rewrite (@len_nil N). lia.
  - rewrite len_cons in Hr. lens.
    pose proof (varint_len_le8 (b - 1)). pose proof (varint_len_le8 (b - 1 - a)).
    pose proof (varint_len_le8 (len rest)). pose proof (enc_ranges_len_le a rest). lia.
Qed.

(* exact form for acks, in terms of the reversed (descending) range list *)
Fixpoint ranges_size (prev_start : N) (rest : list (N * N)) : N :=
  match rest with
  | [] => 0
  | (a, b) :: t => varint_len (prev_start - b - 1) + varint_len (b - 1 - a) + ranges_size a t
  end.

Lemma enc_ranges_len prev rest : len (enc_ranges prev rest) = ranges_size prev rest.
Proof.
  revert prev. induction rest as [|[a b] t IH]; intros prev; [reflexivity|].
  cbn [enc_ranges ranges_size]. lens. rewrite IH. lia.
Qed.

Corollary to_bytes_len : forall cap p b, packet_wf p -> to_bytes cap p = Ok b ->
  len b = len (enc_packet p) /\ len b <= cap.
Proof.
  intros cap p b Hwf H. apply (to_bytes_ok_enc cap p b Hwf) in H. destruct H as [-> H]. auto.
Qed.

(* the hypotheses are needed: concrete witnesses *)
(* encoder panics outside packet_wf *)
Example to_bytes_panics_empty_ack : to_bytes 100 (Ack 0 []) = Panic SITE_ACK_EMPTY_RANGES.
Proof. evaluates. Qed.
Example to_bytes_panics_adjacent_ranges : to_bytes 100 (Ack 0 [(0, 1); (1, 2)]) = Panic SITE_ACK_ENCODE_SUB.
Proof. evaluates. Qed.
Example to_bytes_panics_empty_range : to_bytes 100 (Ack 0 [(0, 0)]) = Panic SITE_ACK_ENCODE_SUB.
Proof. evaluates. Qed.
Example to_bytes_panics_unsorted_ranges : to_bytes 100 (Ack 0 [(5, 6); (0, 1)]) = Panic SITE_ACK_ENCODE_SUB.
Proof. evaluates. Qed.
Example to_bytes_panics_big_seq : to_bytes 100 (Ack (VARINT_MAX + 1) [(0, 1)]) = Panic SITE_VARINT_TOO_LARGE.
Proof. evaluates. Qed.
(* the model's encoder truncates a channel id of 256 or more (channel_id is a u8 in packet.rs, an N
   here); the encoder accepts what the decoder rejects *)
Example roundtrip_fails_big_channel :
  to_bytes 100 (SmallReliable 0 256 []) = Ok [0; 0; 0; 0; 0] /\
  from_bytes [0; 0; 0; 0; 0] = Ok (SmallReliable 0 0 []).
Proof. vm_compute. auto. Qed.
Example roundtrip_fails_zero_slices :
  to_bytes 100 (UnreliableSlice 0 0 {| sl_id := 0; sl_index := 5; sl_num := 0; sl_payload := [] |})
    = Ok [3; 0; 0; 0; 5; 0; 0] /\
  from_bytes [3; 0; 0; 0; 5; 0; 0] = Err InvalidNumSlices.
Proof. vm_compute. auto. Qed.
(* from_bytes_wf needs bytes_ok: the channel byte is returned as is *)
Example from_bytes_wf_needs_bytes_ok :
  from_bytes [2; 0; 300; 0; 0; 1; 1; 7] =
  Ok (ReliableSlice 0 300 {| sl_id := 0; sl_index := 0; sl_num := 1; sl_payload := [7] |}).
Proof. evaluates. Qed.
(* decoding is not injective: non-minimal varints and trailing bytes are accepted *)
Example from_bytes_not_injective :
  from_bytes [4; 0; 0; 0; 0] = Ok (Ack 0 [(0, 1)]) /\
  from_bytes [4; 64; 0; 0; 0; 0; 99] = Ok (Ack 0 [(0, 1)]).
Proof. vm_compute. auto. Qed.
(* the decoder (and packet_wf) accept a slice index beyond the slice count *)
Example from_bytes_accepts_index_beyond_count :
  from_bytes [3; 0; 0; 0; 5; 1; 0] =
  Ok (UnreliableSlice 0 0 {| sl_id := 0; sl_index := 5; sl_num := 1; sl_payload := [] |}).
Proof. evaluates. Qed.

Print Assumptions to_bytes_enc.
Print Assumptions to_bytes_total.
Print Assumptions to_bytes_fits.
Print Assumptions packet_roundtrip.
Print Assumptions packet_roundtrip'.
Print Assumptions from_bytes_no_panic.
Print Assumptions from_bytes_wf.
Print Assumptions from_bytes_enc_len.
Print Assumptions reencode.
Print Assumptions reencode_len.
Print Assumptions enc_len_small_reliable.
Print Assumptions enc_len_small_unreliable.
Print Assumptions enc_len_reliable_slice.
Print Assumptions enc_len_unreliable_slice.
Print Assumptions enc_len_ack.
Print Assumptions to_bytes_len.
Print Assumptions get_rel_msgs_fuel.
Print Assumptions get_unrel_msgs_fuel.
Print Assumptions get_ranges_fuel.

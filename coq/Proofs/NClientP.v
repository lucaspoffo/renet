(* Proofs/NClientP.v - the renetcode client (Netcode/NClient.v): invariant, no panic,
   inauthentic / replayed datagrams change nothing, payloads surface only when connected
   and authentic, sequence discipline, liveness building blocks. *)
From RenetV Require Import Base Consts Aead NPacket Token NClient NetSpec.
From RenetV.Proofs Require Import BaseP AeadP ReplayP NPacketP.
From RenetV.Proofs Require NCodecP TokenP.
Require Import Lia ZifyBool ZifyN ZifyNat.
Open Scope N_scope.

Definition dgram_prefix (buf : list N) : N := match buf with [] => 0 | p :: _ => p end.
Definition dgram_body (buf : list N) : list N :=
  match buf with [] => [] | p :: rest => dropN (p / 16) rest end.

(* every check of decode on a sealed datagram that precedes the replay test and the cipher *)
Definition hdr_ok (buf : list N) : bool :=
  negb (len buf <? 2 + NC_MAC_BYTES) && negb (6 <? dgram_type buf) && negb (dgram_type buf =? 0) &&
  negb (8 <? dgram_prefix buf / 16) && negb (len (tl buf) <? dgram_prefix buf / 16) &&
  negb (len (dgram_body buf) <? NC_MAC_BYTES).

Definition dgram_open (key : list N) (protocol : N) (buf : list N) : option (list N) :=
  if hdr_ok buf
  then aead_open key (nonce_of (dgram_seq buf)) (packet_aad (dgram_prefix buf) protocol) (dgram_body buf)
  else None.

Definition aead_authentic (key : list N) (protocol : N) (buf : list N) : Prop :=
  exists plain, dgram_open key protocol buf = Some plain.

(* dgram_open is the opens_to of NPacketP, as a function *)
Lemma dgram_open_iff key protocol buf plain :
  dgram_open key protocol buf = Some plain <-> opens_to key protocol buf plain.
Proof.
  unfold dgram_open. destruct buf as [|p rest]; [split; [discriminate | intros []]|].
  cbn [opens_to dgram_prefix dgram_body].
  assert (Hh : hdr_ok (p :: rest) = true <-> header_ok p rest).
  { unfold hdr_ok, header_ok. cbn [dgram_type dgram_prefix dgram_body tl]. lia. }
  destruct (hdr_ok (p :: rest)); [tauto | intuition discriminate].
Qed.

Lemma read_packet_payload : forall src, read_packet 5 src = Ok (PPayload src).
Proof. reflexivity. Qed.

Lemma read_packet_disconnect : forall src, read_packet 6 src = Ok PDisconnect.
Proof. reflexivity. Qed.

Lemma read_packet_denied : forall src, read_packet 1 src = Ok PDenied.
Proof. reflexivity. Qed.

Lemma opens_sealed_iff key protocol buf :
  opens_sealed key protocol buf <->
  exists plain p, dgram_open key protocol buf = Some plain /\ read_packet (dgram_type buf) plain = Ok p.
Proof.
  rewrite opens_sealed_opens.
  split; intros (plain & p & E & R); exists plain, p; (split; [apply dgram_open_iff, E | exact R]).
Qed.

Lemma opens_sealed_authentic : forall key protocol buf,
  opens_sealed key protocol buf -> aead_authentic key protocol buf.
Proof.
  intros key protocol buf H. apply opens_sealed_iff in H. destruct H as (plain & p & E & _).
  exists plain. exact E.
Qed.

(* the EMPTY marker of the window is a legal sequence number: once accepted it is not remembered *)
Example replay_u64max_forgotten :
  already_received replay_new U64MAX = false /\
  already_received (advance_sequence replay_new U64MAX) U64MAX = false.
Proof. split; vm_compute; reflexivity. Qed.

Lemma is_connected_iff c : is_connected c = true <-> cl_state c = CConnected.
Proof. unfold is_connected. destruct (cl_state c); split; intros H; (reflexivity || discriminate H). Qed.

Lemma is_connecting_iff c :
  is_connecting c = true <-> cl_state c = CSendingRequest \/ cl_state c = CSendingResponse.
Proof.
  unfold is_connecting. destruct (cl_state c); split; intros H; auto; try discriminate H;
    destruct H as [H|H]; discriminate H.
Qed.

Lemma is_disconnected_iff c : is_disconnected c = true <-> exists r, cl_state c = CDisconnected r.
Proof.
  unfold is_disconnected. destruct (cl_state c) as [r| | |]; split; intros H; eauto; try discriminate H;
    destruct H as [r' H]; discriminate H.
Qed.

(* The index bound is stated for live clients only: the failover of update_internal_state stores
   index + 1 = 32 in the (dead) client it leaves behind when the 32 slots are exhausted.  The
   challenge data always has NC_CHALLENGE_BYTES bytes (needed for "the response always encodes"). *)
Definition client_inv (c : nclient) : Prop :=
  cl_connect_start c <= cl_now c /\
  cl_last_recv c <= cl_now c /\
  (match cl_last_send c with Some t => t <= cl_now c | None => True end) /\
  rp_wf (cl_replay c) /\
  (is_disconnected c = true \/ cl_addr_index c < 32) /\
  length (ct_addrs (cl_token c)) = 32%nat /\
  len (cl_chal_data c) = NC_CHALLENGE_BYTES.

Lemma client_inv_intro c :
  cl_connect_start c <= cl_now c -> cl_last_recv c <= cl_now c ->
  (match cl_last_send c with Some t => t <= cl_now c | None => True end) -> rp_wf (cl_replay c) ->
  (is_disconnected c = true \/ cl_addr_index c < 32) -> length (ct_addrs (cl_token c)) = 32%nat ->
  len (cl_chal_data c) = NC_CHALLENGE_BYTES -> client_inv c.
Proof. unfold client_inv. auto 8. Qed.

Lemma inv_start_le c : client_inv c -> cl_connect_start c <= cl_now c.
Proof. intros H. apply H. Qed.

Lemma inv_recv_le c : client_inv c -> cl_last_recv c <= cl_now c.
Proof. intros H. apply H. Qed.

Definition last_send_ok (c : nclient) : Prop :=
  match cl_last_send c with Some t => t <= cl_now c | None => True end.

Lemma client_inv_last_send_ok : forall c, client_inv c -> last_send_ok c.
Proof. intros c H. apply H. Qed.

Lemma inv_replay_wf c : client_inv c -> rp_wf (cl_replay c).
Proof. intros H. apply H. Qed.

Lemma inv_chal_len c : client_inv c -> len (cl_chal_data c) = NC_CHALLENGE_BYTES.
Proof. intros H. apply H. Qed.

Lemma inv_slots c : client_inv c -> length (ct_addrs (cl_token c)) = 32%nat.
Proof. intros H. apply H. Qed.

Lemma client_inv_live : forall c, client_inv c -> is_disconnected c = false ->
  cl_connect_start c <= cl_now c /\ cl_last_recv c <= cl_now c /\
  (match cl_last_send c with Some t => t <= cl_now c | None => True end) /\
  rp_wf (cl_replay c) /\ cl_addr_index c < 32 /\ length (ct_addrs (cl_token c)) = 32%nat.
Proof.
  intros c (H1 & H2 & H3 & H4 & H5 & H6 & _) Hd. repeat split; try assumption.
  destruct H5 as [H5|H5]; [congruence | exact H5].
Qed.

Theorem client_inv_init : forall now t c,
  length (ct_addrs t) = 32%nat -> nclient_new now t = Ok c -> client_inv c.
Proof.
  intros now t c Hlen H. unfold nclient_new in H.
  destruct (ct_addrs t) as [|[a|] l] eqn:E; try discriminate.
  injection H as <-. apply client_inv_intro;
    cbn [cl_connect_start cl_now cl_last_recv cl_last_send cl_replay cl_addr_index cl_token cl_chal_data].
  - lia.
  - lia.
  - exact I.
  - apply replay_new_wf.
  - right. lia.
  - rewrite E. exact Hlen.
  - apply len_zeros.
Qed.

Lemma nclient_new_cases now t :
  match nth_opt (ct_addrs t) 0 with
  | Some (Some _) => exists c, nclient_new now t = Ok c
  | _ => nclient_new now t = Panic SITE_N_NO_SERVER_ADDR
  end.
Proof. unfold nclient_new. destruct (ct_addrs t) as [|[a|] l]; [reflexivity | eexists; reflexivity | reflexivity]. Qed.

Theorem nclient_new_panics_iff : forall now t,
  (exists s, nclient_new now t = Panic s) <-> ~ exists a, nth_opt (ct_addrs t) 0 = Some (Some a).
Proof.
  intros now t. pose proof (nclient_new_cases now t) as P. split.
  - intros [s Hs] [a Ha]. rewrite Ha in P. destruct P as [c Hc]. congruence.
  - intros Hn. destruct (nth_opt (ct_addrs t) 0) as [[a|]|]; [|eexists; exact P ..].
    exfalso. apply Hn. exists a. reflexivity.
Qed.

Corollary nclient_new_panics_iff_32 : forall now t,
  length (ct_addrs t) = 32%nat ->
  (nclient_new now t = Panic SITE_N_NO_SERVER_ADDR <-> nth_opt (ct_addrs t) 0 = Some None).
Proof.
  intros now t Hlen. pose proof (nclient_new_cases now t) as P.
  destruct (nth_opt_lt (ct_addrs t) 0) as [x Hx]; [lia|]. rewrite Hx in *.
  destruct x as [a|].
  - destruct P as [c ->]. split; discriminate.
  - rewrite P. split; reflexivity.
Qed.

Lemma nclient_new_ok now t a :
  length (ct_addrs t) = 32%nat -> nth_opt (ct_addrs t) 0 = Some (Some a) ->
  exists c, nclient_new now t = Ok c /\ client_inv c.
Proof.
  intros Hlen Ha. pose proof (nclient_new_cases now t) as P. rewrite Ha in P.
  destruct P as [c Hc]. exists c. split; [exact Hc | exact (client_inv_init now t c Hlen Hc)].
Qed.

(* the state machine applied to a decoded packet *)
Definition client_handle (c1 : nclient) (pkt : npacket) : nclient * option (list N) :=
  match pkt, cl_state c1 with
  | PDenied, (CSendingRequest | CSendingResponse) =>
      (cl_set c1 (CDisconnected CRDenied) (cl_last_send c1) (cl_now c1) (cl_seq c1), None)
  | PChallenge tseq tdata, CSendingRequest =>
      ({| cl_state := CSendingResponse; cl_id := cl_id c1; cl_connect_start := cl_connect_start c1; cl_last_send := None;
          cl_last_recv := cl_now c1; cl_now := cl_now c1; cl_seq := cl_seq c1; cl_server_addr := cl_server_addr c1;
          cl_addr_index := cl_addr_index c1; cl_token := cl_token c1; cl_chal_seq := tseq; cl_chal_data := tdata;
          cl_max_clients := cl_max_clients c1; cl_client_index := cl_client_index c1; cl_replay := cl_replay c1 |}, None)
  | PKeepAlive _ _, CConnected =>
      (cl_set c1 CConnected (cl_last_send c1) (cl_now c1) (cl_seq c1), None)
  | PKeepAlive ci mc, CSendingResponse =>
      ({| cl_state := CConnected; cl_id := cl_id c1; cl_connect_start := cl_connect_start c1; cl_last_send := cl_last_send c1;
          cl_last_recv := cl_now c1; cl_now := cl_now c1; cl_seq := cl_seq c1; cl_server_addr := cl_server_addr c1;
          cl_addr_index := cl_addr_index c1; cl_token := cl_token c1; cl_chal_seq := cl_chal_seq c1; cl_chal_data := cl_chal_data c1;
          cl_max_clients := mc; cl_client_index := ci; cl_replay := cl_replay c1 |}, None)
  | PPayload p, CConnected =>
      (cl_set c1 CConnected (cl_last_send c1) (cl_now c1) (cl_seq c1), Some p)
  | PDisconnect, CConnected =>
      (cl_set c1 (CDisconnected CRByServer) (cl_last_send c1) (cl_now c1) (cl_seq c1), None)
  | _, _ => (c1, None)
  end.

Lemma process_packet_unfold : forall c buf,
  nclient_process_packet c buf =
  let d := decode buf (protocol_of c) (Some (s2c_key c)) (Some (cl_replay c)) in
  let c1 := cl_with_replay c (match fst d with Some x => x | None => cl_replay c end) in
  match snd d with
  | Ok (_, pkt) => client_handle c1 pkt
  | _ => (c1, None)
  end.
Proof.
  intros c buf. unfold nclient_process_packet.
  destruct (decode buf (protocol_of c) (Some (s2c_key c)) (Some (cl_replay c))) as [rp r].
  cbn [fst snd]. cbv zeta. destruct r as [[s pkt]|e|s]; reflexivity.
Qed.

Lemma cl_with_replay_same : forall c, cl_with_replay c (cl_replay c) = c.
Proof. intros []. reflexivity. Qed.

Lemma process_type0 : forall c buf, dgram_type buf = 0 -> nclient_process_packet c buf = (c, None).
Proof.
  intros c buf H. rewrite process_packet_unfold, (decode_request _ _ _ _ H). cbn [fst snd]. cbv zeta.
  rewrite cl_with_replay_same.
  destruct (request_result_cases buf) as [[e ->]|(v & pr & ex & xn & data & ->)]; reflexivity.
Qed.

Lemma process_closed : forall c buf,
  dgram_type buf <> 0 -> dgram_open (s2c_key c) (protocol_of c) buf = None ->
  nclient_process_packet c buf = (c, None).
Proof.
  intros c buf Hty H. rewrite process_packet_unfold.
  destruct (decode_spec buf (protocol_of c) (Some (s2c_key c)) (Some (cl_replay c))) as [E|e _ _|k plain K Ho _].
  - contradiction.
  - cbn [fst snd]. cbv zeta. rewrite cl_with_replay_same. reflexivity.
  - injection K as <-. apply dgram_open_iff in Ho. congruence.
Qed.

Lemma process_open : forall c buf plain,
  dgram_open (s2c_key c) (protocol_of c) buf = Some plain ->
  nclient_process_packet c buf =
  if applies_replay (dgram_type buf) && already_received (cl_replay c) (dgram_seq buf) then (c, None)
  else
    let c1 := cl_with_replay c (if applies_replay (dgram_type buf)
                                then advance_sequence (cl_replay c) (dgram_seq buf) else cl_replay c) in
    match read_packet (dgram_type buf) plain with
    | Ok pkt => client_handle c1 pkt
    | _ => (c1, None)
    end.
Proof.
  intros c buf plain H. apply dgram_open_iff in H. rewrite process_packet_unfold.
  rewrite (decode_opens _ _ _ (Some (cl_replay c)) _ H). cbn [rp_dup rp_after].
  destruct (applies_replay (dgram_type buf) && already_received (cl_replay c) (dgram_seq buf)).
  - cbn [fst snd]. cbv zeta. rewrite cl_with_replay_same. reflexivity.
  - cbn [fst snd]. cbv zeta.
    destruct (applies_replay (dgram_type buf)), (read_packet (dgram_type buf) plain) as [pkt|e|s]; reflexivity.
Qed.

Lemma client_handle_frame : forall c1 pkt,
  let c' := fst (client_handle c1 pkt) in
  cl_seq c' = cl_seq c1 /\ cl_token c' = cl_token c1 /\ cl_now c' = cl_now c1 /\
  cl_connect_start c' = cl_connect_start c1 /\ cl_addr_index c' = cl_addr_index c1 /\
  cl_replay c' = cl_replay c1 /\ cl_server_addr c' = cl_server_addr c1 /\ cl_id c' = cl_id c1 /\
  (cl_last_recv c' = cl_last_recv c1 \/ cl_last_recv c' = cl_now c1) /\
  (cl_last_send c' = cl_last_send c1 \/ cl_last_send c' = None) /\
  (cl_chal_data c' = cl_chal_data c1 \/ exists ts, pkt = PChallenge ts (cl_chal_data c')) /\
  (is_disconnected c1 = true -> c' = c1).
Proof.
  intros c1 pkt. unfold client_handle, is_disconnected.
  destruct pkt; destruct (cl_state c1) eqn:S; cbn [fst cl_set cl_seq cl_token cl_now cl_connect_start cl_addr_index
    cl_replay cl_server_addr cl_id cl_last_recv cl_last_send cl_chal_data cl_state];
    (do 8 (split; [reflexivity|])). (* the eight fields no packet changes *)
  all: split; [first [left; reflexivity | right; reflexivity]|]. (* cl_last_recv: kept, or now *)
  all: split; [first [left; reflexivity | right; reflexivity]|]. (* cl_last_send: kept, or cleared *)
  all: split; [first [left; reflexivity | right; eexists; reflexivity]|]. (* cl_chal_data: kept, or the challenge's *)
  all: first [discriminate | reflexivity]. (* a disconnected client ignores the packet *)
Qed.

Lemma client_handle_output : forall c1 pkt c' p,
  client_handle c1 pkt = (c', Some p) ->
  pkt = PPayload p /\ cl_state c1 = CConnected /\
  c' = cl_set c1 CConnected (cl_last_send c1) (cl_now c1) (cl_seq c1).
Proof.
  intros c1 pkt c' p H. unfold client_handle in H.
  destruct pkt; destruct (cl_state c1) eqn:S; try discriminate.
  injection H as <- <-. repeat split.
Qed.

Lemma client_handle_inv : forall c1 pkt,
  client_inv c1 -> (forall ts td, pkt = PChallenge ts td -> len td = NC_CHALLENGE_BYTES) ->
  client_inv (fst (client_handle c1 pkt)).
Proof.
  intros c1 pkt (H1 & H2 & H3 & H4 & H5 & H6 & H7) Hch.
  destruct (client_handle_frame c1 pkt) as (_ & Ft & Fn & Fs & Fi & Fr & _ & _ & Flr & Fls & Fch & Fd).
  apply client_inv_intro; rewrite ?Ft, ?Fn, ?Fs, ?Fi, ?Fr; try assumption.
  - destruct Flr as [-> | ->]; lia.
  - destruct Fls as [-> | ->]; [exact H3 | exact I].
  - destruct H5 as [H5|H5]; [left; rewrite (Fd H5); exact H5 | right; exact H5].
  - destruct Fch as [-> | [ts E]]; [exact H7 | exact (Hch _ _ E)].
Qed.

Lemma applies_replay_cases : forall ty, applies_replay ty = true <-> ty = 4 \/ ty = 5 \/ ty = 6.
Proof. intro ty. unfold applies_replay. lia. Qed.

Lemma process_cases : forall c buf,
  nclient_process_packet c buf = (c, None) \/
  exists plain,
    dgram_open (s2c_key c) (protocol_of c) buf = Some plain /\
    applies_replay (dgram_type buf) && already_received (cl_replay c) (dgram_seq buf) = false /\
    nclient_process_packet c buf =
    let c1 := cl_with_replay c (if applies_replay (dgram_type buf)
                                then advance_sequence (cl_replay c) (dgram_seq buf) else cl_replay c) in
    match read_packet (dgram_type buf) plain with
    | Ok pkt => client_handle c1 pkt
    | _ => (c1, None)
    end.
Proof.
  intros c buf.
  destruct (N.eq_dec (dgram_type buf) 0) as [H0|H0]; [left; apply process_type0; exact H0|].
  destruct (dgram_open (s2c_key c) (protocol_of c) buf) as [plain|] eqn:E;
    [|left; apply process_closed; assumption].
  rewrite (process_open _ _ _ E).
  destruct (applies_replay (dgram_type buf) && already_received (cl_replay c) (dgram_seq buf)) eqn:D;
    [left; reflexivity|].
  right. exists plain. repeat split.
Qed.

Lemma client_inv_with_replay : forall c rp, client_inv c -> rp_wf rp -> client_inv (cl_with_replay c rp).
Proof.
  intros c rp (H1 & H2 & H3 & H4 & H5 & H6 & H7) Hrp. apply client_inv_intro; assumption.
Qed.

Theorem client_inv_step_process : forall c buf,
  client_inv c -> client_inv (fst (nclient_process_packet c buf)).
Proof.
  intros c buf Hinv.
  destruct (process_cases c buf) as [H|(plain & E & D & H)]; rewrite H; [exact Hinv|].
  cbv zeta.
  assert (Hc1 : client_inv (cl_with_replay c (if applies_replay (dgram_type buf)
                  then advance_sequence (cl_replay c) (dgram_seq buf) else cl_replay c))).
  { apply client_inv_with_replay; [exact Hinv|].
    destruct (applies_replay (dgram_type buf)); [apply advance_wf|]; apply inv_replay_wf, Hinv. }
  destruct (read_packet (dgram_type buf) plain) as [pkt|e|s] eqn:R; try exact Hc1.
  apply client_handle_inv; [exact Hc1|].
  intros ts td ->. eapply read_packet_challenge_len. exact R.
Qed.

Theorem client_inauthentic_is_noop : forall c buf,
  ~ aead_authentic (s2c_key c) (protocol_of c) buf -> dgram_type buf <> 0 ->
  nclient_process_packet c buf = (c, None).
Proof.
  intros c buf Hn Hty. apply process_closed; [exact Hty|].
  destruct (dgram_open (s2c_key c) (protocol_of c) buf) as [plain|] eqn:E; [|reflexivity].
  exfalso. apply Hn. exists plain. exact E.
Qed.

(* With the weaker hypothesis ~ opens_sealed (decode does not return Ok) the
   statement "process_packet c buf = (c, None)" is FALSE (see client_unsealed_counterexample): decode
   advances the replay window as soon as the tag verifies, BEFORE Packet::read looks at the plaintext.
   The strongest true variant: nothing changes, except that a keep-alive typed datagram sealed under
   the right key with a plaintext shorter than 8 bytes still consumes its sequence number. *)
Theorem client_unsealed_is_noop_or_window : forall c buf,
  ~ opens_sealed (s2c_key c) (protocol_of c) buf -> dgram_type buf <> 0 ->
  nclient_process_packet c buf = (c, None) \/
  (dgram_type buf = 4 /\
   (exists plain, dgram_open (s2c_key c) (protocol_of c) buf = Some plain /\ len plain < 8) /\
   already_received (cl_replay c) (dgram_seq buf) = false /\
   nclient_process_packet c buf =
     (cl_with_replay c (advance_sequence (cl_replay c) (dgram_seq buf)), None)).
Proof.
  intros c buf Hn Hty.
  destruct (process_cases c buf) as [H|(plain & E & D & H)]; [left; exact H|].
  (* authentic but not opens_sealed: Packet::read rejects the plaintext *)
  destruct (read_packet (dgram_type buf) plain) as [p|e|s] eqn:R.
  { exfalso. apply Hn, opens_sealed_iff. exists plain, p. split; assumption. }
  2:{ exfalso. exact (NCodecP.read_packet_no_panic _ _ _ R). }
  cbv zeta in H.
  destruct (applies_replay (dgram_type buf)) eqn:A.
  - right. cbn [andb] in D.
    apply applies_replay_cases in A. destruct A as [A|[A|A]]; rewrite A in R.
    + unfold read_packet in R. destruct (len plain <? 8) eqn:L; [|discriminate].
      repeat split; try assumption. exists plain. split; [exact E | lia].
    + discriminate R.
    + discriminate R.
  - left. rewrite cl_with_replay_same in H. exact H.
Qed.

(* the concrete datagram: type 4, one sequence byte (1), an empty plaintext sealed under the
   server-to-client key *)
Theorem client_unsealed_counterexample : forall c,
  rp_wf (cl_replay c) -> already_received (cl_replay c) 1 = false ->
  let buf := 20 :: 1 :: aead_seal (s2c_key c) (nonce_of 1) (packet_aad 20 (protocol_of c)) [] in
  ~ opens_sealed (s2c_key c) (protocol_of c) buf /\ dgram_type buf <> 0 /\
  nclient_process_packet c buf = (cl_with_replay c (advance_sequence (cl_replay c) 1), None) /\
  already_received (cl_replay (fst (nclient_process_packet c buf))) 1 = true /\
  nclient_process_packet c buf <> (c, None).
Proof.
  intros c Hwf Hfresh buf.
  assert (Hty : dgram_type buf = 4) by reflexivity.
  assert (Hseq : dgram_seq buf = 1) by reflexivity.
  assert (E : dgram_open (s2c_key c) (protocol_of c) buf = Some []).
  { unfold dgram_open. rewrite Hseq. unfold hdr_ok, buf. cbn [dgram_type dgram_prefix dgram_body tl].
    change (20 / 16) with 1. change (dropN 1 (1 :: ?l)) with l. rewrite !len_cons, aead_seal_len, len_nil.
    (* the tests of hdr_ok are closed arithmetic now and evaluate to true *)
    apply aead_open_seal. }
  assert (Hns : ~ opens_sealed (s2c_key c) (protocol_of c) buf).
  { intro Ho. apply opens_sealed_iff in Ho. destruct Ho as (plain & p & E' & R).
    rewrite E in E'. injection E' as <-. rewrite Hty in R. discriminate R. }
  assert (Hp : nclient_process_packet c buf = (cl_with_replay c (advance_sequence (cl_replay c) 1), None)).
  { rewrite (process_open _ _ _ E), Hty, Hseq, Hfresh. reflexivity. }
  split; [exact Hns|]. split; [rewrite Hty; discriminate|]. split; [exact Hp|].
  assert (Hr : already_received (cl_replay (fst (nclient_process_packet c buf))) 1 = true).
  { rewrite Hp. cbn [fst cl_with_replay cl_replay]. apply advance_then_received; [exact Hwf | discriminate]. }
  split; [exact Hr|].
  intro Heq. rewrite Heq in Hr. cbn [fst] in Hr. congruence.
Qed.

(* request-typed bytes are returned by decode without any authentication, and match no arm *)
Theorem client_ignores_requests : forall c buf c' o,
  dgram_type buf = 0 -> nclient_process_packet c buf = (c', o) -> c' = c /\ o = None.
Proof.
  intros c buf c' o H0 H. rewrite (process_type0 _ _ H0) in H. injection H as <- <-. split; reflexivity.
Qed.

Theorem client_replay_is_noop : forall c buf,
  applies_replay (dgram_type buf) = true ->
  already_received (cl_replay c) (dgram_seq buf) = true ->
  nclient_process_packet c buf = (c, None).
Proof.
  intros c buf A R.
  destruct (process_cases c buf) as [H|(plain & E & D & H)]; [exact H|].
  rewrite A, R in D. discriminate D.
Qed.

Lemma process_authentic c buf s p :
  snd (decode buf (protocol_of c) (Some (s2c_key c)) None) = Ok (s, p) -> packet_id p <> 0 ->
  nclient_process_packet c buf =
  if applies_replay (packet_id p)
  then if already_received (cl_replay c) s then (c, None)
       else client_handle (cl_with_replay c (advance_sequence (cl_replay c) s)) p
  else client_handle c p.
Proof.
  intros H Hid. pose proof (decode_ok_type _ _ _ _ _ _ H) as Hty.
  destruct (decode_ok_sealed _ _ _ _ _ _ H) as (k & plain & K & Ho & -> & R & _); [congruence|].
  injection K as <-. apply dgram_open_iff in Ho.
  rewrite (process_open _ _ _ Ho), R, Hty.
  destruct (applies_replay (packet_id p)); cbn [andb].
  - destruct (already_received (cl_replay c) (dgram_seq buf)); reflexivity.
  - cbv zeta. rewrite cl_with_replay_same. reflexivity.
Qed.

Corollary client_replay_is_noop_sealed : forall c buf s p,
  snd (decode buf (protocol_of c) (Some (s2c_key c)) None) = Ok (s, p) ->
  applies_replay (packet_id p) = true -> already_received (cl_replay c) s = true ->
  nclient_process_packet c buf = (c, None).
Proof.
  intros c buf s p H A R. rewrite (process_authentic c buf s p H), A, R; [reflexivity|].
  intros Hz. rewrite Hz in A. discriminate A.
Qed.

Theorem client_payload_only_connected : forall c buf c' p,
  nclient_process_packet c buf = (c', Some p) ->
  cl_state c = CConnected /\
  opens_sealed (s2c_key c) (protocol_of c) buf /\
  dgram_type buf = 5 /\
  snd (decode buf (protocol_of c) (Some (s2c_key c)) None) = Ok (dgram_seq buf, PPayload p) /\
  already_received (cl_replay c) (dgram_seq buf) = false /\
  cl_replay c' = advance_sequence (cl_replay c) (dgram_seq buf) /\
  cl_state c' = CConnected /\
  (rp_wf (cl_replay c) -> dgram_seq buf <> U64MAX ->
   already_received (cl_replay c') (dgram_seq buf) = true).
Proof.
  intros c buf c' p H.
  destruct (process_cases c buf) as [H'|(plain & E & D & H')]; rewrite H' in H; [discriminate|].
  cbv zeta in H.
  destruct (read_packet (dgram_type buf) plain) as [pkt|e|s] eqn:R; try discriminate.
  apply client_handle_output in H. destruct H as (-> & Hst & ->).
  cbn [cl_with_replay cl_state] in Hst.
  assert (Hty : dgram_type buf = 5) by (symmetry; apply (read_packet_id _ _ _ R)).
  assert (Hos : opens_sealed (s2c_key c) (protocol_of c) buf).
  { apply opens_sealed_iff. exists plain, (PPayload p). split; assumption. }
  rewrite Hty in D. change (applies_replay 5) with true in D. cbn [andb] in D.
  rewrite Hty. change (applies_replay 5) with true. cbv iota.
  cbn [cl_set cl_with_replay cl_replay cl_state].
  refine (conj Hst (conj Hos (conj eq_refl (conj _ (conj D (conj eq_refl (conj eq_refl _))))))).
  - apply dgram_open_iff in E. rewrite (decode_opens _ _ _ None _ E). cbn [rp_dup snd]. rewrite R. reflexivity.
  - intros Hwf Hs. apply advance_then_received; assumption.
Qed.

Theorem client_process_frame : forall c buf,
  let c' := fst (nclient_process_packet c buf) in
  cl_seq c' = cl_seq c /\ cl_token c' = cl_token c /\ cl_now c' = cl_now c /\
  cl_connect_start c' = cl_connect_start c /\ cl_addr_index c' = cl_addr_index c /\
  cl_server_addr c' = cl_server_addr c /\ cl_id c' = cl_id c /\
  (cl_last_recv c' = cl_last_recv c \/ cl_last_recv c' = cl_now c) /\
  (is_disconnected c = true -> cl_state c' = cl_state c).
Proof.
  intros c buf c'. unfold c'.
  destruct (process_cases c buf) as [H|(plain & E & D & H)]; rewrite H; [repeat split; left; reflexivity|].
  cbv zeta. destruct (read_packet (dgram_type buf) plain) as [pkt|e|s]; [|repeat split; left; reflexivity..].
  (* the fields of cl_with_replay c _ named here are those of c *)
  destruct (client_handle_frame (cl_with_replay c (if applies_replay (dgram_type buf)
              then advance_sequence (cl_replay c) (dgram_seq buf) else cl_replay c)) pkt)
    as (G1 & G2 & G3 & G4 & G5 & _ & G7 & G8 & G9 & _ & _ & G12).
  repeat split; try assumption. intro Hd. rewrite (G12 Hd). reflexivity.
Qed.

Theorem client_accepts_challenge : forall c buf s ts td,
  cl_state c = CSendingRequest ->
  snd (decode buf (protocol_of c) (Some (s2c_key c)) None) = Ok (s, PChallenge ts td) ->
  exists c', nclient_process_packet c buf = (c', None) /\
    cl_state c' = CSendingResponse /\ cl_chal_seq c' = ts /\ cl_chal_data c' = td /\
    cl_last_send c' = None /\ cl_last_recv c' = cl_now c /\
    cl_now c' = cl_now c /\ cl_seq c' = cl_seq c /\ cl_token c' = cl_token c /\
    cl_server_addr c' = cl_server_addr c /\ cl_addr_index c' = cl_addr_index c /\
    cl_connect_start c' = cl_connect_start c /\ cl_replay c' = cl_replay c.
Proof.
  intros c buf s ts td Hst H.
  rewrite (process_authentic _ _ _ _ H) by discriminate.
  unfold client_handle. rewrite Hst. eexists. split; [reflexivity|].
  repeat split.
Qed.

Lemma client_ignores_challenge c buf s ts td :
  cl_state c = CSendingResponse ->
  snd (decode buf (protocol_of c) (Some (s2c_key c)) None) = Ok (s, PChallenge ts td) ->
  nclient_process_packet c buf = (c, None).
Proof.
  intros Hst H. rewrite (process_authentic _ _ _ _ H) by discriminate.
  unfold client_handle. rewrite Hst. reflexivity.
Qed.

Theorem client_accepts_keepalive : forall c buf s ci mc,
  cl_state c = CSendingResponse ->
  snd (decode buf (protocol_of c) (Some (s2c_key c)) None) = Ok (s, PKeepAlive ci mc) ->
  already_received (cl_replay c) s = false ->
  exists c', nclient_process_packet c buf = (c', None) /\
    cl_state c' = CConnected /\ cl_client_index c' = ci /\ cl_max_clients c' = mc /\
    cl_last_recv c' = cl_now c /\ cl_last_send c' = cl_last_send c /\
    cl_now c' = cl_now c /\ cl_seq c' = cl_seq c /\ cl_token c' = cl_token c /\
    cl_server_addr c' = cl_server_addr c /\ cl_replay c' = advance_sequence (cl_replay c) s.
Proof.
  intros c buf s ci mc Hst H Fr.
  rewrite (process_authentic _ _ _ _ H), Fr by discriminate.
  unfold client_handle. cbn [cl_with_replay cl_state]. rewrite Hst. eexists. split; [reflexivity|].
  repeat split.
Qed.

Theorem client_denied : forall c buf s,
  is_connecting c = true ->
  snd (decode buf (protocol_of c) (Some (s2c_key c)) None) = Ok (s, PDenied) ->
  exists c', nclient_process_packet c buf = (c', None) /\
    cl_state c' = CDisconnected CRDenied /\ cl_last_recv c' = cl_now c /\
    cl_seq c' = cl_seq c /\ cl_token c' = cl_token c /\ cl_replay c' = cl_replay c.
Proof.
  intros c buf s Hst H.
  rewrite (process_authentic _ _ _ _ H) by discriminate.
  apply is_connecting_iff in Hst. unfold client_handle.
  destruct Hst as [-> | ->]; (eexists; split; [reflexivity|]); repeat split.
Qed.

Theorem client_server_disconnect : forall c buf s,
  cl_state c = CConnected ->
  snd (decode buf (protocol_of c) (Some (s2c_key c)) None) = Ok (s, PDisconnect) ->
  already_received (cl_replay c) s = false ->
  exists c', nclient_process_packet c buf = (c', None) /\
    cl_state c' = CDisconnected CRByServer /\ cl_last_recv c' = cl_now c /\
    cl_seq c' = cl_seq c /\ cl_token c' = cl_token c /\
    cl_replay c' = advance_sequence (cl_replay c) s.
Proof.
  intros c buf s Hst H Fr.
  rewrite (process_authentic _ _ _ _ H), Fr by discriminate.
  unfold client_handle. cbn [cl_with_replay cl_state]. rewrite Hst. eexists. split; [reflexivity|].
  repeat split.
Qed.

Theorem client_payload_surfaces : forall c buf s p,
  cl_state c = CConnected ->
  snd (decode buf (protocol_of c) (Some (s2c_key c)) None) = Ok (s, PPayload p) ->
  already_received (cl_replay c) s = false ->
  exists c', nclient_process_packet c buf = (c', Some p) /\
    cl_state c' = CConnected /\ cl_last_recv c' = cl_now c /\
    cl_replay c' = advance_sequence (cl_replay c) s.
Proof.
  intros c buf s p Hst H Fr.
  rewrite (process_authentic _ _ _ _ H), Fr by discriminate.
  unfold client_handle. cbn [cl_with_replay cl_state]. rewrite Hst. eexists. split; [reflexivity|].
  repeat split.
Qed.

Lemma connected_hears_keepalive c buf s ci mc :
  cl_state c = CConnected ->
  snd (decode buf (protocol_of c) (Some (s2c_key c)) None) = Ok (s, PKeepAlive ci mc) ->
  exists c', nclient_process_packet c buf = (c', None) /\
    cl_state c' = CConnected /\ cl_client_index c' = cl_client_index c /\ cl_max_clients c' = cl_max_clients c /\
    (already_received (cl_replay c) s = false -> cl_last_recv c' = cl_now c).
Proof.
  intros Hst H. rewrite (process_authentic _ _ _ _ H) by discriminate.
  destruct (already_received (cl_replay c) s).
  - exists c. split; [reflexivity|]. repeat split; [exact Hst | discriminate].
  - unfold client_handle. cbn [cl_with_replay cl_state]. rewrite Hst. eexists. split; [reflexivity|].
    repeat split.
Qed.

Theorem client_connected_keepalive : forall c buf s ci mc,
  cl_state c = CConnected ->
  snd (decode buf (protocol_of c) (Some (s2c_key c)) None) = Ok (s, PKeepAlive ci mc) ->
  already_received (cl_replay c) s = false ->
  exists c', nclient_process_packet c buf = (c', None) /\
    cl_state c' = CConnected /\ cl_last_recv c' = cl_now c /\
    cl_client_index c' = cl_client_index c /\ cl_max_clients c' = cl_max_clients c.
Proof.
  intros c buf s ci mc Hst H Fr.
  destruct (connected_hears_keepalive c buf s ci mc Hst H) as (c' & Hpp & S' & Hci & Hmc & Hlr).
  exists c'. exact (conj Hpp (conj S' (conj (Hlr Fr) (conj Hci Hmc)))).
Qed.

Definition sealed_dgram (p : npacket) (protocol s : N) (key : list N) : list N :=
  ([encode_prefix (packet_id p) s] ++ le_bytes (N.to_nat (sequence_bytes_required s)) s) ++
  aead_seal key (nonce_of s) (packet_aad (encode_prefix (packet_id p) s) protocol) (packet_body p).

Lemma encode_sealed_ok : forall p protocol s key,
  packet_id p <> 0 -> len (packet_body p) <= 1375 ->
  encode CL_CAP p protocol (Some (s, key)) = Ok (sealed_dgram p protocol s key).
Proof.
  intros p protocol s key Hid Hb. pose proof (sequence_bytes_required_le s) as Hs.
  rewrite encode_sealed_eq by exact Hid. cbv zeta.
  destruct (CL_CAP <? _) eqn:E; [|reflexivity].
  exfalso. rewrite len_cons, len_le_bytes, N2Nat.id in E. unfold CL_CAP, NC_MAX_PACKET_BYTES, NC_MAC_BYTES in E. lia.
Qed.

Definition is_request (p : npacket) : bool := match p with PRequest _ _ _ _ _ => true | _ => false end.

Lemma is_request_id p : is_request p = false <-> packet_id p <> 0.
Proof.
  destruct p; cbn [is_request packet_id]; split; intros H;
    (discriminate || reflexivity || (exfalso; apply H; reflexivity)).
Qed.

Lemma encode_sealed_inv : forall cap p protocol s key d,
  is_request p = false -> encode cap p protocol (Some (s, key)) = Ok d ->
  d = sealed_dgram p protocol s key.
Proof.
  intros cap p protocol s key d Hr H. exact (encode_sealed_form cap _ _ _ _ _ (proj1 (is_request_id p) Hr) H).
Qed.

(* what encode needs of a packet and a sequence number to seal it into the client's buffer, and decode
   to open it again *)
Definition sealable (p : npacket) (s : N) : Prop :=
  packet_id p <> 0 /\ npacket_wf p /\ len (packet_body p) <= 1375 /\ s < U64 /\
  1 <= sequence_bytes_required s + len (packet_body p).

Lemma sealed_encode protocol key p s :
  sealable p s -> encode CL_CAP p protocol (Some (s, key)) = Ok (sealed_dgram p protocol s key).
Proof. intros (Hid & _ & Hb & _). apply encode_sealed_ok; [exact Hid | exact Hb]. Qed.

Lemma sealed_decode protocol key p s :
  sealable p s -> snd (decode (sealed_dgram p protocol s key) protocol (Some key) None) = Ok (s, p).
Proof.
  intros Hp. pose proof Hp as (Hid & W & _ & Hs & Hl).
  exact (NCodecP.decode_encoded _ _ _ _ _ _ (sealed_encode protocol key p s Hp) W Hid Hs Hl).
Qed.

Definition token_request (t : connect_token) : npacket :=
  PRequest NC_VERSION_INFO (ct_protocol t) (ct_expire t) (ct_xnonce t) (ct_private t).

(* the two public fields of the token that travel in the request have their wire sizes *)
Definition token_sizes_ok (t : connect_token) : Prop :=
  len (ct_xnonce t) = NC_XNONCE_BYTES /\ len (ct_private t) = NC_PRIVATE_BYTES.

Lemma token_wf_sizes : forall t, token_wf t -> token_sizes_ok t.
Proof. intros t H. unfold token_wf in H. unfold token_sizes_ok. tauto. Qed.

Lemma len_request_body : forall t, token_sizes_ok t -> len (packet_body (token_request t)) = 1077.
Proof.
  intros t [H1 H2]. unfold token_request. cbn [packet_body].
  rewrite !len_app, !len_le64, H1, H2. reflexivity.
Qed.

(* the request ignores the sequence number and the key: it is sent in the clear *)
Lemma encode_request_ok : forall t protocol crypto,
  token_sizes_ok t ->
  encode CL_CAP (token_request t) protocol crypto = Ok ([0] ++ packet_body (token_request t)).
Proof.
  intros t protocol crypto H. rewrite encode_request_eq by reflexivity.
  destruct (CL_CAP <? _) eqn:E; [|reflexivity].
  exfalso. rewrite len_cons, (len_request_body t H) in E. unfold CL_CAP, NC_MAX_PACKET_BYTES in E. lia.
Qed.

Lemma payload_encodes c p :
  len p <= NC_MAX_PAYLOAD_BYTES ->
  encode CL_CAP (PPayload p) (protocol_of c) (Some (cl_seq c, c2s_key c)) =
  Ok (sealed_dgram (PPayload p) (protocol_of c) (cl_seq c) (c2s_key c)).
Proof.
  intros Hl. apply encode_sealed_ok; [discriminate|]. cbn [packet_body]. unfold NC_MAX_PAYLOAD_BYTES in Hl. lia.
Qed.

Lemma disconnect_encodes c :
  encode CL_CAP PDisconnect (protocol_of c) (Some (cl_seq c, c2s_key c)) =
  Ok (sealed_dgram PDisconnect (protocol_of c) (cl_seq c) (c2s_key c)).
Proof. apply encode_sealed_ok; [discriminate|]. cbn [packet_body]. rewrite len_nil. lia. Qed.

(* disconnect always succeeds: the empty body always fits *)
Lemma disconnect_eq : forall c,
  nclient_disconnect c =
  (cl_set c (CDisconnected CRByClient) (cl_last_send c) (cl_last_recv c) (cl_seq c),
   Ok (cl_server_addr c, sealed_dgram PDisconnect (protocol_of c) (cl_seq c) (c2s_key c))).
Proof.
  intro c. unfold nclient_disconnect. cbv zeta. rewrite disconnect_encodes. reflexivity.
Qed.

Lemma generate_payload_cases c p :
  (is_connected c = true /\ len p <= NC_MAX_PAYLOAD_BYTES /\
   nclient_generate_payload c p =
   (cl_set c (cl_state c) (Some (cl_now c)) (cl_last_recv c) (cl_seq c + 1),
    Ok (cl_server_addr c, sealed_dgram (PPayload p) (protocol_of c) (cl_seq c) (c2s_key c)))) \/
  exists e, nclient_generate_payload c p = (c, Err e).
Proof.
  unfold nclient_generate_payload.
  destruct (NC_MAX_PAYLOAD_BYTES <? len p) eqn:E; [right; eexists; reflexivity|].
  destruct (is_connected c); [|right; eexists; reflexivity].
  assert (Hl : len p <= NC_MAX_PAYLOAD_BYTES) by lia.
  left. rewrite (payload_encodes c p Hl). auto.
Qed.

(* the clock advanced by dt, nothing else *)
Definition cl_tick (c0 : nclient) (dt : N) : nclient :=
  {| cl_state := cl_state c0; cl_id := cl_id c0; cl_connect_start := cl_connect_start c0; cl_last_send := cl_last_send c0;
     cl_last_recv := cl_last_recv c0; cl_now := cl_now c0 + dt; cl_seq := cl_seq c0; cl_server_addr := cl_server_addr c0;
     cl_addr_index := cl_addr_index c0; cl_token := cl_token c0; cl_chal_seq := cl_chal_seq c0; cl_chal_data := cl_chal_data c0;
     cl_max_clients := cl_max_clients c0; cl_client_index := cl_client_index c0; cl_replay := cl_replay c0 |}.

(* the two side conditions of update_internal_state, evaluated at now + dt *)
Definition timed_out (c : nclient) (dt : N) : bool :=
  (0 <? ct_timeout (cl_token c))%Z &&
  (cl_last_recv c + Z.to_N (ct_timeout (cl_token c)) * NS_PER_SEC <? cl_now c + dt).

Definition token_expired (c : nclient) (dt : N) : bool :=
  ct_expire (cl_token c) - ct_create (cl_token c) <=? as_secs (cl_now c + dt - cl_connect_start c).

Lemma as_secs_mono x y : x <= y -> as_secs x <= as_secs y.
Proof. intros H. unfold as_secs. apply N.div_le_mono; [discriminate | exact H]. Qed.

(* the two clock tests of a tick, about numbers *)
Lemma before_expiry x y b : x <= y -> as_secs y < b -> (b <=? as_secs x) = false.
Proof. intros H Hy. pose proof (as_secs_mono x y H). lia. Qed.

Lemma not_timed_out (to : Z) lr x :
  (to <= 0)%Z \/ x <= lr + Z.to_N to * NS_PER_SEC -> (0 <? to)%Z && (lr + Z.to_N to * NS_PER_SEC <? x) = false.
Proof. intros H. lia. Qed.

Lemma timed_out_mono (to : Z) lr lr' x y :
  lr <= lr' -> x <= y ->
  (0 <? to)%Z && (lr + Z.to_N to * NS_PER_SEC <? y) = false -> (0 <? to)%Z && (lr' + Z.to_N to * NS_PER_SEC <? x) = false.
Proof. intros H1 H2 H. lia. Qed.

Definition timeout_reason (c : nclient) : creason :=
  match cl_state c with CSendingResponse => CRResponseTimedOut | _ => CRRequestTimedOut end.

(* no further server: the client left behind by the failover *)
Definition cl_dead (c : nclient) (dt : N) : nclient :=
  {| cl_state := CDisconnected (timeout_reason c); cl_id := cl_id c; cl_connect_start := cl_connect_start c;
     cl_last_send := cl_last_send c; cl_last_recv := cl_last_recv c; cl_now := cl_now c + dt; cl_seq := cl_seq c;
     cl_server_addr := cl_server_addr c; cl_addr_index := cl_addr_index c + 1; cl_token := cl_token c;
     cl_chal_seq := cl_chal_seq c; cl_chal_data := cl_chal_data c; cl_max_clients := cl_max_clients c;
     cl_client_index := cl_client_index c; cl_replay := cl_replay c |}.

(* the client restarted on the next server a *)
Definition cl_next (c : nclient) (dt : N) (a : addr) : nclient :=
  {| cl_state := CSendingRequest; cl_id := cl_id c; cl_connect_start := cl_now c + dt; cl_last_send := None;
     cl_last_recv := cl_now c + dt; cl_now := cl_now c + dt; cl_seq := cl_seq c; cl_server_addr := a;
     cl_addr_index := cl_addr_index c + 1;
     cl_token := cl_token c; cl_chal_seq := 0; cl_chal_data := cl_chal_data c; cl_max_clients := cl_max_clients c;
     cl_client_index := cl_client_index c; cl_replay := cl_replay c |}.

Definition failover (c : nclient) (dt : N) : nres (nclient * bool) :=
  if 32 <=? cl_addr_index c + 1 then Ok (cl_dead c dt, false) else
  match nth_opt (ct_addrs (cl_token c)) (N.to_nat (cl_addr_index c + 1)) with
  | Some (Some a) => Ok (cl_next c dt a, true)
  | Some None => Ok (cl_dead c dt, false)
  | None => Panic SITE_N_SLOT_INDEX
  end.

Lemma uis_disconnected : forall c dt r,
  cl_state c = CDisconnected r -> update_internal_state c dt = Ok (cl_tick c dt, false).
Proof.
  intros c dt r H. unfold update_internal_state, cl_tick. cbv zeta. cbn [cl_state]. rewrite H. reflexivity.
Qed.

Lemma uis_connected : forall c dt,
  cl_state c = CConnected ->
  update_internal_state c dt =
  if timed_out c dt
  then Ok (cl_set (cl_tick c dt) (CDisconnected CRTimedOut) (cl_last_send c) (cl_last_recv c) (cl_seq c), false)
  else Ok (cl_tick c dt, true).
Proof.
  intros c dt H. unfold update_internal_state, cl_tick, timed_out. cbv zeta. cbn [cl_state]. rewrite H. reflexivity.
Qed.

(* the subtraction of the connect start from the new clock is the panic site of update_internal_state
   outside failover *)
Lemma uis_connecting : forall c dt,
  is_connecting c = true ->
  update_internal_state c dt =
  if cl_connect_start c <=? cl_now c + dt then
    if token_expired c dt
    then Ok (cl_set (cl_tick c dt) (CDisconnected CRTokenExpired) (cl_last_send c) (cl_last_recv c) (cl_seq c), false)
    else if timed_out c dt then failover c dt
    else Ok (cl_tick c dt, true)
  else Panic SITE_N_DURATION_SUB.
Proof.
  intros c dt H. apply is_connecting_iff in H. unfold update_internal_state. cbv zeta.
  cbn [cl_state cl_now cl_connect_start]. unfold sub_chk.
  destruct (cl_connect_start c <=? cl_now c + dt).
  - unfold failover, cl_dead, cl_next, cl_tick, timeout_reason, token_expired, timed_out.
    destruct H as [-> | ->]; reflexivity.
  - destruct H as [-> | ->]; reflexivity.
Qed.

Definition client_packet (c : nclient) : option npacket :=
  match cl_state c with
  | CSendingRequest => Some (token_request (cl_token c))
  | CSendingResponse => Some (PResponse (cl_chal_seq c) (cl_chal_data c))
  | CConnected => Some (PKeepAlive 0 0)
  | CDisconnected _ => None
  end.

Definition send_due (c : nclient) : bool :=
  match cl_last_send c with
  | None => true
  | Some t => NC_SEND_RATE_MS * 1000000 <=? cl_now c - t
  end.

Lemma generate_packet_eq : forall c,
  last_send_ok c ->
  generate_packet c =
  if send_due c then
    match client_packet c with
    | None => Ok (c, None)
    | Some p =>
        match encode CL_CAP p (protocol_of c) (Some (cl_seq c, c2s_key c)) with
        | Ok out => Ok (cl_set c (cl_state c) (Some (cl_now c)) (cl_last_recv c) (cl_seq c + 1),
                        Some (out, cl_server_addr c))
        | Err _ => Ok (cl_set c (cl_state c) (Some (cl_now c)) (cl_last_recv c) (cl_seq c), None)
        | Panic s => Panic s
        end
    end
  else Ok (c, None).
Proof.
  intros c Hls. unfold last_send_ok in Hls. unfold generate_packet, send_due, client_packet, token_request.
  destruct (cl_last_send c) as [t|] eqn:L.
  - unfold sub_chk. destruct (t <=? cl_now c) eqn:E; [|lia]. cbn [bind].
    destruct (cl_now c - t <? NC_SEND_RATE_MS * 1000000) eqn:D;
      destruct (NC_SEND_RATE_MS * 1000000 <=? cl_now c - t) eqn:D'; try lia; try reflexivity.
  - cbn [bind]. destruct (cl_state c); reflexivity.
Qed.

Lemma generate_packet_panics : forall c t,
  cl_last_send c = Some t -> cl_now c < t -> generate_packet c = Panic SITE_N_DURATION_SUB.
Proof.
  intros c t L H. unfold generate_packet. rewrite L. unfold sub_chk.
  destruct (t <=? cl_now c) eqn:E; [lia|]. reflexivity.
Qed.

Lemma client_packet_encodes : forall c,
  is_connecting c = true \/ is_connected c = true ->
  len (cl_chal_data c) = NC_CHALLENGE_BYTES ->
  (cl_state c = CSendingRequest -> token_sizes_ok (cl_token c)) ->
  exists p d,
    client_packet c = Some p /\ encode CL_CAP p (protocol_of c) (Some (cl_seq c, c2s_key c)) = Ok d /\
    match cl_state c with
    | CSendingRequest => d = [0] ++ packet_body (token_request (cl_token c))
    | _ => d = sealed_dgram p (protocol_of c) (cl_seq c) (c2s_key c)
    end.
Proof.
  intros c Hst Hch Htok. unfold client_packet, is_connecting, is_connected in *.
  destruct (cl_state c).
  - destruct Hst as [Hst|Hst]; discriminate Hst.
  - eexists _, _. split; [reflexivity|]. split; [apply encode_request_ok; apply Htok; reflexivity | reflexivity].
  - eexists _, _. split; [reflexivity|]. split; [apply encode_sealed_ok; [discriminate|] | reflexivity].
    cbn [packet_body]. rewrite len_app, len_le64, Hch. unfold NC_CHALLENGE_BYTES. lia.
  - eexists _, _. split; [reflexivity|]. split; [apply encode_sealed_ok; [discriminate|] | reflexivity].
    cbn [packet_body]. rewrite len_app, !len_le32. lia.
Qed.

Ltac proj_cbn :=
  cbn [fst cl_set cl_tick cl_dead cl_next cl_with_replay cl_seq cl_token cl_now cl_connect_start cl_addr_index
       cl_replay cl_server_addr cl_id cl_last_recv cl_last_send cl_chal_data cl_chal_seq cl_state
       cl_max_clients cl_client_index].

Lemma client_inv_sent : forall c ls sq,
  client_inv c -> (match ls with Some t => t <= cl_now c | None => True end) ->
  client_inv (cl_set c (cl_state c) ls (cl_last_recv c) sq).
Proof.
  intros c ls sq (H1 & H2 & H3 & H4 & H5 & H6 & H7) Hls. apply client_inv_intro; assumption.
Qed.

Lemma client_inv_kill : forall c r,
  client_inv c -> client_inv (cl_set c (CDisconnected r) (cl_last_send c) (cl_last_recv c) (cl_seq c)).
Proof.
  intros c r (H1 & H2 & H3 & H4 & H5 & H6 & H7). apply client_inv_intro; try assumption. left. reflexivity.
Qed.

Lemma client_inv_tick : forall c dt, client_inv c -> client_inv (cl_tick c dt).
Proof.
  intros c dt (H1 & H2 & H3 & H4 & H5 & H6 & H7). apply client_inv_intro; proj_cbn; try assumption; try lia.
  destruct (cl_last_send c); [lia | exact I].
Qed.

Lemma client_inv_dead : forall c dt, client_inv c -> client_inv (cl_dead c dt).
Proof.
  intros c dt (H1 & H2 & H3 & H4 & H5 & H6 & H7). apply client_inv_intro; proj_cbn; try assumption; try lia.
  - destruct (cl_last_send c); [lia | exact I].
  - left. reflexivity.
Qed.

Lemma client_inv_next : forall c dt a,
  client_inv c -> cl_addr_index c + 1 < 32 -> client_inv (cl_next c dt a).
Proof.
  intros c dt a (H1 & H2 & H3 & H4 & H5 & H6 & H7) Hi. apply client_inv_intro; proj_cbn; try assumption; lia.
Qed.

Definition failover_target (c : nclient) : option addr :=
  if 32 <=? cl_addr_index c + 1 then None else
  match nth_opt (ct_addrs (cl_token c)) (N.to_nat (cl_addr_index c + 1)) with
  | Some (Some a) => Some a
  | _ => None
  end.

Lemma failover_eq : forall c dt,
  client_inv c ->
  failover c dt =
  match failover_target c with
  | Some a => Ok (cl_next c dt a, true)
  | None => Ok (cl_dead c dt, false)
  end.
Proof.
  intros c dt Hinv. pose proof (inv_slots c Hinv) as H6. unfold failover, failover_target.
  destruct (32 <=? cl_addr_index c + 1) eqn:E; [reflexivity|].
  destruct (nth_opt_lt (ct_addrs (cl_token c)) (N.to_nat (cl_addr_index c + 1))) as [x Hx]; [lia|].
  rewrite Hx. destruct x; reflexivity.
Qed.

Lemma generate_packet_keeps c c' o :
  last_send_ok c -> generate_packet c = Ok (c', o) ->
  cl_state c' = cl_state c /\ cl_server_addr c' = cl_server_addr c.
Proof.
  intros Hls H. rewrite (generate_packet_eq c Hls) in H.
  destruct (send_due c); [|injection H as <- _; split; reflexivity].
  destruct (client_packet c); [|injection H as <- _; split; reflexivity].
  destruct (encode _ _ _ _); try discriminate H; injection H as <- _; split; reflexivity.
Qed.

Lemma connecting_live c : is_connecting c = true -> is_disconnected c = false.
Proof. intros H. apply is_connecting_iff in H. unfold is_disconnected. destruct H as [-> | ->]; reflexivity. Qed.

Lemma update_eq c dt :
  client_inv c ->
  nclient_update c dt =
  if is_disconnected c then Ok (cl_tick c dt, None)
  else if is_connecting c && token_expired c dt
  then Ok (cl_set (cl_tick c dt) (CDisconnected CRTokenExpired) (cl_last_send c) (cl_last_recv c) (cl_seq c), None)
  else if timed_out c dt then
    if is_connecting c then
      match failover_target c with
      | Some a => generate_packet (cl_next c dt a)
      | None => Ok (cl_dead c dt, None)
      end
    else Ok (cl_set (cl_tick c dt) (CDisconnected CRTimedOut) (cl_last_send c) (cl_last_recv c) (cl_seq c), None)
  else generate_packet (cl_tick c dt).
Proof.
  intros Hinv. unfold nclient_update.
  destruct (is_connecting c) eqn:Hc.
  - rewrite (connecting_live c Hc), (uis_connecting _ _ Hc), (proj2 (N.leb_le _ _)) by (pose proof (inv_start_le c Hinv); lia).
    cbn [andb].
    destruct (token_expired c dt); [reflexivity|]. destruct (timed_out c dt); [|reflexivity].
    rewrite (failover_eq _ _ Hinv). destruct (failover_target c); reflexivity.
  - unfold is_connecting, is_disconnected in *. destruct (cl_state c) as [r| | |] eqn:S; try discriminate Hc.
    + rewrite (uis_disconnected _ _ _ S). reflexivity.
    + rewrite (uis_connected _ _ S). cbn [andb]. destruct (timed_out c dt); reflexivity.
Qed.

Lemma update_connecting c dt :
  client_inv c -> is_connecting c = true ->
  nclient_update c dt =
  if token_expired c dt
  then Ok (cl_set (cl_tick c dt) (CDisconnected CRTokenExpired) (cl_last_send c) (cl_last_recv c) (cl_seq c), None)
  else if timed_out c dt then
    match failover_target c with
    | Some a => generate_packet (cl_next c dt a)
    | None => Ok (cl_dead c dt, None)
    end
  else generate_packet (cl_tick c dt).
Proof. intros Hinv Hc. rewrite (update_eq c dt Hinv), (connecting_live c Hc), Hc. reflexivity. Qed.

Definition update_post (c : nclient) (dt : N) (r : nres (nclient * option (list N * addr))) : Prop :=
  exists c' o,
    r = Ok (c', o) /\ client_inv c' /\
    cl_now c' = cl_now c + dt /\ cl_token c' = cl_token c /\
    ((o = None /\ cl_seq c' = cl_seq c) \/
     (exists d p, o = Some (d, cl_server_addr c') /\ cl_seq c' = cl_seq c + 1 /\
                  cl_last_send c' = Some (cl_now c + dt) /\ is_disconnected c' = false /\
                  client_packet c' = Some p /\
                  encode CL_CAP p (protocol_of c) (Some (cl_seq c, c2s_key c)) = Ok d)) /\
    (is_disconnected c = true -> o = None /\ c' = cl_tick c dt).

Lemma update_post_stop c dt c1 :
  client_inv c1 -> cl_now c1 = cl_now c + dt -> cl_seq c1 = cl_seq c -> cl_token c1 = cl_token c ->
  is_disconnected c = false \/ c1 = cl_tick c dt -> update_post c dt (Ok (c1, None)).
Proof.
  intros Hinv Hnow Hseq Htok Hd. exists c1, None.
  split; [reflexivity|]. split; [exact Hinv|]. split; [exact Hnow|]. split; [exact Htok|].
  split; [left; split; [reflexivity | exact Hseq]|]. intros H.
  destruct Hd as [Hd | ->]; [congruence | split; reflexivity].
Qed.

Lemma update_post_go c dt c1 :
  client_inv c1 -> cl_now c1 = cl_now c + dt -> cl_seq c1 = cl_seq c -> cl_token c1 = cl_token c ->
  is_disconnected c1 = false -> is_disconnected c = false -> update_post c dt (generate_packet c1).
Proof.
  intros Hinv1 Hnow Hseq Htok Hlive1 Hlive.
  pose proof (client_inv_last_send_ok _ Hinv1) as Hls.
  assert (Hsent : forall sq, client_inv (cl_set c1 (cl_state c1) (Some (cl_now c1)) (cl_last_recv c1) sq))
    by (intros sq; apply client_inv_sent; [exact Hinv1 | apply N.le_refl]).
  rewrite (generate_packet_eq c1 Hls).
  destruct (send_due c1); [|apply update_post_stop; auto].
  destruct (client_packet c1) as [p|] eqn:P; [|apply update_post_stop; auto].
  destruct (encode CL_CAP p (protocol_of c1) (Some (cl_seq c1, c2s_key c1))) as [out|e|s] eqn:En.
  - eexists _, _. split; [reflexivity|]. split; [apply Hsent|]. proj_cbn.
    split; [exact Hnow|]. split; [exact Htok|]. split; [|intro Hd; rewrite Hd in Hlive; discriminate Hlive].
    right. exists out, p. rewrite Hnow, Hseq. split; [reflexivity|]. split; [reflexivity|]. split; [reflexivity|].
    split; [exact Hlive1|]. split; [exact P|].
    unfold protocol_of, c2s_key in *. rewrite Htok, Hseq in En. exact En.
  - apply update_post_stop; auto.
  - exfalso. exact (NCodecP.encode_no_panic _ _ _ _ _ En).
Qed.

Lemma update_spec c dt : client_inv c -> update_post c dt (nclient_update c dt).
Proof.
  intros Hinv. rewrite (update_eq c dt Hinv). pose proof (client_inv_tick c dt Hinv) as Ht.
  destruct (is_disconnected c) eqn:Hd; [apply update_post_stop; auto|].
  assert (Hk : forall r, update_post c dt
            (Ok (cl_set (cl_tick c dt) (CDisconnected r) (cl_last_send c) (cl_last_recv c) (cl_seq c), None))).
  { intros r. apply update_post_stop; try reflexivity; [apply (client_inv_kill (cl_tick c dt)), Ht | left; exact Hd]. }
  destruct (is_connecting c && token_expired c dt); [apply Hk|].
  destruct (timed_out c dt); [|apply update_post_go; auto].
  destruct (is_connecting c); [|apply Hk].
  destruct (failover_target c) as [a|] eqn:F.
  - apply update_post_go; try reflexivity; [|exact Hd].
    apply client_inv_next; [exact Hinv|]. unfold failover_target in F. destruct (32 <=? cl_addr_index c + 1) eqn:E32; [discriminate | lia].
  - apply update_post_stop; try reflexivity; [apply client_inv_dead, Hinv | left; exact Hd].
Qed.

Theorem client_inv_step_update : forall c dt c' o,
  client_inv c -> nclient_update c dt = Ok (c', o) -> client_inv c'.
Proof.
  intros c dt c' o Hinv H.
  destruct (update_spec c dt Hinv) as (c2 & o2 & Hu & Hinv2 & _).
  rewrite Hu in H. injection H as <- <-. exact Hinv2.
Qed.

Theorem client_inv_step_payload : forall c p, client_inv c -> client_inv (fst (nclient_generate_payload c p)).
Proof.
  intros c p Hinv. destruct (generate_payload_cases c p) as [(_ & _ & ->)|[e ->]]; [|exact Hinv].
  apply client_inv_sent; [exact Hinv|]. apply N.le_refl.
Qed.

Theorem client_inv_step_disconnect : forall c, client_inv c -> client_inv (fst (nclient_disconnect c)).
Proof. intros c Hinv. rewrite disconnect_eq. apply client_inv_kill, Hinv. Qed.

(* C07: no call panics *)

Definition not_panic {E A} (r : res E A) : Prop := forall s, r <> Panic s.

Theorem client_no_panic : forall c,
  client_inv c ->
  (forall buf, exists c' o, nclient_process_packet c buf = (c', o) /\ client_inv c') /\
  (forall dt, exists c' o, nclient_update c dt = Ok (c', o) /\ client_inv c') /\
  (forall p, not_panic (snd (nclient_generate_payload c p)) /\ client_inv (fst (nclient_generate_payload c p))) /\
  (not_panic (snd (nclient_disconnect c)) /\ client_inv (fst (nclient_disconnect c))) /\
  (exists d, time_since_last_received c = Ok d).
Proof.
  intros c Hinv. split; [|split; [|split; [|split]]].
  - intro buf. pose proof (client_inv_step_process c buf Hinv) as H.
    destruct (nclient_process_packet c buf) as [c' o]. exists c', o. split; [reflexivity | exact H].
  - intro dt. destruct (update_spec c dt Hinv) as (c' & o & Hu & Hinv' & _).
    exists c', o. split; assumption.
  - intro p. split; [|apply client_inv_step_payload; exact Hinv].
    intros s H. destruct (generate_payload_cases c p) as [(_ & _ & E)|[e E]]; rewrite E in H; discriminate H.
  - split; [|apply client_inv_step_disconnect; exact Hinv].
    intros s H. rewrite disconnect_eq in H. discriminate H.
  - pose proof (inv_recv_le c Hinv). unfold time_since_last_received, sub_chk.
    destruct (cl_last_recv c <=? cl_now c) eqn:E; [eexists; reflexivity | lia].
Qed.

(* the invariant is what makes update safe: outside it, the Duration subtractions do panic *)
Theorem client_update_panics_outside_inv :
  (forall c dt, is_connecting c = true -> cl_now c + dt < cl_connect_start c ->
     nclient_update c dt = Panic SITE_N_DURATION_SUB) /\
  (forall c dt t, cl_state c = CConnected -> timed_out c dt = false ->
     cl_last_send c = Some t -> cl_now c + dt < t ->
     nclient_update c dt = Panic SITE_N_DURATION_SUB).
Proof.
  split.
  - intros c dt Hc Hlt. unfold nclient_update. rewrite (uis_connecting _ _ Hc), (proj2 (N.leb_gt _ _) Hlt). reflexivity.
  - intros c dt t S Hto L Hlt. unfold nclient_update. rewrite (uis_connected _ _ S), Hto. cbn [bind].
    apply (generate_packet_panics _ t); [exact L | exact Hlt].
Qed.

(* C17: sequence discipline *)

(* Every datagram the client emits is encoded with (cl_seq c, c2s_key c); update and
   generate_payload then add exactly one; nothing else moves cl_seq; nobody touches the token. *)
Theorem client_sequence_increases : forall c,
  (forall dt c' o, client_inv c -> nclient_update c dt = Ok (c', o) ->
     cl_token c' = cl_token c /\
     match o with
     | None => cl_seq c' = cl_seq c
     | Some (d, a) =>
         cl_seq c' = cl_seq c + 1 /\ a = cl_server_addr c' /\
         exists p, client_packet c' = Some p /\
                   encode CL_CAP p (protocol_of c) (Some (cl_seq c, c2s_key c)) = Ok d
     end) /\
  (forall p c' r, nclient_generate_payload c p = (c', r) ->
     cl_token c' = cl_token c /\
     match r with
     | Ok (a, d) =>
         cl_seq c' = cl_seq c + 1 /\ a = cl_server_addr c /\ cl_state c' = cl_state c /\
         encode CL_CAP (PPayload p) (protocol_of c) (Some (cl_seq c, c2s_key c)) = Ok d
     | _ => c' = c
     end) /\
  (* disconnect: same sequence number, not incremented *)
  (exists d, nclient_disconnect c =
             (cl_set c (CDisconnected CRByClient) (cl_last_send c) (cl_last_recv c) (cl_seq c),
              Ok (cl_server_addr c, d)) /\
             encode CL_CAP PDisconnect (protocol_of c) (Some (cl_seq c, c2s_key c)) = Ok d) /\
  (forall buf, cl_seq (fst (nclient_process_packet c buf)) = cl_seq c /\
               cl_token (fst (nclient_process_packet c buf)) = cl_token c).
Proof.
  intro c. split; [|split; [|split]].
  - intros dt c' o Hinv H.
    destruct (update_spec c dt Hinv) as (c2 & o2 & Hu & _ & _ & Htok & Hcase & _).
    rewrite Hu in H. injection H as <- <-. split; [exact Htok|].
    destruct Hcase as [(-> & Hs)|(d & p & -> & Hs & _ & _ & Hp & He)]; [exact Hs|].
    split; [exact Hs|]. split; [reflexivity|]. exists p. split; assumption.
  - intros p c' r H.
    destruct (generate_payload_cases c p) as [(_ & Hl & E)|[e E]]; rewrite E in H; injection H as <- <-.
    + proj_cbn. split; [reflexivity|]. repeat split. apply payload_encodes, Hl.
    + split; reflexivity.
  - eexists. split; [apply disconnect_eq | apply disconnect_encodes].
  - intro buf. destruct (client_process_frame c buf) as (F1 & F2 & _). split; assumption.
Qed.

(* no invariant needed *)
Lemma disconnected_update_eq : forall c dt,
  is_disconnected c = true -> nclient_update c dt = Ok (cl_tick c dt, None).
Proof.
  intros c dt Hd. apply is_disconnected_iff in Hd. destruct Hd as [r S].
  unfold nclient_update. rewrite (uis_disconnected _ _ _ S). reflexivity.
Qed.

Theorem disconnected_emits_nothing : forall c dt c' o,
  is_disconnected c = true -> nclient_update c dt = Ok (c', o) ->
  o = None /\ is_disconnected c' = true /\ c' = cl_tick c dt.
Proof.
  intros c dt c' o Hd H. rewrite (disconnected_update_eq _ _ Hd) in H. injection H as <- <-.
  repeat split. exact Hd.
Qed.

Theorem disconnected_payload_err : forall c p,
  is_disconnected c = true -> exists e, nclient_generate_payload c p = (c, Err e).
Proof.
  intros c p Hd. destruct (generate_payload_cases c p) as [(Hc & _)|H]; [|exact H].
  apply is_disconnected_iff in Hd. destruct Hd as [r S]. rewrite (proj1 (is_connected_iff c) Hc) in S. discriminate S.
Qed.

Theorem disconnect_idempotent : forall c,
  nclient_disconnect (fst (nclient_disconnect c)) = nclient_disconnect c.
Proof. intro c. rewrite !disconnect_eq. destruct c. reflexivity. Qed.

(* once disconnected, whatever is called, the only datagram that can ever leave is the one disconnect
   encodes, and it stays the same *)
Theorem disconnected_frame : forall c,
  is_disconnected c = true ->
  (forall buf, let c' := fst (nclient_process_packet c buf) in
     is_disconnected c' = true /\ snd (nclient_process_packet c buf) = None /\
     snd (nclient_disconnect c') = snd (nclient_disconnect c)) /\
  (forall dt, exists c', nclient_update c dt = Ok (c', None) /\ is_disconnected c' = true /\
     snd (nclient_disconnect c') = snd (nclient_disconnect c)) /\
  (forall p, exists e, nclient_generate_payload c p = (c, Err e)) /\
  (let c' := fst (nclient_disconnect c) in
     is_disconnected c' = true /\ snd (nclient_disconnect c') = snd (nclient_disconnect c)).
Proof.
  intros c Hd. split; [|split; [|split]].
  - intros buf c'. unfold c'.
    destruct (client_process_frame c buf) as (F1 & F2 & _ & _ & _ & F6 & _ & _ & F8).
    split; [unfold is_disconnected in *; rewrite (F8 Hd); exact Hd|]. split.
    + destruct (nclient_process_packet c buf) as [c2 [p|]] eqn:P; [|reflexivity].
      apply client_payload_only_connected in P. destruct P as (P1 & _).
      apply is_disconnected_iff in Hd. destruct Hd as [r S]. rewrite P1 in S. discriminate S.
    + rewrite !disconnect_eq. cbn [snd]. unfold protocol_of, c2s_key. rewrite F1, F2, F6. reflexivity.
  - intro dt. exists (cl_tick c dt). split; [apply disconnected_update_eq; exact Hd|].
    split; [exact Hd|]. rewrite !disconnect_eq. reflexivity.
  - intro p. apply disconnected_payload_err. exact Hd.
  - cbv zeta. split; [rewrite disconnect_eq; reflexivity|]. rewrite disconnect_idempotent. reflexivity.
Qed.

(* C18: liveness building blocks *)

Lemma generate_packet_due : forall c p d,
  last_send_ok c -> send_due c = true -> client_packet c = Some p ->
  encode CL_CAP p (protocol_of c) (Some (cl_seq c, c2s_key c)) = Ok d ->
  generate_packet c =
  Ok (cl_set c (cl_state c) (Some (cl_now c)) (cl_last_recv c) (cl_seq c + 1), Some (d, cl_server_addr c)).
Proof. intros c p d Hls Hdue Hp He. rewrite (generate_packet_eq c Hls), Hdue, Hp, He. reflexivity. Qed.

Lemma generate_packet_too_soon : forall c,
  last_send_ok c -> send_due c = false -> generate_packet c = Ok (c, None).
Proof. intros c Hls Hdue. rewrite (generate_packet_eq c Hls), Hdue. reflexivity. Qed.

Definition cl_ticked (c : nclient) (dt : N) (go : bool) : nclient :=
  if go then cl_set (cl_tick c dt) (cl_state c) (Some (cl_now c + dt)) (cl_last_recv c) (cl_seq c + 1)
  else cl_tick c dt.

Lemma client_inv_ticked c dt go : client_inv c -> client_inv (cl_ticked c dt go).
Proof.
  intros Hinv. pose proof (client_inv_tick c dt Hinv) as H1. destruct go; [|exact H1].
  apply (client_inv_sent (cl_tick c dt) (Some (cl_now c + dt)) (cl_seq c + 1) H1). apply N.le_refl.
Qed.

Lemma ticked_has_sent c dt : cl_last_send (cl_ticked c dt (send_due (cl_tick c dt))) <> None.
Proof.
  destruct (send_due (cl_tick c dt)) eqn:D; [discriminate|].
  unfold send_due in D. cbn [cl_ticked cl_tick cl_last_send] in *. destruct (cl_last_send c); discriminate.
Qed.

Lemma live_update c dt :
  client_inv c -> is_connecting c = true \/ is_connected c = true ->
  (is_connecting c = true -> token_expired c dt = false) -> timed_out c dt = false ->
  (cl_state c = CSendingRequest -> token_sizes_ok (cl_token c)) ->
  exists p d,
    client_packet c = Some p /\ encode CL_CAP p (protocol_of c) (Some (cl_seq c, c2s_key c)) = Ok d /\
    match cl_state c with
    | CSendingRequest => d = [0] ++ packet_body (token_request (cl_token c))
    | _ => d = sealed_dgram p (protocol_of c) (cl_seq c) (c2s_key c)
    end /\
    nclient_update c dt =
      Ok (cl_ticked c dt (send_due (cl_tick c dt)),
          if send_due (cl_tick c dt) then Some (d, cl_server_addr c) else None).
Proof.
  intros Hinv Hst Hexp Hto Htok.
  destruct (client_packet_encodes c Hst (inv_chal_len c Hinv) Htok) as (p & d & Hp & He & Hd).
  exists p, d. split; [exact Hp|]. split; [exact He|]. split; [exact Hd|].
  assert (Hlive : is_disconnected c = false).
  { destruct Hst as [H|H]; [exact (connecting_live c H)|]. apply is_connected_iff in H.
    unfold is_disconnected. rewrite H. reflexivity. }
  assert (Hne : is_connecting c && token_expired c dt = false).
  { destruct (is_connecting c); [exact (Hexp eq_refl) | reflexivity]. }
  rewrite (update_eq c dt Hinv), Hlive, Hne, Hto.
  pose proof (client_inv_last_send_ok _ (client_inv_tick c dt Hinv)) as Hls.
  destruct (send_due (cl_tick c dt)) eqn:Hdue.
  - exact (generate_packet_due (cl_tick c dt) p d Hls Hdue Hp He).
  - exact (generate_packet_too_soon _ Hls Hdue).
Qed.

Theorem client_retries : forall c dt,
  client_inv c ->
  is_connecting c = true \/ is_connected c = true ->
  (is_connecting c = true -> token_expired c dt = false) ->
  timed_out c dt = false ->
  (cl_state c = CSendingRequest -> token_sizes_ok (cl_token c)) ->
  (cl_last_send c = None \/
   exists t, cl_last_send c = Some t /\ NC_SEND_RATE_MS * 1000000 <= cl_now c + dt - t) ->
  exists c' d p,
    nclient_update c dt = Ok (c', Some (d, cl_server_addr c')) /\
    cl_last_send c' = Some (cl_now c + dt) /\
    c' = cl_set (cl_tick c dt) (cl_state c) (Some (cl_now c + dt)) (cl_last_recv c) (cl_seq c + 1) /\
    client_packet c = Some p /\
    encode CL_CAP p (protocol_of c) (Some (cl_seq c, c2s_key c)) = Ok d /\
    match cl_state c with
    | CSendingRequest => d = [0] ++ packet_body (token_request (cl_token c))
    | _ => d = sealed_dgram p (protocol_of c) (cl_seq c) (c2s_key c)
    end.
Proof.
  intros c dt Hinv Hst Hexp Hto Htok Hdue.
  destruct (live_update c dt Hinv Hst Hexp Hto Htok) as (p & d & Hp & He & Hd & Hu).
  assert (D : send_due (cl_tick c dt) = true).
  { unfold send_due. proj_cbn. destruct Hdue as [->|(t & -> & Ht)]; [reflexivity | apply N.leb_le, Ht]. }
  rewrite D in Hu. eexists _, d, p. split; [exact Hu|]. repeat split; assumption.
Qed.

(* conversely: less than the send rate since the last send, nothing leaves - unless the failover
   restarted the handshake on the next server (which resets last_send) *)
Theorem client_rate_limited : forall c dt t c' o,
  client_inv c -> cl_last_send c = Some t -> cl_now c + dt - t < NC_SEND_RATE_MS * 1000000 ->
  nclient_update c dt = Ok (c', o) ->
  o = None \/
  (is_connecting c = true /\ token_expired c dt = false /\ timed_out c dt = true /\
   exists a, failover_target c = Some a /\ cl_server_addr c' = a).
Proof.
  intros c dt t c' o Hinv L Hlt H. rewrite (update_eq c dt Hinv) in H.
  assert (Htick : generate_packet (cl_tick c dt) = Ok (cl_tick c dt, None)).
  { apply generate_packet_too_soon.
    - apply client_inv_last_send_ok, client_inv_tick, Hinv.
    - unfold send_due. proj_cbn. rewrite L. lia. }
  destruct (is_disconnected c); [injection H as _ <-; left; reflexivity|].
  destruct (is_connecting c) eqn:Hc; cbn [andb] in H.
  - destruct (token_expired c dt); [injection H as _ <-; left; reflexivity|].
    destruct (timed_out c dt); [|rewrite Htick in H; injection H as _ <-; left; reflexivity].
    destruct (failover_target c) as [a|]; [|injection H as _ <-; left; reflexivity].
    right. repeat split. exists a. split; [reflexivity|].
    apply (generate_packet_keeps (cl_next c dt a) c' o I H).
  - destruct (timed_out c dt); [|rewrite Htick in H]; injection H as _ <-; left; reflexivity.
Qed.

Lemma failover_target_nth : forall c a,
  client_inv c ->
  nth_opt (ct_addrs (cl_token c)) (N.to_nat (cl_addr_index c + 1)) = Some (Some a) ->
  failover_target c = Some a.
Proof.
  intros c a Hinv H. unfold failover_target.
  pose proof (nth_opt_some_lt _ _ _ H) as Hlt. rewrite (inv_slots c Hinv) in Hlt.
  destruct (32 <=? cl_addr_index c + 1) eqn:E; [lia|]. rewrite H. reflexivity.
Qed.

(* the client that update leaves behind when the time-out fires and the token has a next address *)
Definition cl_over (c : nclient) (dt : N) (a : addr) : nclient :=
  cl_set (cl_next c dt a) CSendingRequest (Some (cl_now c + dt)) (cl_now c + dt) (cl_seq c + 1).

Lemma client_failover_eq c dt a :
  client_inv c -> is_connecting c = true -> token_expired c dt = false -> timed_out c dt = true ->
  nth_opt (ct_addrs (cl_token c)) (N.to_nat (cl_addr_index c + 1)) = Some (Some a) ->
  token_sizes_ok (cl_token c) ->
  nclient_update c dt = Ok (cl_over c dt a, Some ([0] ++ packet_body (token_request (cl_token c)), a)).
Proof.
  intros Hinv Hc Hexp Hto Hnth Htok.
  rewrite (update_connecting c dt Hinv Hc), Hexp, Hto, (failover_target_nth _ _ Hinv Hnth).
  rewrite (generate_packet_due (cl_next c dt a) (token_request (cl_token c))
             ([0] ++ packet_body (token_request (cl_token c)))).
  - reflexivity.
  - exact I.
  - reflexivity.
  - reflexivity.
  - apply encode_request_ok. exact Htok.
Qed.

Theorem client_failover : forall c dt a,
  client_inv c -> is_connecting c = true ->
  token_expired c dt = false -> timed_out c dt = true ->
  nth_opt (ct_addrs (cl_token c)) (N.to_nat (cl_addr_index c + 1)) = Some (Some a) ->
  token_sizes_ok (cl_token c) ->
  exists c',
    nclient_update c dt = Ok (c', Some ([0] ++ packet_body (token_request (cl_token c)), a)) /\
    cl_state c' = CSendingRequest /\ cl_server_addr c' = a /\
    cl_addr_index c' = cl_addr_index c + 1 /\
    cl_connect_start c' = cl_now c + dt /\ cl_last_recv c' = cl_now c + dt /\
    cl_now c' = cl_now c + dt /\ cl_last_send c' = Some (cl_now c + dt) /\
    cl_seq c' = cl_seq c + 1 /\ cl_token c' = cl_token c /\ cl_chal_seq c' = 0 /\
    cl_replay c' = cl_replay c.
Proof.
  intros c dt a Hinv Hc Hexp Hto Hnth Htok. exists (cl_over c dt a).
  split; [exact (client_failover_eq c dt a Hinv Hc Hexp Hto Hnth Htok) | repeat split].
Qed.

(* the failover restarts the expiry clock: the token's lifetime (expire - create) is granted again
   for every server tried, so a client may keep connecting for up to 32 lifetimes *)
Corollary client_failover_restarts_expiry : forall c dt a,
  client_inv c -> is_connecting c = true ->
  token_expired c dt = false -> timed_out c dt = true ->
  nth_opt (ct_addrs (cl_token c)) (N.to_nat (cl_addr_index c + 1)) = Some (Some a) ->
  token_sizes_ok (cl_token c) ->
  exists c' o, nclient_update c dt = Ok (c', o) /\
    forall dt', token_expired c' dt' =
                (ct_expire (cl_token c) - ct_create (cl_token c) <=? as_secs dt').
Proof.
  intros c dt a Hinv Hc Hexp Hto Hnth Htok.
  destruct (client_failover c dt a Hinv Hc Hexp Hto Hnth Htok)
    as (c' & Hu & _ & _ & _ & Hcs & _ & Hnow & _ & _ & Ht & _).
  eexists c', _. split; [exact Hu|]. intro dt'. unfold token_expired. rewrite Hcs, Hnow, Ht.
  replace (cl_now c + dt + dt' - (cl_now c + dt)) with dt' by lia. reflexivity.
Qed.

Theorem client_failover_exhausted : forall c dt,
  client_inv c -> is_connecting c = true ->
  token_expired c dt = false -> timed_out c dt = true ->
  (32 <= cl_addr_index c + 1 \/
   nth_opt (ct_addrs (cl_token c)) (N.to_nat (cl_addr_index c + 1)) = Some None) ->
  nclient_update c dt = Ok (cl_dead c dt, None) /\
  cl_state (cl_dead c dt) =
    CDisconnected (match cl_state c with CSendingResponse => CRResponseTimedOut | _ => CRRequestTimedOut end).
Proof.
  intros c dt Hinv Hc Hexp Hto Hno.
  assert (F : failover_target c = None).
  { unfold failover_target. destruct (32 <=? cl_addr_index c + 1) eqn:E; [reflexivity|].
    destruct Hno as [Hno|Hno]; [lia|]. rewrite Hno. reflexivity. }
  rewrite (update_connecting c dt Hinv Hc), Hexp, Hto, F. split; reflexivity.
Qed.

Theorem client_times_out : forall c dt,
  cl_state c = CConnected -> timed_out c dt = true ->
  exists c', nclient_update c dt = Ok (c', None) /\ cl_state c' = CDisconnected CRTimedOut /\
             cl_now c' = cl_now c + dt /\ cl_seq c' = cl_seq c.
Proof.
  intros c dt S Hto. unfold nclient_update. rewrite (uis_connected _ _ S), Hto. cbn [bind].
  eexists. split; [reflexivity|]. repeat split.
Qed.

Lemma update_keeps_state c dt c' o :
  client_inv c -> is_connecting c && token_expired c dt = false -> timed_out c dt = false ->
  nclient_update c dt = Ok (c', o) -> cl_state c' = cl_state c.
Proof.
  intros Hinv Hexp Hto H. rewrite (update_eq c dt Hinv), Hexp, Hto in H.
  destruct (is_disconnected c); [injection H as <- _; reflexivity|].
  apply generate_packet_keeps in H; [|apply client_inv_last_send_ok, client_inv_tick, Hinv]. apply H.
Qed.

Theorem client_stays_alive : forall c dt c' o,
  client_inv c -> cl_state c = CConnected -> timed_out c dt = false ->
  nclient_update c dt = Ok (c', o) -> cl_state c' = CConnected.
Proof.
  intros c dt c' o Hinv S Hto H. rewrite <- S. apply (update_keeps_state c dt c' o Hinv); [|exact Hto | exact H].
  unfold is_connecting. rewrite S. reflexivity.
Qed.

Theorem client_keeps_connecting : forall c dt c' o,
  client_inv c -> is_connecting c = true -> token_expired c dt = false -> timed_out c dt = false ->
  nclient_update c dt = Ok (c', o) -> cl_state c' = cl_state c.
Proof.
  intros c dt c' o Hinv Hc Hexp Hto H. apply (update_keeps_state c dt c' o Hinv); [|exact Hto | exact H].
  rewrite Hc. exact Hexp.
Qed.

Theorem client_token_expiry : forall c dt,
  client_inv c -> is_connecting c = true ->
  ct_expire (cl_token c) - ct_create (cl_token c) <= as_secs (cl_now c + dt - cl_connect_start c) ->
  exists c', nclient_update c dt = Ok (c', None) /\ cl_state c' = CDisconnected CRTokenExpired /\
             cl_now c' = cl_now c + dt /\ cl_seq c' = cl_seq c.
Proof.
  intros c dt Hinv Hc Hexp.
  assert (E : token_expired c dt = true) by (unfold token_expired; lia).
  rewrite (update_connecting c dt Hinv Hc), E. eexists. split; [reflexivity|]. repeat split.
Qed.

(* a token with expire <= create (the subtraction saturates to 0) is dead on the first update *)
Corollary client_token_expiry_degenerate : forall c dt,
  client_inv c -> is_connecting c = true -> ct_expire (cl_token c) <= ct_create (cl_token c) ->
  exists c', nclient_update c dt = Ok (c', None) /\ cl_state c' = CDisconnected CRTokenExpired.
Proof.
  intros c dt Hinv Hc H. destruct (client_token_expiry c dt Hinv Hc) as (c' & H1 & H2 & _); [lia|].
  exists c'. split; assumption.
Qed.

Inductive cop :=
| COProcess (buf : list N)
| COUpdate (dt : N)
| COPayload (p : list N)
| CODisconnect.

(* one API call; the outputs are dropped, a Panic anywhere is propagated *)
Definition cstep (c : nclient) (o : cop) : nres nclient :=
  match o with
  | COProcess buf => Ok (fst (nclient_process_packet c buf))
  | COUpdate dt => do r <- nclient_update c dt; Ok (fst r)
  | COPayload p =>
      match snd (nclient_generate_payload c p) with
      | Panic s => Panic s
      | _ => Ok (fst (nclient_generate_payload c p))
      end
  | CODisconnect =>
      match snd (nclient_disconnect c) with
      | Panic s => Panic s
      | _ => Ok (fst (nclient_disconnect c))
      end
  end.

Fixpoint crun (c : nclient) (ops : list cop) : nres nclient :=
  match ops with
  | [] => Ok c
  | o :: t => do c1 <- cstep c o; crun c1 t
  end.

Lemma cstep_safe : forall c o,
  client_inv c ->
  exists c', cstep c o = Ok c' /\ client_inv c' /\ cl_seq c <= cl_seq c' /\ cl_token c' = cl_token c /\
             cl_now c <= cl_now c' /\ (is_disconnected c = true -> is_disconnected c' = true).
Proof.
  intros c o Hinv. destruct o as [buf|dt|p|]; cbn [cstep].
  - eexists. split; [reflexivity|]. split; [apply client_inv_step_process; exact Hinv|].
    destruct (client_process_frame c buf) as (F1 & F2 & F3 & _ & _ & _ & _ & _ & F8).
    split; [lia|]. split; [exact F2|]. split; [lia|].
    intro Hd. unfold is_disconnected in *. rewrite (F8 Hd). exact Hd.
  - destruct (update_spec c dt Hinv) as (c' & o & Hu & Hinv' & Hnow & Htok & Hcase & Hdis).
    rewrite Hu. cbn [bind fst]. exists c'. split; [reflexivity|]. split; [exact Hinv'|].
    split; [destruct Hcase as [(_ & Hs)|(d & q & _ & Hs & _)]; lia|]. split; [exact Htok|]. split; [lia|].
    intro Hd. destruct (Hdis Hd) as [_ ->]. exact Hd.
  - pose proof (client_inv_step_payload c p Hinv) as H.
    destruct (generate_payload_cases c p) as [(_ & _ & E)|[e E]]; rewrite E in *; cbn [fst snd] in *;
      (eexists; split; [reflexivity|]; split; [exact H|]); proj_cbn.
    all: split; [lia|]; split; [reflexivity|]; split; [lia|]; intro Hd; exact Hd.
  - pose proof (client_inv_step_disconnect c Hinv) as H. rewrite disconnect_eq in *. cbn [fst snd] in *.
    eexists. split; [reflexivity|]. split; [exact H|]. proj_cbn.
    split; [lia|]. split; [reflexivity|]. split; [lia|]. intros _. reflexivity.
Qed.

(* C07 at the level of runs: no sequence of calls, with any datagram bytes and any time steps, panics *)
Theorem client_run_safe : forall ops c,
  client_inv c ->
  exists c', crun c ops = Ok c' /\ client_inv c' /\ cl_seq c <= cl_seq c' /\ cl_token c' = cl_token c /\
             cl_now c <= cl_now c' /\ (is_disconnected c = true -> is_disconnected c' = true).
Proof.
  induction ops as [|o t IH]; intros c Hinv.
  - exists c. cbn [crun]. split; [reflexivity|]. split; [exact Hinv|]. split; [lia|]. split; [reflexivity|].
    split; [lia|]. intro Hd; exact Hd.
  - destruct (cstep_safe c o Hinv) as (c1 & Hs & Hinv1 & Hseq1 & Htok1 & Hnow1 & Hd1).
    destruct (IH c1 Hinv1) as (c' & Hr & Hinv' & Hseq' & Htok' & Hnow' & Hd').
    exists c'. cbn [crun]. rewrite Hs. cbn [bind].
    split; [exact Hr|]. split; [exact Hinv'|]. split; [lia|]. split; [congruence|]. split; [lia|].
    intro Hd. apply Hd', Hd1, Hd.
Qed.

Corollary client_reachable_safe : forall now t c ops,
  length (ct_addrs t) = 32%nat -> nclient_new now t = Ok c ->
  exists c', crun c ops = Ok c' /\ client_inv c' /\ cl_token c' = t.
Proof.
  intros now t c ops Hlen Hnew.
  destruct (client_run_safe ops c (client_inv_init _ _ _ Hlen Hnew)) as (c' & Hr & Hinv & _ & Htok & _).
  exists c'. split; [exact Hr|]. split; [exact Hinv|]. rewrite Htok.
  unfold nclient_new in Hnew. destruct (ct_addrs t) as [|[a|] l]; try discriminate.
  injection Hnew as <-. reflexivity.
Qed.

(* tokens: the hypotheses on the token hold for whatever token_read / token_generate return *)

Lemma pad_slots_length : forall l, (length l <= 32)%nat -> length (pad_slots l) = 32%nat.
Proof. intros l H. unfold pad_slots. rewrite app_length, repeatN_length. lia. Qed.

Lemma padded_slots addrs :
  1 <= len addrs -> len addrs <= 32 ->
  length (pad_slots (map Some addrs)) = 32%nat /\ exists a, nth_opt (pad_slots (map Some addrs)) 0 = Some (Some a).
Proof.
  intros H1 H32. split; [apply pad_slots_length; rewrite map_length; unfold len in H32; lia|].
  destruct addrs as [|a t]; [rewrite len_nil in H1; lia|]. exists a. reflexivity.
Qed.

(* a token that came through token_read always yields a client: SITE_N_NO_SERVER_ADDR is unreachable
   for it, and the invariant holds *)
Theorem token_read_client : forall src t now,
  token_read src = Ok t -> exists c, nclient_new now t = Ok c /\ client_inv c.
Proof.
  intros src t now H.
  destruct (TokenP.token_read_inv _ _ H) as (slots & r4 & _ & _ & _ & R & _ & ->).
  destruct (TokenP.read_server_addresses_inv _ _ _ R) as (addrs & -> & H1 & H32 & _).
  destruct (padded_slots addrs H1 H32) as [Hlen [a Ha]]. apply (nclient_new_ok now _ a); [exact Hlen | exact Ha].
Qed.

Theorem token_generate_client : forall now0 protocol secs id timeout addrs user key xnonce c2s s2c t now,
  token_generate now0 protocol secs id timeout addrs user key xnonce c2s s2c = Ok t ->
  exists c, nclient_new now t = Ok c /\ client_inv c.
Proof.
  intros now0 protocol secs id timeout addrs user key xnonce c2s s2c t now H.
  destruct (TokenP.token_generate_eq _ _ _ _ _ _ _ _ _ _ _ _ H) as [[H1 H32] ->].
  destruct (padded_slots addrs H1 H32) as [Hlen [a Ha]]. apply (nclient_new_ok now _ a); [exact Hlen | exact Ha].
Qed.

(* non-vacuity: a hand-built token, a client, the first request *)

Definition ex_addr : addr := AddrV4 [127; 0; 0; 1] 5000.

Definition ex_token : connect_token :=
  {| ct_client_id := 7; ct_version := NC_VERSION_INFO; ct_protocol := 1; ct_create := 0; ct_expire := 300;
     ct_xnonce := zeros NC_XNONCE_BYTES; ct_addrs := Some ex_addr :: repeatN None 31;
     ct_c2s := zeros NC_KEY_BYTES; ct_s2c := zeros NC_KEY_BYTES; ct_private := zeros NC_PRIVATE_BYTES;
     ct_timeout := 15%Z |}.

Definition ex_client : nclient :=
  {| cl_state := CSendingRequest; cl_id := 7; cl_connect_start := 1000; cl_last_send := None;
     cl_last_recv := 1000; cl_now := 1000; cl_seq := 0; cl_server_addr := ex_addr; cl_addr_index := 0;
     cl_token := ex_token; cl_chal_seq := 0; cl_chal_data := zeros NC_CHALLENGE_BYTES;
     cl_max_clients := 0; cl_client_index := 0; cl_replay := replay_new |}.

Example ex_new : nclient_new 1000 ex_token = Ok ex_client.
Proof. reflexivity. Qed.

Example ex_inv : client_inv ex_client.
Proof. apply (client_inv_init 1000 ex_token); [reflexivity | exact ex_new]. Qed.

Example ex_token_sizes : token_sizes_ok ex_token.
Proof. split; vm_compute; reflexivity. Qed.

(* one update with dt = 0 emits the 1078-byte request, in the clear, to the first server: the state
   and the datagram that client_retries predicts *)
Definition fr_c : nclient := cl_set (cl_tick ex_client 0) CSendingRequest (Some 1000) 1000 1.
Definition fr_d : list N := [0] ++ packet_body (token_request ex_token).

Lemma fr_run : nclient_update ex_client 0 = Ok (fr_c, Some (fr_d, ex_addr)).
Proof.
  destruct (client_retries ex_client 0 ex_inv) as (c' & d & p & H & _ & -> & _ & _ & ->).
  - left. reflexivity.
  - intros _. vm_compute. reflexivity.
  - vm_compute. reflexivity.
  - intros _. exact ex_token_sizes.
  - left. reflexivity.
  - exact H.
Qed.

Example ex_first_request :
  exists c' d,
    nclient_update ex_client 0 = Ok (c', Some (d, ex_addr)) /\
    d = [0] ++ packet_body (token_request ex_token) /\ len d = 1078 /\
    cl_seq c' = 1 /\ cl_last_send c' = Some 1000 /\ cl_state c' = CSendingRequest /\ client_inv c'.
Proof.
  exists fr_c, fr_d. split; [exact fr_run|]. split; [reflexivity|].
  split. { unfold fr_d. rewrite len_app, (len_request_body _ ex_token_sizes). reflexivity. }
  split; [reflexivity|]. split; [reflexivity|]. split; [reflexivity|].
  exact (client_inv_step_update ex_client 0 _ _ ex_inv fr_run).
Qed.

Example ex_first_request_by_theorem :
  exists c' d p, nclient_update ex_client 0 = Ok (c', Some (d, cl_server_addr c')) /\
                 cl_last_send c' = Some (cl_now ex_client + 0) /\ client_packet ex_client = Some p.
Proof. exists fr_c, fr_d, (token_request ex_token). split; [exact fr_run|]. split; reflexivity. Qed.

(* 250 ms later nothing has been heard: the request is sent again, with sequence number 1 -> 2 *)
Example ex_second_request :
  exists c1 d1 c2 d2,
    nclient_update ex_client 0 = Ok (c1, Some (d1, ex_addr)) /\
    nclient_update c1 249999999 = Ok (cl_tick c1 249999999, None) /\
    nclient_update c1 250000000 = Ok (c2, Some (d2, ex_addr)) /\ d2 = d1 /\ cl_seq c2 = 2.
Proof.
  pose proof (client_inv_step_update ex_client 0 _ _ ex_inv fr_run) as Hinv.
  destruct (client_retries fr_c 250000000 Hinv) as (c2 & d & p & H & _ & -> & _ & _ & Hd).
  - left. reflexivity.
  - intros _. vm_compute. reflexivity.
  - vm_compute. reflexivity.
  - intros _. exact ex_token_sizes.
  - right. exists 1000. split; [reflexivity | vm_compute; discriminate].
  - cbn [fr_c cl_set cl_state] in Hd. subst d.
    exists fr_c, fr_d, (cl_set (cl_tick fr_c 250000000) (cl_state fr_c) (Some (cl_now fr_c + 250000000))
                               (cl_last_recv fr_c) (cl_seq fr_c + 1)), fr_d.
    split; [exact fr_run|]. split; [vm_compute; reflexivity|]. split; [exact H|]. split; reflexivity.
Qed.

(* the whole handshake against datagrams really sealed under the server-to-client key: challenge,
   keep-alive, a payload that surfaces once, its replay and a tampered copy that change nothing,
   the server's disconnect *)
Definition srv_dgram (p : npacket) (s : N) : list N :=
  match encode CL_CAP p (protocol_of ex_client) (Some (s, s2c_key ex_client)) with Ok d => d | _ => [] end.

Lemma srv_dgram_eq c p s :
  cl_token c = ex_token -> sealable p s -> srv_dgram p s = sealed_dgram p (protocol_of c) s (s2c_key c).
Proof.
  intros Ht Hp. unfold srv_dgram. rewrite (sealed_encode _ _ p s Hp).
  unfold protocol_of, s2c_key. rewrite Ht. reflexivity.
Qed.

Lemma srv_dgram_opens p s :
  sealable p s -> opens_sealed (s2c_key ex_client) (protocol_of ex_client) (srv_dgram p s).
Proof.
  intros Hp. rewrite (srv_dgram_eq ex_client p s eq_refl Hp). split.
  - rewrite (NCodecP.encode_dgram_type _ _ _ _ _ _ (proj1 Hp) (sealed_encode _ _ p s Hp)). apply Hp.
  - exists s, p. apply (sealed_decode _ _ p s Hp).
Qed.

Lemma process_srv_dgram c p s :
  cl_token c = ex_token -> sealable p s ->
  nclient_process_packet c (srv_dgram p s) =
  if applies_replay (packet_id p)
  then if already_received (cl_replay c) s then (c, None)
       else client_handle (cl_with_replay c (advance_sequence (cl_replay c) s)) p
  else client_handle c p.
Proof. intros Ht Hp. rewrite (srv_dgram_eq c p s Ht Hp). apply process_authentic; [apply sealed_decode, Hp | apply Hp]. Qed.

Definition hs_chal : npacket := PChallenge 9 (repeatN 3 300).
Definition hs_c1 : nclient := fst (client_handle ex_client hs_chal).

Lemma hs_sealable :
  sealable hs_chal 0 /\ sealable (PKeepAlive 2 64) 1 /\ sealable (PPayload [1; 2; 3]) 2 /\ sealable PDisconnect 3.
Proof. unfold sealable. repeat split; vm_compute; (reflexivity || discriminate). Qed.

Lemma hs_c1_eq : nclient_process_packet ex_client (srv_dgram hs_chal 0) = (hs_c1, None).
Proof. rewrite (process_srv_dgram ex_client _ _ eq_refl (proj1 hs_sealable)). reflexivity. Qed.

(* the bytes of the payload datagram, of which the tampered copy is made *)
Definition hs_pay : list N := ltac:(let v := eval vm_compute in (srv_dgram (PPayload [1; 2; 3]) 2) in exact v).

Lemma hs_pay_eq : srv_dgram (PPayload [1; 2; 3]) 2 = hs_pay.
Proof. evaluates. Qed.

Example ex_handshake :
  let chal := srv_dgram (PChallenge 9 (repeatN 3 300)) 0 in
  let ka := srv_dgram (PKeepAlive 2 64) 1 in
  let pay := srv_dgram (PPayload [1; 2; 3]) 2 in
  let bye := srv_dgram PDisconnect 3 in
  let c1 := fst (nclient_process_packet ex_client chal) in
  let c2 := fst (nclient_process_packet c1 ka) in
  let c3 := fst (nclient_process_packet c2 pay) in
  let c4 := fst (nclient_process_packet c3 bye) in
  opens_sealed (s2c_key ex_client) (protocol_of ex_client) chal /\
  opens_sealed (s2c_key ex_client) (protocol_of ex_client) pay /\
  cl_state c1 = CSendingResponse /\ cl_chal_seq c1 = 9 /\ cl_chal_data c1 = repeatN 3 300 /\
  cl_state c2 = CConnected /\ cl_client_index c2 = 2 /\ cl_max_clients c2 = 64 /\
  snd (nclient_process_packet c2 pay) = Some [1; 2; 3] /\
  nclient_process_packet c3 pay = (c3, None) /\
  nclient_process_packet c2 (upd pay 5 ((nth 5 pay 0 + 1) mod 256)) = (c2, None) /\
  snd (nclient_process_packet ex_client pay) = None /\
  cl_state c4 = CDisconnected CRByServer /\
  nclient_process_packet c4 pay = (c4, None).
Proof.
  destruct hs_sealable as (Kchal & Kka & Kpay & Kbye).
  intros chal ka pay bye c1 c2 c3 c4.
  (* by process_srv_dgram the four states are client_handle applied to ex_client, to the windows
     advanced by 1, 2, 3 and to the four packets; every conjunct but the tampered one is then read
     off these terms *)
  assert (C1 : c1 = hs_c1) by (unfold c1, chal; fold hs_chal; rewrite hs_c1_eq; reflexivity).
  clearbody c1. subst c1.
  pose (k2 := fst (client_handle (cl_with_replay hs_c1 (advance_sequence (cl_replay hs_c1) 1)) (PKeepAlive 2 64))).
  assert (C2 : c2 = k2) by (unfold c2, ka; rewrite (process_srv_dgram hs_c1 _ _ eq_refl Kka); reflexivity).
  clearbody c2. subst c2.
  pose (k3 := fst (client_handle (cl_with_replay k2 (advance_sequence (cl_replay k2) 2)) (PPayload [1; 2; 3]))).
  assert (P3 : nclient_process_packet k2 pay = (k3, Some [1; 2; 3]))
    by (unfold pay; rewrite (process_srv_dgram k2 _ _ eq_refl Kpay); reflexivity).
  assert (C3 : c3 = k3) by (unfold c3; rewrite P3; reflexivity).
  clearbody c3. subst c3.
  pose (k4 := fst (client_handle (cl_with_replay k3 (advance_sequence (cl_replay k3) 3)) PDisconnect)).
  assert (C4 : c4 = k4) by (unfold c4, bye; rewrite (process_srv_dgram k3 _ _ eq_refl Kbye); reflexivity).
  clearbody c4. subst c4.
  split; [apply (srv_dgram_opens _ _ Kchal)|]. split; [apply (srv_dgram_opens _ _ Kpay)|].
  split; [reflexivity|]. split; [reflexivity|]. split; [reflexivity|].
  split; [reflexivity|]. split; [reflexivity|]. split; [reflexivity|].
  split; [rewrite P3; reflexivity|].
  split; [unfold pay; rewrite (process_srv_dgram k3 _ _ eq_refl Kpay); reflexivity|].
  split.
  { (* here the cipher runs, on the 3-byte payload *)
    apply client_inauthentic_is_noop; unfold pay; rewrite hs_pay_eq.
    - intros [plain H]. vm_compute in H. discriminate H.
    - vm_compute. discriminate. }
  split; [unfold pay; rewrite (process_srv_dgram ex_client _ _ eq_refl Kpay); reflexivity|].
  split; [reflexivity|].
  unfold pay. rewrite (process_srv_dgram k4 _ _ eq_refl Kpay). reflexivity.
Qed.

(* the response the client then sends carries the challenge it was given *)
Example ex_response :
  let c1 := fst (nclient_process_packet ex_client (srv_dgram (PChallenge 9 (repeatN 3 300)) 0)) in
  exists c2 d, nclient_update c1 0 = Ok (c2, Some (d, ex_addr)) /\
    d = sealed_dgram (PResponse 9 (repeatN 3 300)) 1 0 (zeros NC_KEY_BYTES) /\ len d = 325 /\ cl_seq c2 = 1.
Proof.
  fold hs_chal. rewrite hs_c1_eq. cbn [fst].
  destruct (client_retries hs_c1 0) as (c2 & d & p & H & _ & -> & Hp & _ & Hd).
  - pose proof (client_inv_step_process ex_client (srv_dgram hs_chal 0) ex_inv) as Hi.
    rewrite hs_c1_eq in Hi. exact Hi.
  - left. reflexivity.
  - intros _. vm_compute. reflexivity.
  - vm_compute. reflexivity.
  - discriminate.
  - left. reflexivity.
  - injection Hp as <-. cbn [hs_c1 hs_chal client_handle ex_client cl_state fst] in Hd. subst d.
    eexists _, _. split; [exact H|]. split; [reflexivity|]. split; [|reflexivity].
    unfold sealed_dgram. rewrite !len_app, len_cons, len_nil, len_le_bytes, N2Nat.id, aead_seal_len.
    vm_compute. reflexivity.
Qed.

Print Assumptions client_inv_init.
Print Assumptions nclient_new_panics_iff.
Print Assumptions nclient_new_panics_iff_32.
Print Assumptions client_inv_step_process.
Print Assumptions client_inv_step_payload.
Print Assumptions client_inv_step_disconnect.
Print Assumptions client_inv_step_update.
Print Assumptions client_no_panic.
Print Assumptions client_update_panics_outside_inv.
Print Assumptions client_inauthentic_is_noop.
Print Assumptions client_unsealed_is_noop_or_window.
Print Assumptions client_unsealed_counterexample.
Print Assumptions client_ignores_requests.
Print Assumptions client_replay_is_noop.
Print Assumptions client_replay_is_noop_sealed.
Print Assumptions client_payload_only_connected.
Print Assumptions client_payload_surfaces.
Print Assumptions client_process_frame.
Print Assumptions client_sequence_increases.
Print Assumptions disconnected_emits_nothing.
Print Assumptions disconnected_payload_err.
Print Assumptions disconnect_idempotent.
Print Assumptions disconnected_frame.
Print Assumptions client_retries.
Print Assumptions client_rate_limited.
Print Assumptions client_failover.
Print Assumptions client_failover_exhausted.
Print Assumptions client_times_out.
Print Assumptions client_stays_alive.
Print Assumptions client_keeps_connecting.
Print Assumptions client_token_expiry.
Print Assumptions client_accepts_challenge.
Print Assumptions client_accepts_keepalive.
Print Assumptions client_connected_keepalive.
Print Assumptions client_denied.
Print Assumptions client_server_disconnect.
Print Assumptions replay_u64max_forgotten.
Print Assumptions ex_first_request.
Print Assumptions ex_second_request.
Print Assumptions client_run_safe.
Print Assumptions client_reachable_safe.
Print Assumptions token_read_client.
Print Assumptions token_generate_client.
Print Assumptions ex_handshake.
Print Assumptions ex_response.
Print Assumptions client_failover_restarts_expiry.

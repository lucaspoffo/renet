(* Proofs/AeadP.v - properties of the AEAD model (Crypto/Aead.v).
   The block function and the MAC are treated as opaque functions: everything
   here follows from the shape of seal / open (xor with a key stream, tag
   recomputed and compared), except the last section, which shows that the
   executable Poly1305 (lazy reduction with shifts) equals the RFC formulation
   with N.modulo. *)
From RenetV Require Import Base BaseP.
From RenetV.Crypto Require Import Chacha20 Poly1305 Aead.

(* never compute through the cipher or the MAC *)
Arguments N.lxor : simpl never.
Arguments N.land : simpl never.
Arguments N.lor : simpl never.
Arguments N.shiftl : simpl never.
Arguments N.shiftr : simpl never.

Lemma bytes_eqb_refl : forall a, bytes_eqb a a = true.
Proof. intro a. apply bytes_eqb_eq. reflexivity. Qed.

Lemma lxor_cancel_r : forall a b, N.lxor (N.lxor a b) b = a.
Proof. intros. rewrite N.lxor_assoc, N.lxor_nilpotent, N.lxor_0_r. reflexivity. Qed.

Lemma stream_xor_length : forall blk d ctr ks,
  length (stream_xor blk ctr ks d) = length d.
Proof.
  induction d as [|x d IH]; intros ctr ks; simpl.
  - reflexivity.
  - destruct ks as [|k ks'].
    + destruct (blk ctr) as [|k ks']; simpl; rewrite IH; reflexivity.
    + simpl. rewrite IH. reflexivity.
Qed.

Lemma stream_xor_invol : forall blk d ctr ks,
  stream_xor blk ctr ks (stream_xor blk ctr ks d) = d.
Proof.
  induction d as [|x d IH]; intros ctr ks; simpl.
  - reflexivity.
  - destruct ks as [|k ks'].
    + destruct (blk ctr) as [|k ks'] eqn:E; simpl; rewrite E.
      * rewrite IH. reflexivity.
      * rewrite IH, lxor_cancel_r. reflexivity.
    + simpl. rewrite IH, lxor_cancel_r. reflexivity.
Qed.

Lemma aead_cipher_length : forall s d, length (aead_cipher s d) = length d.
Proof. intros. apply stream_xor_length. Qed.

Lemma aead_cipher_invol : forall s d, aead_cipher s (aead_cipher s d) = d.
Proof. intros. apply stream_xor_invol. Qed.

Lemma le_bytes_sh_length : forall n v, length (le_bytes_sh n v) = n.
Proof. induction n; intro v; simpl; [reflexivity | rewrite IHn; reflexivity]. Qed.

Lemma poly1305_length : forall key msg, length (poly1305 key msg) = 16%nat.
Proof. intros. unfold poly1305. apply le_bytes_sh_length. Qed.

Lemma aead_tag_length : forall s aad ct, length (aead_tag s aad ct) = 16%nat.
Proof. intros. apply poly1305_length. Qed.

Lemma open_with_app : forall s a ct tg, length tg = 16%nat ->
  open_with s a (ct ++ tg) =
  if bytes_eqb tg (aead_tag s a ct) then Some (aead_cipher s ct) else None.
Proof.
  intros s a ct tg Htg. unfold open_with.
  rewrite app_length, Htg.
  replace (Nat.ltb (length ct + 16) 16) with false
    by (symmetry; apply Nat.ltb_ge; lia).
  replace (length ct + 16 - 16)%nat with (length ct + 0)%nat by lia.
  rewrite firstn_app_2, skipn_app, Nat.add_0_r.
  rewrite skipn_all, Nat.sub_diag. simpl.
  rewrite app_nil_r. reflexivity.
Qed.

Lemma open_with_inv : forall s a c m, open_with s a c = Some m ->
  exists ct, c = ct ++ aead_tag s a ct /\ m = aead_cipher s ct.
Proof.
  intros s a c m H. unfold open_with in H.
  destruct (Nat.ltb (length c) 16) eqn:E; [discriminate|].
  destruct (bytes_eqb _ _) eqn:T; [|discriminate].
  apply bytes_eqb_eq in T. injection H as H.
  exists (firstn (length c - 16) c). split.
  - rewrite <- T. symmetry. apply firstn_skipn.
  - symmetry. exact H.
Qed.

Theorem aead_seal_length : forall k n a m,
  length (aead_seal k n a m) = (length m + 16)%nat.
Proof.
  intros. unfold aead_seal, seal_with.
  rewrite app_length, aead_cipher_length, aead_tag_length. reflexivity.
Qed.

Theorem aead_open_seal : forall k n a m,
  aead_open k n a (aead_seal k n a m) = Some m.
Proof.
  intros. unfold aead_open, aead_seal, seal_with.
  rewrite open_with_app by apply aead_tag_length.
  rewrite bytes_eqb_refl, aead_cipher_invol. reflexivity.
Qed.

Theorem aead_open_short : forall k n a c,
  (length c < 16)%nat -> aead_open k n a c = None.
Proof.
  intros k n a c H. unfold aead_open, open_with.
  apply Nat.ltb_lt in H. rewrite H. reflexivity.
Qed.

(* no byte-range hypotheses: the tag comparison is exact and xor with the key
   stream is an involution on all of N *)
Theorem aead_open_sound : forall k n a c m,
  aead_open k n a c = Some m -> c = aead_seal k n a m.
Proof.
  intros k n a c m H. apply open_with_inv in H. destruct H as (ct & -> & ->).
  unfold aead_seal, seal_with. rewrite aead_cipher_invol. reflexivity.
Qed.

Theorem aead_open_length : forall k n a c m,
  aead_open k n a c = Some m -> length c = (length m + 16)%nat.
Proof.
  intros k n a c m H. rewrite (aead_open_sound _ _ _ _ _ H). apply aead_seal_length.
Qed.

Theorem aead_open_iff : forall k n a c m,
  aead_open k n a c = Some m <-> c = aead_seal k n a m.
Proof.
  intros. split.
  - apply aead_open_sound.
  - intros ->. apply aead_open_seal.
Qed.

Corollary aead_seal_inj : forall k n a m1 m2,
  aead_seal k n a m1 = aead_seal k n a m2 -> m1 = m2.
Proof.
  intros k n a m1 m2 H.
  assert (E : aead_open k n a (aead_seal k n a m1) = Some m2)
    by (rewrite H; apply aead_open_seal).
  rewrite aead_open_seal in E. injection E as E. exact E.
Qed.

Theorem xaead_seal_length : forall k n a m,
  length (xaead_seal k n a m) = (length m + 16)%nat.
Proof. intros. apply aead_seal_length. Qed.

Theorem xaead_open_seal : forall k n a m,
  xaead_open k n a (xaead_seal k n a m) = Some m.
Proof. intros. apply aead_open_seal. Qed.

Theorem xaead_open_length : forall k n a c m,
  xaead_open k n a c = Some m -> length c = (length m + 16)%nat.
Proof. intros k n a c m. apply aead_open_length. Qed.

Theorem xaead_open_short : forall k n a c,
  (length c < 16)%nat -> xaead_open k n a c = None.
Proof. intros k n a c. apply aead_open_short. Qed.

Theorem xaead_open_sound : forall k n a c m,
  xaead_open k n a c = Some m -> c = xaead_seal k n a m.
Proof. intros k n a c m. apply aead_open_sound. Qed.

Theorem xaead_open_iff : forall k n a c m,
  xaead_open k n a c = Some m <-> c = xaead_seal k n a m.
Proof. intros. apply aead_open_iff. Qed.

Corollary xaead_seal_inj : forall k n a m1 m2,
  xaead_seal k n a m1 = xaead_seal k n a m2 -> m1 = m2.
Proof. intros k n a m1 m2. apply aead_seal_inj. Qed.

Corollary aead_seal_len : forall k n a m, len (aead_seal k n a m) = len m + 16.
Proof. intros. unfold len. rewrite aead_seal_length. lia. Qed.
Corollary xaead_seal_len : forall k n a m, len (xaead_seal k n a m) = len m + 16.
Proof. intros. unfold len. rewrite xaead_seal_length. lia. Qed.

Lemma P1305_nz : P1305 <> 0.
Proof. discriminate. Qed.

Lemma red130_mod : forall x, red130 x mod P1305 = x mod P1305.
Proof.
  intro x. unfold red130.
  change M130 with (N.ones 130).
  rewrite N.land_ones, N.shiftr_div_pow2.
  rewrite (N.div_mod x (2 ^ 130)) at 3 by (apply N.pow_nonzero; discriminate).
  change (2 ^ 130) with (P1305 + 5).
  set (q := x / (P1305 + 5)). set (r := x mod (P1305 + 5)).
  replace ((P1305 + 5) * q + r) with (r + 5 * q + q * P1305) by lia.
  rewrite N.mod_add by apply P1305_nz. reflexivity.
Qed.

Lemma step_cong : forall r acc1 acc2 c, acc1 mod P1305 = acc2 mod P1305 ->
  (((acc1 + c) * r) mod P1305) mod P1305 =
  red130 (red130 ((acc2 + c) * r)) mod P1305.
Proof.
  intros r acc1 acc2 c H.
  rewrite !red130_mod, N.mod_mod by apply P1305_nz.
  rewrite <- (N.mul_mod_idemp_l (acc1 + c)), <- (N.mul_mod_idemp_l (acc2 + c))
    by apply P1305_nz.
  rewrite <- (N.add_mod_idemp_l acc1), <- (N.add_mod_idemp_l acc2) by apply P1305_nz.
  rewrite H. reflexivity.
Qed.

Lemma poly_go_cong : forall r d acc1 acc2 cur sh,
  acc1 mod P1305 = acc2 mod P1305 ->
  poly_go (fun x => (x * r) mod P1305) acc1 cur sh d mod P1305 =
  poly_go (fun x => red130 (red130 (x * r))) acc2 cur sh d mod P1305.
Proof.
  induction d as [|b d IH]; intros acc1 acc2 cur sh H; simpl.
  - destruct (sh =? 0); [exact H | apply step_cong; exact H].
  - destruct (sh =? 120).
    + apply IH. apply step_cong. exact H.
    + apply IH. exact H.
Qed.

Lemma poly_go_spec_lt : forall r d acc cur sh, acc < P1305 ->
  poly_go (fun x => (x * r) mod P1305) acc cur sh d < P1305.
Proof.
  induction d as [|b d IH]; intros acc cur sh H; simpl.
  - destruct (sh =? 0); [exact H | apply N.mod_lt, P1305_nz].
  - destruct (sh =? 120); apply IH; [apply N.mod_lt, P1305_nz | exact H].
Qed.

Lemma le_bytes_sh_eq : forall n v, le_bytes_sh n v = le_bytes n v.
Proof.
  induction n as [|n IH]; intro v; simpl; [reflexivity|].
  change 255 with (N.ones 8).
  rewrite N.land_ones, N.shiftr_div_pow2, IH. reflexivity.
Qed.

Theorem poly1305_eq_spec : forall key msg, poly1305 key msg = poly1305_spec key msg.
Proof.
  intros key msg. unfold poly1305, poly1305_spec.
  rewrite le_bytes_sh_eq.
  change (2 ^ 128) with (256 ^ N.of_nat 16). rewrite le_bytes_mod.
  rewrite <- (poly_go_cong (key_r key) msg 0 0 0 0 eq_refl).
  rewrite N.mod_small by (apply poly_go_spec_lt; reflexivity).
  reflexivity.
Qed.

(* the one-time key, the cipher and the MAC input of the AEAD, spelled out
   (RFC 8439 2.8) in terms of the RFC-level functions *)
Theorem aead_seal_unfold : forall k n a m,
  aead_seal k n a m =
  let otk := firstn 32 (chacha20_block k 0 n) in
  let ct := chacha20_xor k 1 n m in
  ct ++ poly1305_spec otk (mac_data a ct).
Proof.
  intros. unfold aead_seal, seal_with. cbv zeta.
  rewrite <- poly1305_eq_spec. reflexivity.
Qed.

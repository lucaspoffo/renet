(* RSysInvP.v - one direction of the two-endpoint system as an object (dir), its invariant (Dinv: dinv of
   Spec/RSysInvSpec.v at a direction; dir_ok with what base_inv asks of the two connections), and the eight
   kinds of transition a system step can be for that direction, each of which keeps the invariant:
   T1 the sender's application submits a message, T2 the sender forgets old sent-packet records,
   T3 the sender flushes, T4 the receiver's application takes a message, T5 the receiver discards
   stale partial messages, T6 the receiver flushes (its Ack packet), T7 a packet of the sender is
   handed to the receiver, T8 the sender processes an Ack packet of the receiver.
   A transition that changes one component of a connection is stated over the components of dinv, a whole
   call or packet over the direction (dinv_flush, dinv_rcv_flush, dinv_snd, dinv_rcv, dinv_fwd, dinv_back).
   At the end what a system step is for a direction (dstep, sys_step_dir), and that a step of a sound
   direction leaves it sound (dir_ok_step). *)
From RenetV Require Import Base Consts Varint Packet Channels Conn.
From RenetV Require Import CodecSpec RecvSpec SendSpec ConnSpec ConnInvSpec RSysSpec RSysInvSpec.
From RenetV Require Import SMapP ConnBaseP ConnProcP ConnFlushP ConnP RSysBaseP RSysStepP.
From RenetV Require PacketP RecvUnrelP SMapSendP SendRelP SendUnrelP ConnEncP SliceP.
Require Import Lia.
Open Scope N_scope.

Local Opaque SLICE_SIZE MAX_ACK_RANGES SER_BUFFER NC_MAX_PAYLOAD_BYTES DISCARD_PACKET_SECS VARINT_MAX MAX_NUM_SLICES.

Import SendRelP(st_of, static_of, pkt_ok, entry_ok, packed).

(* One direction of the system, sender -> receiver: the two connections, everything each emitted, what
   the sender's application submitted and the receiver's obtained, and which of the sender's packets
   were handed to the receiver.  The system is its two directions, dir_ab s and dir_ab (flip s). *)
Record dir := {
  d_snd : conn; d_rcv : conn; d_oa : list (list N); d_ob : list (list N);
  d_sent : chan_log; d_got : chan_log; d_dlv : list nat
}.

Definition dir_ab (s : rsys) : dir :=
  {| d_snd := ra s; d_rcv := rb s; d_oa := out_a s; d_ob := out_b s;
     d_sent := sent_a s; d_got := got_b s; d_dlv := dlv_b s |}.

Definition with_snd (d : dir) (c : conn) (oa : list (list N)) (sent : chan_log) : dir :=
  {| d_snd := c; d_rcv := d_rcv d; d_oa := oa; d_ob := d_ob d; d_sent := sent; d_got := d_got d; d_dlv := d_dlv d |}.

Definition with_rcv (d : dir) (c : conn) (ob : list (list N)) (got : chan_log) (dlv : list nat) : dir :=
  {| d_snd := d_snd d; d_rcv := c; d_oa := d_oa d; d_ob := ob; d_sent := d_sent d; d_got := got; d_dlv := dlv |}.

(* dir_inv ordf s is Dinv ordf (dir_ab s) *)
Definition Dinv (ordf : N -> option bool) (d : dir) : Prop :=
  dinv ordf (c_sr (d_snd d)) (c_su (d_snd d)) (c_seq (d_snd d)) (c_sent (d_snd d))
       (c_rr (d_rcv d)) (c_ru (d_rcv d)) (c_acks (d_rcv d)) (d_oa d) (d_ob d) (d_sent d) (d_got d) (d_dlv d).

(* what sys_inv asks of one direction: base_inv s /\ dir_inv ordf s is dir_ok ordf (dir_ab s) *)
Set Implicit Arguments.
Record dir_ok (ordf : N -> option bool) (d : dir) : Prop := {
  do_snd : conn_inv (d_snd d); do_rcv : conn_inv (d_rcv d);
  do_u8s : chans_u8 (d_snd d); do_u8r : chans_u8 (d_rcv d);
  do_wfa : out_wf (d_oa d); do_wfb : out_wf (d_ob d);
  do_inv : Dinv ordf d
}.
Unset Implicit Arguments.

Lemma log_ext_msg_at l l' ch id m : log_ext l l' -> msg_at (log_get l ch) id = Some m -> msg_at (log_get l' ch) id = Some m.
Proof. intros H Hat. destruct (H ch) as (more & ->). now apply RecvRelP.msg_at_app. Qed.

Lemma unacked_msg_static u : unacked_msg u = fst (static_of u).
Proof. destruct u; reflexivity. Qed.

Lemma dinv_send_rel ordf sr su seq recs rr ru acks oa ob sent got dlv ch s m s' :
  dinv ordf sr su seq recs rr ru acks oa ob sent got dlv ->
  sm_find ch sr = Some s -> sr_send s m = Ok s' ->
  dinv ordf (sm_insert ch s' sr) su seq recs rr ru acks oa ob (log_add sent ch m) got dlv.
Proof.
  intros [D1 D2 D3 D4 D5 D6 D7 D8 D9 D10] Hs E.
  pose proof (log_ext_add sent ch m) as He.
  destruct (SendRelP.sr_send_shape _ _ _ E) as (Hn & u & Hu & Hum & Hua).
  destruct (D1 ch s Hs) as [Hnext Hmsgs].
  constructor.
  - intros c0 sa. rewrite sm_find_insert. destruct (N.eqb_spec c0 ch) as [->|Hne].
    + intros [= <-]. rewrite log_get_add_same. split; [rewrite len_app, len_one; lia|].
      intros id u0. rewrite Hu, sm_find_insert. destruct (N.eqb_spec id (sr_next_id s)) as [->|Hid].
      * intros [= <-]. rewrite unacked_msg_static, Hum, Hnext. apply RecvRelP.msg_at_snoc.
      * intros Hf. apply RecvRelP.msg_at_app. eauto.
    + intros Hf. rewrite log_get_add_other by exact Hne. apply D1. exact Hf.
  - eapply out_ok_ext; eauto.
  - eapply receiver_ok_ext; eauto.
  - exact D4.
  - exact D5.
  - intros c0 sa. rewrite sm_find_insert. destruct (N.eqb_spec c0 ch) as [->|Hne].
    + intros [= <-] id m0. rewrite log_get_add_same. intros Hat.
      apply RecvRelP.msg_at_snoc_inv in Hat. destruct Hat as [Hat|[-> ->]].
      * assert (Hid : id <> sr_next_id s) by (apply RecvRelP.msg_at_lt in Hat; lia).
        assert (Hsame : sm_find id (sr_unacked s') = sm_find id (sr_unacked s))
          by (rewrite Hu; now apply sm_find_insert_other).
        destruct (SendRelP.find_same_props _ _ _ Hsame) as (K1 & _ & K3).
        destruct (D6 ch s Hs id m0 Hat) as [A B]. split; [rewrite K1; exact A|].
        intros idx. rewrite K3. apply B.
      * rewrite <- Hnext. split.
        -- intros Hk. apply SendRelP.kind_none_find in Hk. rewrite Hu, sm_find_insert_same in Hk. discriminate.
        -- intros idx Hidx. exfalso. rewrite SendRelP.slice_acked_packed in Hidx. unfold packed in Hidx.
           rewrite Hu, sm_find_insert_same in Hidx.
           eapply Hua; eauto.
    + intros Hf id m0. rewrite log_get_add_other by exact Hne. apply D6. exact Hf.
  - eapply unrel_snd_ok_ext; eauto.
  - eapply unrel_out_ok_ext; eauto.
  - eapply unrel_rcv_ok_ext; eauto.
  - eapply got_ok_ext; eauto.
Qed.

Lemma dinv_send_unrel ordf sr su seq recs rr ru acks oa ob sent got dlv ch s m :
  dinv ordf sr su seq recs rr ru acks oa ob sent got dlv ->
  sm_find ch sr = None -> sm_find ch su = Some s ->
  dinv ordf sr (sm_insert ch (su_send s m) su) seq recs rr ru acks oa ob (log_add sent ch m) got dlv.
Proof.
  intros [D1 D2 D3 D4 D5 D6 D7 D8 D9 D10] Hnone Hs.
  pose proof (log_ext_add sent ch m) as He.
  constructor.
  - intros c0 sa Hf. assert (Hne : c0 <> ch) by congruence.
    rewrite log_get_add_other by exact Hne. now apply D1.
  - eapply out_ok_ext; eauto.
  - eapply receiver_ok_ext; eauto.
  - exact D4.
  - exact D5.
  - intros c0 sa Hf id m0. assert (Hne : c0 <> ch) by congruence.
    rewrite log_get_add_other by exact Hne. now apply D6.
  - intros c0 s0. rewrite sm_find_insert. destruct (N.eqb_spec c0 ch) as [->|Hne].
    + intros [= <-]. destruct (D7 ch s Hs) as [A B]. rewrite log_get_add_same.
      destruct (SendUnrelP.su_send_cases s m) as [Eid Eq]. rewrite Eid. split; [|exact B].
      assert (A' : Forall (fun x => In x (log_get sent ch ++ [m])) (su_queue s)).
      { eapply Forall_impl; [|exact A]. intros x Hx. apply in_or_app. now left. }
      destruct Eq as [->| ->]; [exact A'|]. apply Forall_app. split; [exact A'|].
      constructor; [apply in_or_app; right; now left|constructor].
    + intros Hf. rewrite log_get_add_other by exact Hne. now apply D7.
  - eapply unrel_out_ok_ext; eauto.
  - eapply unrel_rcv_ok_ext; eauto.
  - eapply got_ok_ext; eauto.
Qed.

Lemma dinv_recs_sub {ordf sr su seq recs} recs' {rr ru acks oa ob sent got dlv} :
  (forall k v, sm_find k recs' = Some v -> sm_find k recs = Some v) ->
  dinv ordf sr su seq recs rr ru acks oa ob sent got dlv ->
  dinv ordf sr su seq recs' rr ru acks oa ob sent got dlv.
Proof.
  intros Hsub [D1 D2 D3 D4 D5 D6 D7 D8 D9 D10]. constructor; auto.
  eapply track_ok_sub; eauto. lia.
Qed.

(* the records that drop_lost keeps are a suffix of the sorted c_sent *)
Lemma st_of_find now s id m k : sr_inv now s -> st_of (sr_unacked s) id = Some (m, k) ->
  exists u, sm_find id (sr_unacked s) = Some u /\ unacked_msg u = m /\
    match k with None => len m <= SLICE_SIZE | Some n => n = num_slices_of m /\ SLICE_SIZE < len m end.
Proof.
  intros Hsi Hst. destruct k as [n|].
  - apply SendRelP.st_of_sliced in Hst. destruct Hst as (na & nx & ak & ls & Eu).
    destruct (SendRelP.sr_inv_find _ _ _ _ Hsi Eu) as (_ & Hwf & _). eexists. split; [exact Eu|].
    cbn [unacked_msg unacked_wf] in *. tauto.
  - apply SendRelP.st_of_small in Hst. destruct Hst as (l & Eu).
    destruct (SendRelP.sr_inv_find _ _ _ _ Hsi Eu) as (_ & Hwf & _). eexists. split; [exact Eu|].
    cbn [unacked_msg unacked_wf] in *. tauto.
Qed.

(* shape facts of the unreliable packets of a flush, for the decoder *)
Definition unrel_shape (su : list (N * send_unrel)) (p : packet) : Prop :=
  match p with
  | SmallUnreliable _ ch _ => sm_mem ch su = true
  | UnreliableSlice _ ch sl =>
      sm_mem ch su = true /\
      exists m, SLICE_SIZE < len m /\ sl_index sl < num_slices_of m /\ sl = slice_of m (sl_id sl) (sl_index sl)
  | _ => True
  end.

Lemma su_step_shape f su su' pk p : su_step_ok f su su' pk -> In p pk -> unrel_shape su p.
Proof.
  intros (_ & B & C) Hin. destruct p as [sq ch ms|sq ch ms|sq ch sl|sq ch sl|sq rs]; cbn [unrel_shape]; auto.
  - destruct (B _ _ _ Hin) as (s & Hs & _). eapply sm_find_some_mem; eauto.
  - destruct (C _ _ _ Hin) as (s & s' & Hs & _ & _ & _ & _ & H1 & H2 & H3).
    split; [eapply sm_find_some_mem; eauto|eauto].
Qed.

Lemma slice_of_wf rel m id idx :
  SLICE_SIZE < len m -> idx < num_slices_of m -> num_slices_of m <= MAX_NUM_SLICES ->
  ConnEncP.slice_vok (slice_of m id idx) -> slice_wf rel (slice_of m id idx).
Proof.
  intros Hl Hidx Hmax (V1 & V2 & V3 & V4). cbn [slice_of sl_id sl_index sl_num sl_payload] in *.
  destruct (SliceP.num_bounds m Hl) as (_ & _ & B3).
  pose proof (SMapSendP.plen_bounds m idx ltac:(lia) Hidx) as Hp. unfold SMapSendP.plen in Hp.
  unfold slice_wf. cbn [slice_of sl_id sl_index sl_num sl_payload].
  repeat split; try assumption; lia.
Qed.

Definition emit_ok (c : conn) (p : packet) : Prop :=
  match p with
  | Ack sq rs => rs = c_acks c /\ packet_wf p
  | _ => is_rel_packet p = true -> emitted_rel (c_sr c) p
  end.

Lemma emit_decode c p b p' :
  conn_inv c -> chans_u8 c -> to_bytes SER_BUFFER p = Ok b -> pkt_fits p -> ConnEncP.varints_ok p ->
  emit_ok c p -> unrel_shape (c_su c) p -> from_bytes b = Ok p' -> p' = p /\ packet_wf p.
Proof.
  intros Hi Hu8 Hb Hfit Hv Hem Hsh Hp'.
  assert (Hcases : packet_wf p \/
    exists (rel : bool) sq ch s, p = (if rel then ReliableSlice sq ch s else UnreliableSlice sq ch s) /\
      sq <= VARINT_MAX /\ ch < 256 /\ ConnEncP.slice_vok s /\ MAX_NUM_SLICES < sl_num s).
  { destruct p as [sq ch ms|sq ch ms|sq ch sl|sq ch sl|sq rs]; cbn [emit_ok unrel_shape ConnEncP.varints_ok] in *.
    - left. destruct (Hem eq_refl) as (ch0 & s & Hs & Hch & _). subst ch0.
      cbn [packet_wf]. destruct Hv as [Hv1 Hv2]. split; [exact Hv1|].
      split; [apply Hu8; left; eapply sm_find_some_mem; eauto|].
      split; [now apply (small_rel_count sq ch)|exact Hv2].
    - left. cbn [packet_wf]. destruct Hv as [Hv1 Hv2]. split; [exact Hv1|].
      split; [apply Hu8; now right|]. split; [now apply (small_unrel_count sq ch)|exact Hv2].
    - destruct (Hem eq_refl) as (ch0 & s & Hs & Hch & m & num & Hst & Hsl & Hidx). subst ch0.
      destruct Hv as [Hv1 Hv2].
      assert (Hch : ch < 256) by (apply Hu8; left; eapply sm_find_some_mem; eauto).
      destruct (inv_find_sr _ _ _ Hi Hs) as [Hsi _].
      destruct (st_of_find _ _ _ _ _ Hsi Hst) as (_ & _ & _ & -> & W1).
      destruct (N.le_gt_cases (num_slices_of m) MAX_NUM_SLICES) as [Hle|Hgt].
      + left. cbn [packet_wf]. split; [exact Hv1|]. split; [exact Hch|].
        rewrite Hsl in *. now apply slice_of_wf.
      + right. exists true, sq, ch, sl. split; [reflexivity|]. split; [exact Hv1|]. split; [exact Hch|].
        split; [exact Hv2|]. rewrite Hsl. exact Hgt.
    - destruct Hsh as (Hmem & m & Hl & Hidx & Hsl). destruct Hv as [Hv1 Hv2].
      assert (Hch : ch < 256) by (apply Hu8; now right).
      destruct (N.le_gt_cases (num_slices_of m) MAX_NUM_SLICES) as [Hle|Hgt].
      + left. cbn [packet_wf]. split; [exact Hv1|]. split; [exact Hch|].
        rewrite Hsl in *. now apply slice_of_wf.
      + right. exists false, sq, ch, sl. split; [reflexivity|]. split; [exact Hv1|]. split; [exact Hch|].
        split; [exact Hv2|]. rewrite Hsl. exact Hgt.
    - left. apply Hem. }
  destruct Hcases as [Hwf|(rel & sq & ch & s & -> & H1 & H2 & H3 & H4)].
  - rewrite (PacketP.packet_roundtrip' p SER_BUFFER b Hwf Hb) in Hp'. injection Hp' as <-. auto.
  - destruct (ConnEncP.big_slice_undecodable SER_BUFFER rel sq ch s b H1 H2 H3 H4 Hb) as (e & He). congruence.
Qed.

Definition decodes_wf (p : packet) (b : list N) : Prop := forall p', from_bytes b = Ok p' -> p' = p /\ packet_wf p'.

(* What the system proofs know about one flush of a live connection c: c1, av and pk0 are the state, the
   budget left and the packets after the gathering round; pk are the packets serialised, pk0 and the Ack
   packet.  A packet that exceeds the decoder's slice limit is sent all the same: its bytes do not decode. *)
Set Implicit Arguments.
Record flush_sum (c c' : conn) (bytes : list (list N)) (c1 : conn) (av : N) (pk0 pk : list packet) : Prop := {
  fl_gather : gather_rel (c_order c) c (c_budget c) c1 av pk0;
  fl_pk : pk = flush_pkts c1 pk0;
  fl_dec : Forall2 decodes_wf pk bytes;
  fl_seqs : seqs_from (c_seq c) pk;
  fl_seq : c_seq c' = c_seq c + len pk;
  fl_new : forall p, In p pk -> sm_find (packet_seq p) (c_sent c') = Some (c_now c, pkt_info p);
  fl_old : forall k v, sm_find k (c_sent c') = Some v ->
             sm_find k (c_sent c) = Some v \/ exists p, In p pk /\ packet_seq p = k /\ v = (c_now c, pkt_info p);
  fl_static : sr_static (c_sr c) (c_sr c');
  fl_su : c_su c' = c_su c1;
  fl_unrel : exists f, su_step_ok f (c_su c) (c_su c') pk;
  fl_emit : Forall (emit_ok c) pk;
  fl_rr : c_rr c' = c_rr c;
  fl_ru : c_ru c' = c_ru c;
  fl_acks : c_acks c' = c_acks c;
  fl_status : c_status c' = c_status c }.
Unset Implicit Arguments.
Arguments fl_old [c c' bytes c1 av pk0 pk] _ k v _.

Lemma flush_summary c c' bytes :
  conn_inv c -> chans_u8 c -> is_disconnected c = false -> get_packets_to_send c = Ok (c', bytes) ->
  exists c1 av pk0 pk, flush_sum c c' bytes c1 av pk0 pk.
Proof.
  intros Hi Hu8 Hd E.
  destruct (flush_spec c c' bytes Hi Hd E) as (c1 & av & pk & pkts & Epk & Hrel & -> & HF2 & Hfits & Hv & Hack).
  pose proof (gather_facts _ _ _ _ _ _ Hrel Hi) as G. pose proof (g_pkts G) as Hpk.
  destruct (gather_emits _ _ _ _ _ _ Hrel Hi) as (Hstat & Hem & f & Hsu).
  exists c1, av, pk, pkts.
  assert (Hseqs2 : seqs_from (c_seq c) pkts).
  { rewrite Epk. apply SMapSendP.seqs_from_app. split; [exact (g_seqs G)|].
    destruct (c_acks c); cbn [ack_part seqs_from packet_seq]; [exact I|]. split; [lia|exact I]. }
  assert (Hsu2 : su_step_ok f (c_su c) (c_su c1) pkts).
  { rewrite Epk. destruct Hsu as (A & B & C). split; [exact A|]. split.
    - intros sq ch ms Hin. apply in_app_or in Hin. destruct Hin as [Hin|Hin]; [eauto|].
      destruct (c_acks c); cbn [ack_part] in Hin; [destruct Hin|]. destruct Hin as [Hin|[]]. discriminate.
    - intros sq ch sl Hin. apply in_app_or in Hin. destruct Hin as [Hin|Hin]; [eauto|].
      destruct (c_acks c); cbn [ack_part] in Hin; [destruct Hin|]. destruct Hin as [Hin|[]]. discriminate. }
  assert (Hem2 : Forall (emit_ok c) pkts).
  { rewrite Epk in *. apply Forall_app. split.
    - rewrite Forall_forall in *. intros p Hp. destruct (Hpk p Hp) as (_ & Hna & _).
      destruct p; try discriminate; cbn [emit_ok]; apply Hem; exact Hp.
    - apply Forall_app in Hv. destruct Hv as [_ Hv']. apply Forall_app in Hack. destruct Hack as [_ Hack'].
      destruct (c_acks c) as [|ab t] eqn:Ea; cbn [ack_part] in *; constructor; [|constructor].
      inversion Hv' as [|? ? Hv1 _]; subst. inversion Hack' as [|? ? Ha1 _]; subst.
      cbn [ConnEncP.varints_ok ConnEncP.ack_ok emit_ok packet_wf] in *. rewrite Ea. tauto. }
  constructor; cbn [flushed c_sent c_now c_sr c_su c_rr c_ru c_acks c_status c_seq]; eauto.
  - rewrite Epk. symmetry. apply (flush_eqs c c1 av pk Hi Hrel).
  - rewrite Forall_forall in Hfits, Hv, Hem2. eapply Forall2_impl_in; [|exact HF2]. intros p b Hp Hb p' Hp'.
    destruct (emit_decode c p b p' Hi Hu8 Hb (Hfits p Hp) (Hv p Hp) (Hem2 p Hp) (su_step_shape _ _ _ _ _ Hsu2 Hp) Hp')
      as [-> Hwf].
    auto.
  - intros p Hp. apply rec_sent_find_new; [|exact Hp]. eapply seqs_from_nodup; eauto.
  - intros k v Hf. now apply rec_sent_find_inv in Hf.
Qed.

Lemma fl_decoded {c c' bytes c1 av pk0 pk} : flush_sum c c' bytes c1 av pk0 pk ->
  forall b p, In b bytes -> from_bytes b = Ok p -> In p pk /\ packet_wf p.
Proof.
  intros F b p Hin Hp. destruct (Forall2_in_r _ _ _ _ (fl_dec F) Hin) as (p0 & Hp0 & Hb).
  destruct (Hb p Hp) as [-> Hwf]. auto.
Qed.

Lemma sender_ok_static sr sr' sent : sr_static sr sr' -> sender_ok sr sent -> sender_ok sr' sent.
Proof.
  intros Hst H ch sa' Hf'. destruct (sr_static_find _ _ _ _ Hst Hf') as (s & Es & Hn & Hk & _).
  destruct (H ch s Es) as [A B]. split; [congruence|].
  intros id u' Hu'. specialize (Hk id). unfold st_of in Hk. rewrite Hu' in Hk.
  destruct (sm_find id (sr_unacked s)) as [u|] eqn:Eu; [|discriminate].
  injection Hk as Hk. rewrite (B id u Eu), !unacked_msg_static, Hk. reflexivity.
Qed.

Lemma release_ok_static sr sr' sent oa dlv : sr_static sr sr' -> release_ok sr sent oa dlv -> release_ok sr' sent oa dlv.
Proof.
  intros Hst H ch sa' Hf' id m Hat. destruct (sr_static_find _ _ _ _ Hst Hf') as (s & Es & Hn & Hk & Hp).
  destruct (H ch s Es id m Hat) as [A B]. split.
  - intros Hkn. apply A. rewrite SendRelP.kind_of_st in *. now rewrite <- Hk.
  - intros idx Hidx. apply B. rewrite SendRelP.slice_acked_packed in *. now rewrite <- Hp.
Qed.

Lemma sid_used_mono oa oa' ch sid : sid_used oa ch sid -> sid_used (oa ++ oa') ch sid.
Proof. intros (b & sq & sl & A & B). exists b, sq, sl. split; [apply in_or_app; now left|exact B]. Qed.

Lemma emitted_rel_honest c sent p :
  conn_inv c -> sender_ok (c_sr c) sent -> is_rel_packet p = true -> emitted_rel (c_sr c) p -> pkt_honest sent p.
Proof.
  intros Hi D1 Hrel (ch0 & s & Hs & Hok).
  destruct (D1 ch0 s Hs) as [_ Hmsgs]. destruct (inv_find_sr _ _ _ Hi Hs) as [Hsi _].
  destruct p as [sq ch ms|sq ch ms|sq ch sl|sq ch sl|sq rs]; try discriminate; cbn [pkt_ok pkt_honest] in *.
  - destruct Hok as [-> Hent]. eapply Forall_impl; [|exact Hent]. intros [id m] He.
    unfold entry_ok in He. unfold small_ok. cbn [fst snd] in *.
    destruct (st_of_find _ _ _ _ _ Hsi He) as (u & Eu & <- & W1). split; [exact (Hmsgs id u Eu)|exact W1].
  - destruct Hok as (-> & m & num & Hst & Hsl & Hidx).
    destruct (st_of_find _ _ _ _ _ Hsi Hst) as (u & Eu & <- & -> & W1). exists (unacked_msg u). auto.
Qed.

(* the unreliable channels over a flush: the packets carry queued (hence logged) messages, a new
   slice packet never reuses a sliced-message id seen on the wire before *)
Lemma unrel_flush f su su' pk oa bytes sent :
  su_step_ok f su su' pk -> (forall b p, In b bytes -> from_bytes b = Ok p -> In p pk) ->
  unrel_snd_ok su oa sent -> unrel_out_ok oa sent ->
  unrel_snd_ok su' (oa ++ bytes) sent /\ unrel_out_ok (oa ++ bytes) sent /\
  (forall b p, In b bytes -> from_bytes b = Ok p -> is_rel_packet p = false -> pkt_honest sent p) /\
  (forall ch sid m, sid_is oa ch sid m -> sid_used oa ch sid -> sid_is (oa ++ bytes) ch sid m).
Proof.
  intros (Hsu1 & Hsu2 & Hsu3) Hdec D7 D8.
  assert (Hfresh : forall b sq ch sl b2 sq2 sl2,
            In b oa -> from_bytes b = Ok (UnreliableSlice sq ch sl) ->
            In b2 bytes -> from_bytes b2 = Ok (UnreliableSlice sq2 ch sl2) -> sl_id sl2 = sl_id sl -> False).
  { intros b sq ch sl b2 sq2 sl2 Hb Hp Hb2 Hp2 Heq.
    destruct (Hsu3 _ _ _ (Hdec b2 _ Hb2 Hp2)) as (s0 & s0' & Hs0 & _ & Hlo & _).
    destruct (D7 ch s0 Hs0) as [_ Hold]. specialize (Hold b sq sl Hb Hp). lia. }
  assert (Hgrow : forall ch sid m, sid_is oa ch sid m -> sid_used oa ch sid -> sid_is (oa ++ bytes) ch sid m).
  { intros ch sid m Hsid (b0 & sq0 & sl0 & Hb0 & Hp0 & Hid0) b sq sl Hin Hp Hid.
    apply in_app_or in Hin. destruct Hin as [Hin|Hin]; [eauto|].
    exfalso. eapply (Hfresh b0 sq0 ch sl0 b sq sl); eauto. congruence. }
  split; [|split; [|split; [|exact Hgrow]]].
  - intros ch s' Hs'. specialize (Hsu1 ch). destruct (sm_find ch su) as [s|] eqn:Es; [|congruence].
    destruct Hsu1 as (s2 & E2 & Hle & Hq). rewrite Hs' in E2. injection E2 as <-.
    destruct (D7 ch s Es) as [A B]. split.
    + rewrite Forall_forall in *. auto.
    + intros b sq sl Hin Hp. apply in_app_or in Hin. destruct Hin as [Hin|Hin].
      * specialize (B b sq sl Hin Hp). lia.
      * destruct (Hsu3 _ _ _ (Hdec b _ Hin Hp)) as (s0 & s0' & Hs0 & Hs0' & _ & Hhi & _). congruence.
  - intros b sq ch sl Hin Hp. apply in_app_or in Hin. destruct Hin as [Hin|Hin].
    + destruct (D8 b sq ch sl Hin Hp) as (m & A1 & A2 & A3 & A4). exists m.
      split; [exact A1|]. split; [exact A2|]. split; [exact A3|].
      apply Hgrow; [exact A4|]. exists b, sq, sl. auto.
    + destruct (Hsu3 _ _ _ (Hdec b _ Hin Hp)) as (s & s' & Hs & _ & _ & _ & A1 & A2 & A3 & A4).
      destruct (D7 ch s Hs) as [Hlog _]. rewrite Forall_forall in Hlog.
      exists (f ch (sl_id sl)). split; [auto|]. split; [exact A2|]. split; [exact A3|].
      intros b2 sq2 sl2 Hin2 Hp2 Hid2. apply in_app_or in Hin2. destruct Hin2 as [Hin2|Hin2].
      * exfalso. eapply (Hfresh b2 sq2 ch sl2 b sq sl); eauto.
      * destruct (Hsu3 _ _ _ (Hdec b2 _ Hin2 Hp2)) as (_ & _ & _ & _ & _ & _ & _ & _ & _ & B4).
        rewrite Hid2 in B4. exact B4.
  - intros b p Hin Hp Hnr. pose proof (Hdec b p Hin Hp) as Hpk.
    destruct p as [sq ch ms|sq ch ms|sq ch sl|sq ch sl|sq rs]; try discriminate; cbn [pkt_honest].
    + destruct (Hsu2 _ _ _ Hpk) as (s & Hs & Hq). destruct (D7 ch s Hs) as [Hlog _].
      rewrite Forall_forall in *. auto.
    + destruct (Hsu3 _ _ _ Hpk) as (s & s' & Hs & _ & _ & _ & A1 & A2 & A3 & A4).
      destruct (D7 ch s Hs) as [Hlog _]. rewrite Forall_forall in Hlog.
      exists (f ch (sl_id sl)). auto.
    + exact I.
Qed.

Lemma dinv_flush ordf d c' bytes :
  dir_ok ordf d -> is_disconnected (d_snd d) = false -> get_packets_to_send (d_snd d) = Ok (c', bytes) ->
  Dinv ordf (with_snd d c' (d_oa d ++ bytes) (d_sent d)).
Proof.
  destruct d as [c cr oa ob sent got dlv]. intros O Hd E.
  pose proof (do_snd O) as Hi. pose proof (do_u8s O) as Hu8. pose proof (do_inv O) as D.
  unfold Dinv in *. cbn [with_snd d_snd d_rcv d_oa d_ob d_sent d_got d_dlv] in *.
  destruct D as [D1 D2 D3 D4 D5 D6 D7 D8 D9 D10].
  destruct (flush_summary c c' bytes Hi Hu8 Hd E) as (c1 & av & pk0 & pk & F).
  pose proof (fl_decoded F) as Hdec. pose proof (fl_seq F) as Hseq'.
  pose proof (seqs_from_bounds _ _ (fl_seqs F)) as Hbounds. rewrite Forall_forall in Hbounds.
  destruct (fl_unrel F) as (f & Hsu).
  destruct (unrel_flush f _ _ pk oa bytes sent Hsu (fun b p Hb Hp => proj1 (Hdec b p Hb Hp)) D7 D8)
    as (D7' & D8' & Hunrel & Hgrow).
  constructor.
  - exact (sender_ok_static _ _ _ (fl_static F) D1).
  - intros b p Hin Hp. apply in_app_or in Hin. destruct Hin as [Hin|Hin]; [eauto|].
    destruct (is_rel_packet p) eqn:Hrel; [|now apply (Hunrel b)].
    destruct (Hdec b p Hin Hp) as [Hpk _]. pose proof (proj1 (Forall_forall _ _) (fl_emit F) p Hpk) as Hem.
    apply (emitted_rel_honest c); auto. destruct p; try discriminate; exact (Hem eq_refl).
  - exact D3.
  - rewrite <- (app_nil_r dlv). now apply acks_ok_mono.
  - (* the new packets carry the sequence numbers c_seq c .. c_seq c' - 1, recorded as sent *)
    intros b p Hin Hp. apply in_app_or in Hin. destruct Hin as [Hin|Hin].
    + destruct (D5 b p Hin Hp) as [A B]. split; [lia|].
      intros t info Hf. destruct (fl_old F _ _ Hf) as [Hold|(p2 & Hp2 & Hsq & _)]; [eauto|].
      destruct (Hbounds p2 Hp2) as [Hlo _]. lia.
    + destruct (Hdec b p Hin Hp) as [Hpk _]. destruct (Hbounds p Hpk) as [_ Hhi]. split; [lia|].
      intros t info Hf. rewrite (fl_new F p Hpk) in Hf. congruence.
  - rewrite <- (app_nil_r dlv). apply release_ok_mono. exact (release_ok_static _ _ _ _ _ (fl_static F) D6).
  - exact D7'.
  - exact D8'.
  - intros ch r Hr. destruct (D9 ch r Hr) as [A B]. split; [exact A|].
    intros sid c0 Hc0. destruct (B sid c0 Hc0) as (m & B1 & B2 & B3 & B4 & B5).
    exists m. split; [exact B1|]. split; [exact B2|]. split; [exact B3|].
    split; [now apply Hgrow|now apply sid_used_mono].
  - exact D10.
Qed.

Lemma receiver_ok_update ordf rr sent got got' ch r r' :
  receiver_ok ordf rr sent got -> sm_find ch rr = Some r ->
  (forall c0, c0 <> ch -> log_get got' c0 = log_get got c0) ->
  (forall o, rr_refines (log_get sent ch) (log_get got ch) o r ->
             rr_refines (log_get sent ch) (log_get got' ch) o r') ->
  receiver_ok ordf (sm_insert ch r' rr) sent got'.
Proof.
  intros H Hr Hother Hstep c0. rewrite sm_find_insert. destruct (N.eqb_spec c0 ch) as [->|Hne].
  - specialize (H ch). rewrite Hr in H. destruct H as (o & Ho & Hre). exists o. auto.
  - specialize (H c0). destruct (sm_find c0 rr) as [r0|]; [|exact H].
    destruct H as (o & Ho & Hre). exists o. split; [exact Ho|]. now rewrite Hother.
Qed.

Lemma dinv_recv_rel {ordf sr su seq recs rr ru acks oa ob sent got dlv} ch r r' mo :
  dinv ordf sr su seq recs rr ru acks oa ob sent got dlv ->
  sm_find ch rr = Some r -> rr_receive r = Ok (r', mo) ->
  dinv ordf sr su seq recs (sm_insert ch r' rr) ru acks oa ob sent (got_upd (CRecv ch) (OMsg mo) got) dlv.
Proof.
  intros [D1 D2 D3 D4 D5 D6 D7 D8 D9 D10] Hr E.
  assert (Hstep : forall o, rr_refines (log_get sent ch) (log_get got ch) o r ->
            rr_refines (log_get sent ch) (log_get (got_upd (CRecv ch) (OMsg mo) got) ch) o r').
  { intros o Hre. rewrite got_upd_same.
    destruct (rr_receive_exec (log_get sent ch) r r' mo E) as (outs2 & E2 & Hm). rewrite <- Hm.
    apply (rr_refines_ext _ _ _ r [RRecv] r' outs2); [exact Hre|constructor; [exact I|constructor]|exact E2]. }
  constructor; auto.
  - eapply receiver_ok_update; eauto. intros c0 Hne. now apply got_upd_other.
  - intros c0 m Hin. destruct (N.eq_dec c0 ch) as [->|Hne].
    + specialize (D3 ch). rewrite Hr in D3. destruct D3 as (o & _ & Hre).
      pose proof (rr_refines_outs _ _ _ _ (Hstep o Hre)) as Hall.
      rewrite Forall_forall in Hall. auto.
    + rewrite got_upd_other in Hin by exact Hne. auto.
Qed.

Lemma dinv_recv_unrel {ordf sr su seq recs rr ru acks oa ob sent got dlv} ch r r' mo :
  dinv ordf sr su seq recs rr ru acks oa ob sent got dlv ->
  sm_find ch rr = None -> sm_find ch ru = Some r -> ru_receive r = Ok (r', mo) ->
  dinv ordf sr su seq recs rr (sm_insert ch r' ru) acks oa ob sent (got_upd (CRecv ch) (OMsg mo) got) dlv.
Proof.
  intros [D1 D2 D3 D4 D5 D6 D7 D8 D9 D10] Hnone Hr E.
  destruct (D9 ch r Hr) as [Hmsgs Hctors].
  pose proof (RecvUnrelP.ru_receive_cases r r' mo E) as Hr'.
  constructor; auto.
  - intros c0. specialize (D3 c0). destruct (sm_find c0 rr) as [r0|] eqn:E0; [|exact D3].
    assert (Hne : c0 <> ch) by congruence. now rewrite got_upd_other.
  - intros c0 r0. rewrite sm_find_insert. destruct (N.eqb_spec c0 ch) as [->|Hne]; [|apply D9].
    intros [= <-]. destruct Hr' as [(_ & _ & ->)|(m & t & mem & Em & _ & ->)]; [auto|].
    cbn [ru_with ru_messages ru_slices]. split; [|exact Hctors].
    rewrite Em in Hmsgs. now inversion Hmsgs.
  - intros c0 m Hin. destruct (N.eq_dec c0 ch) as [->|Hne].
    + rewrite got_upd_same in Hin. apply in_app_or in Hin. destruct Hin as [Hin|Hin]; [auto|].
      destruct Hr' as [(_ & -> & _)|(m0 & t & mem & Em & -> & _)]; [destruct Hin|].
      destruct Hin as [<-|[]]. rewrite Em in Hmsgs. now inversion Hmsgs.
    + rewrite got_upd_other in Hin by exact Hne. auto.
Qed.

Lemma dinv_ru_discard ordf sr su seq recs rr ru ru' acks oa ob sent got dlv now0 now :
  dinv ordf sr su seq recs rr ru acks oa ob sent got dlv ->
  Forall (fun e : N * recv_unrel => ru_inv now0 (snd e)) ru -> now0 <= now ->
  discard_all now ru = Ok ru' ->
  dinv ordf sr su seq recs rr ru' acks oa ob sent got dlv.
Proof.
  intros [D1 D2 D3 D4 D5 D6 D7 D8 D9 D10] Hinv Hle E. constructor; auto.
  intros ch r' Hr'. pose proof (discard_all_find now ru ru' E ch) as Hd. rewrite Hr' in Hd. destruct Hd as (r & Hr & Ed).
  pose proof (Forall_sm_find _ _ _ _ Hinv Hr) as Hri. cbn [snd] in Hri.
  destruct (RecvUnrelP.stale_discarded now0 now r r' Hri Hle Ed) as (_ & Hs & _ & Hm & _).
  destruct (D9 ch r Hr) as [A B]. split; [now rewrite Hm|].
  intros sid c Hc. rewrite Hs in Hc. destruct (RecvUnrelP.stale_in now (ru_last r) sid); [discriminate|eauto].
Qed.

(* of what the receiver's flush emits only the Ack packet matters for this direction, and it lists the
   receiver's pending acknowledgements *)
Lemma dinv_rcv_flush ordf d c' bytes :
  dir_ok ordf d -> is_disconnected (d_rcv d) = false -> get_packets_to_send (d_rcv d) = Ok (c', bytes) ->
  Dinv ordf (with_rcv d c' (d_ob d ++ bytes) (d_got d) (d_dlv d)).
Proof.
  intros O Hd E. pose proof (do_inv O) as D.
  destruct (flush_summary _ c' bytes (do_rcv O) (do_u8r O) Hd E) as (c1 & av & pk0 & pk & F).
  unfold Dinv in *. cbn [with_rcv d_snd d_rcv d_oa d_ob d_sent d_got d_dlv]. rewrite (fl_rr F), (fl_ru F), (fl_acks F).
  destruct D as [D1 D2 D3 D4 D5 D6 D7 D8 D9 D10]. constructor; auto.
  destruct D4 as [A B]. split; [exact A|].
  intros b sq rs Hin Hp x Hx. apply in_app_or in Hin. destruct Hin as [Hin|Hin]; [eauto|].
  destruct (fl_decoded F b _ Hin Hp) as [Hpk _].
  destruct (proj1 (Forall_forall _ _) (fl_emit F) _ Hpk) as [-> _]. apply A. exact Hx.
Qed.

Lemma acks_below_seq {ordf sr su seq recs rr ru acks oa ob sent got dlv} :
  dinv ordf sr su seq recs rr ru acks oa ob sent got dlv -> forall x, in_ranges x acks -> x < seq.
Proof.
  intros D x Hx. destruct (di_acks D) as [A _].
  destruct (A x Hx) as (i & b & p & _ & Hn & Hp & <-).
  destruct (di_track D b p (nth_error_In _ _ Hn) Hp) as [Hlt _]. exact Hlt.
Qed.

Lemma dinv_acks_dlv {ordf sr su seq recs rr ru acks} acks' {oa ob sent got dlv} more :
  dinv ordf sr su seq recs rr ru acks oa ob sent got dlv ->
  (forall x, in_ranges x acks' -> in_ranges x acks \/ delivered oa (dlv ++ more) x) ->
  dinv ordf sr su seq recs rr ru acks' oa ob sent got (dlv ++ more).
Proof.
  intros [D1 D2 D3 D4 D5 D6 D7 D8 D9 D10] H. constructor; auto.
  - apply (acks_ok_mono _ _ _ _ [] more) in D4. rewrite app_nil_r in D4. destruct D4 as [A B]. split; [|exact B].
    intros x Hx. destruct (H x Hx); auto.
  - rewrite <- (app_nil_r oa). now apply release_ok_mono.
Qed.

Lemma dinv_rr_update {ordf sr su seq recs rr ru acks oa ob sent got dlv} ch r r' :
  dinv ordf sr su seq recs rr ru acks oa ob sent got dlv -> sm_find ch rr = Some r ->
  (forall o, rr_refines (log_get sent ch) (log_get got ch) o r ->
             rr_refines (log_get sent ch) (log_get got ch) o r') ->
  dinv ordf sr su seq recs (sm_insert ch r' rr) ru acks oa ob sent got dlv.
Proof.
  intros [D1 D2 D3 D4 D5 D6 D7 D8 D9 D10] Hr Hstep. constructor; auto.
  eapply receiver_ok_update; eauto.
Qed.

(* unrel_rcv_ok ru oa sent is: ru_ok_one oa sent ch r whenever sm_find ch ru = Some r *)
Definition ctor_good (oa : list (list N)) (sent : chan_log) (ch sid : N) (c : sctor) : Prop :=
  exists m, In m (log_get sent ch) /\ SLICE_SIZE < len m /\ ctor_ok' m c /\ sid_is oa ch sid m /\
            sid_used oa ch sid.

Definition ru_ok_one (oa : list (list N)) (sent : chan_log) (ch : N) (r : recv_unrel) : Prop :=
  Forall (fun m => In m (log_get sent ch)) (ru_messages r) /\
  forall sid c, sm_find sid (ru_slices r) = Some c -> ctor_good oa sent ch sid c.

Lemma dinv_ru_update {ordf sr su seq recs rr ru acks oa ob sent got dlv} ch r r' :
  dinv ordf sr su seq recs rr ru acks oa ob sent got dlv -> sm_find ch ru = Some r ->
  (ru_ok_one oa sent ch r -> ru_ok_one oa sent ch r') ->
  dinv ordf sr su seq recs rr (sm_insert ch r' ru) acks oa ob sent got dlv.
Proof.
  intros [D1 D2 D3 D4 D5 D6 D7 D8 D9 D10] Hr Hstep. constructor; auto.
  intros c0 r0. rewrite sm_find_insert. destruct (N.eqb_spec c0 ch) as [->|Hne]; [|apply D9].
  intros [= <-]. apply Hstep. exact (D9 ch r Hr).
Qed.

Lemma process_unrel_msgs_ok oa sent ch ms r :
  Forall (fun m => In m (log_get sent ch)) ms -> ru_ok_one oa sent ch r ->
  ru_ok_one oa sent ch (process_unrel_msgs r ms).
Proof.
  intros F [A B]. destruct (process_unrel_msgs_spec ms r) as (kept & S & Em & Es).
  unfold ru_ok_one. rewrite Em, Es. split; [|exact B].
  apply Forall_app. split; [exact A|exact (SendUnrelP.subseq_Forall _ _ _ S F)].
Qed.

(* the message a slice packet of the wire stands for: a logged one, and if a constructor is open for the
   packet's id, that constructor holds slices of this message *)
Lemma slice_msg oa sent ch r bytes sq sl :
  ru_ok_one oa sent ch r -> unrel_out_ok oa sent ->
  In bytes oa -> from_bytes bytes = Ok (UnreliableSlice sq ch sl) ->
  exists m, In m (log_get sent ch) /\ SLICE_SIZE < len m /\ sl_index sl < num_slices_of m /\
    sid_is oa ch (sl_id sl) m /\ sl = slice_of m (sl_id sl) (sl_index sl) /\
    forall c, sm_find (sl_id sl) (ru_slices r) = Some c -> ctor_ok' m c.
Proof.
  intros [_ Hctors] Hout Hin Hp. destruct (Hout bytes sq ch sl Hin Hp) as (m & Hm & Hl & Hidx & Hsid).
  destruct (sm_find (sl_id sl) (ru_slices r)) as [c|] eqn:Ec.
  - destruct (Hctors _ _ Ec) as (m' & Hm' & Hl' & Hok' & Hsid' & _). exists m'.
    pose proof (f_equal sl_num (Hsid bytes sq sl Hin Hp eq_refl)) as E1.
    pose proof (f_equal sl_num (Hsid' bytes sq sl Hin Hp eq_refl)) as E2. cbn [slice_of sl_num] in E1, E2.
    split; [exact Hm'|]. split; [exact Hl'|]. split; [congruence|]. split; [exact Hsid'|].
    split; [exact (Hsid' bytes sq sl Hin Hp eq_refl)|]. intros c1 [= <-]. exact Hok'.
  - exists m. split; [exact Hm|]. split; [exact Hl|]. split; [exact Hidx|]. split; [exact Hsid|].
    split; [exact (Hsid bytes sq sl Hin Hp eq_refl)|discriminate].
Qed.

Lemma ru_process_slice_ok oa sent ch r now bytes sq sl r' :
  ru_inv now r -> ru_ok_one oa sent ch r -> unrel_out_ok oa sent ->
  In bytes oa -> from_bytes bytes = Ok (UnreliableSlice sq ch sl) ->
  ru_process_slice r sl now = Ok r' -> ru_ok_one oa sent ch r'.
Proof.
  intros Hinv Hone Hout Hin Hp E.
  destruct (slice_msg oa sent ch r bytes sq sl Hone Hout Hin Hp) as (m & Hm & Hl & Hidx & Hsid & Hsl & Hc).
  destruct Hone as [Hmsgs Hctors]. pose proof (RecvUnrelP.ru_inv_tbl now r Hinv) as [_ A].
  rewrite Hsl in E.
  destruct (RecvUnrelP.ru_process_slice_honest now r _ _ m r' Hinv Hl Hidx Hc E)
    as [->|[(E1 & E2 & _)|(c' & E1 & E2 & _ & O' & _)]]; [split; assumption| |]; split; rewrite ?E1, ?E2.
  - apply Forall_app. split; [exact Hmsgs|constructor; [exact Hm|constructor]].
  - intros k c0 Hk. apply (sm_find_remove_some _ _ _ _ A) in Hk. destruct Hk as [_ Hk]. eauto.
  - exact Hmsgs.
  - intros k c0. rewrite sm_find_insert. destruct (N.eqb_spec k (sl_id sl)) as [->|Hne]; [|eauto].
    intros [= <-]. exists m. split; [exact Hm|]. split; [exact Hl|]. split; [exact O'|]. split; [exact Hsid|].
    exists bytes, sq, sl. auto.
Qed.

Lemma delivered_here oa dlv i bytes p :
  nth_error oa i = Some bytes -> from_bytes bytes = Ok p -> delivered oa (dlv ++ [i]) (packet_seq p).
Proof.
  intros Hn Hp. exists i, bytes, p. split; [apply in_or_app; right; now left|auto].
Qed.

Lemma dinv_fwd ordf d i bytes c' :
  dir_ok ordf d -> nth_error (d_oa d) i = Some bytes -> process_packet (d_rcv d) bytes = Ok c' ->
  Dinv ordf (with_rcv d c' (d_ob d) (d_got d) (if is_disconnected (d_rcv d) then d_dlv d else d_dlv d ++ [i])).
Proof.
  destruct d as [cs c oa ob sent got dlv]. intros O Hn E.
  pose proof (do_rcv O) as Hi. pose proof (do_wfa O) as Hw. pose proof (do_inv O) as D.
  unfold Dinv in *. cbn [with_rcv d_snd d_rcv d_oa d_ob d_sent d_got d_dlv] in *.
  assert (Hin : In bytes oa) by (eapply nth_error_In; eauto).
  destruct (process_packet_cases _ _ _ E) as [(st & _ & ->)|(p & Hd & Hp & PS)].
  { cbn [set_status c_rr c_ru c_acks]. destruct (is_disconnected c); [exact D|]. eapply dinv_acks_dlv; eauto. }
  rewrite Hd. pose proof (Hw bytes p Hin Hp) as Hwf. pose proof (inv_note_seq c p Hi Hwf) as Hi1.
  (* the sequence number noted for acknowledgement is that of the packet delivered just now *)
  assert (Hsound : forall x, in_ranges x (c_acks (note_seq c (packet_seq p))) ->
            in_ranges x (c_acks c) \/ delivered oa (dlv ++ [i]) x).
  { intros x Hx. apply (note_seq_sound c _ x Hi) in Hx.
    destruct Hx as [->|Hx]; [right; eapply delivered_here; eauto|now left]. }
  pose proof (dinv_acks_dlv _ [i] D Hsound) as D0.
  pose proof (di_out D bytes p Hin Hp) as Hhon.
  change (c_rr c) with (c_rr (note_seq c (packet_seq p))) in D0.
  change (c_ru c) with (c_ru (note_seq c (packet_seq p))) in D0.
  remember (note_seq c (packet_seq p)) as c1 eqn:Ec1.
  destruct PS as [p r _|sq ch ms r r' Hr Epm|sq ch ms r Hr|sq ch sl r r' Hr Eps|sq ch sl r r' Hr Eps|sq rs l c' El Ea];
    cbn [pkt_honest] in Hhon.
  - exact D0.
  - apply (dinv_rr_update ch r r' D0 Hr).
    intros o Hre. apply (rr_refines_ext0 _ _ _ r (map (fun im => RSmall (fst im)) ms) r');
      [exact Hre|apply small_events_ok; exact Hhon|].
    intros outs. apply process_rel_msgs_exec; [exact Hhon|exact Epm].
  - apply (dinv_ru_update ch r _ D0 Hr). now apply process_unrel_msgs_ok.
  - apply (dinv_rr_update ch r r' D0 Hr).
    intros o Hre. eapply rr_refines_ext0; [exact Hre|constructor; [exact (slice_event_ok _ _ Hhon)|constructor]|].
    intros outs. now apply process_slice_exec.
  - apply (dinv_ru_update ch r r' D0 Hr).
    intros Hone. eapply ru_process_slice_ok; eauto.
    + apply (inv_find_ru _ ch r Hi1 Hr).
    + exact (di_uout D).
  - (* an Ack leaves the receive channels alone and adds no pending acknowledgement *)
    destruct (process_ack_spec c1 rs l c' Hi1 (packet_wf_ack_ranges _ _ Hwf) El Ea) as (_ & _ & Hacks).
    pose proof (apply_acks_frame _ _ _ Ea) as F. rewrite (af_ru F), (af_rr F). subst c1.
    eapply dinv_acks_dlv; [exact D|]. intros x Hx. apply Hsound. now apply Hacks.
Qed.

Definition rec_delivered (oa : list (list N)) (dlv : list nat) (sent : chan_log) (info : sent_info) : Prop :=
  exists i bytes p, In i dlv /\ nth_error oa i = Some bytes /\ from_bytes bytes = Ok p /\
                    pkt_info p = info /\ pkt_honest sent p.

Lemma sender_ok_acked sr sr' sent info : sr_acked sr sr' info -> sender_ok sr sent -> sender_ok sr' sent.
Proof.
  intros Hack D1 ch sa' Hf'. specialize (Hack ch). destruct (sm_find ch sr) as [s|] eqn:Es; [|congruence].
  destruct Hack as (s' & E' & Hnx & Hk). rewrite Hf' in E'. injection E' as <-.
  destruct (D1 ch s Es) as [A B]. split; [congruence|].
  intros id u' Hu'. destruct (Hk id) as ([K1|K1] & _); [congruence|].
  unfold st_of in K1. rewrite Hu' in K1.
  destruct (sm_find id (sr_unacked s)) as [u|] eqn:Eu; [|discriminate].
  injection K1 as K1. rewrite (B id u Eu), !unacked_msg_static, K1. reflexivity.
Qed.

Lemma ack_step_pres sr sr' now sent oa dlv info :
  Forall (fun e : N * send_rel => sr_inv now (snd e)) sr ->
  sr_acked sr sr' info -> rec_delivered oa dlv sent info ->
  sender_ok sr sent -> release_ok sr sent oa dlv ->
  sender_ok sr' sent /\ release_ok sr' sent oa dlv.
Proof.
  intros Hinv Hack (i & bytes & p & Hi & Hn & Hp & Hinfo & Hhon) D1 D6.
  split; [exact (sender_ok_acked _ _ _ _ Hack D1)|].
  intros ch sa' Hf' id m Hat. specialize (Hack ch). destruct (sm_find ch sr) as [s|] eqn:Es; [|congruence].
  destruct Hack as (s' & E' & Hnx & Hk). rewrite Hf' in E'. injection E' as <-.
  destruct (D6 ch s Es id m Hat) as [A B]. destruct (D1 ch s Es) as [_ Hmsgs].
  pose proof (Forall_sm_find _ _ _ _ Hinv Es) as Hsi. cbn [snd] in Hsi.
  destruct (Hk id) as (_ & K2 & K3). split.
  - intros Hkn. destruct (kind_of s id) as [k|] eqn:Eks; [|auto].
    assert (Hrel : released_by s ch id info) by (apply K2; [discriminate|exact Hkn]).
    destruct info as [|c ids|c i0 idx|l]; cbn [released_by] in Hrel; try contradiction.
    + destruct Hrel as [-> Hin].
      destruct p as [sq ch0 ms|sq ch0 ms|sq ch0 sl|sq ch0 sl|sq rs]; cbn [pkt_info] in Hinfo; try discriminate.
      injection Hinfo as -> <-. cbn [pkt_honest] in Hhon.
      apply in_map_iff in Hin. destruct Hin as ([id' m'] & Hfst & Hin'). cbn [fst] in Hfst. subst id'.
      rewrite Forall_forall in Hhon. destruct (Hhon _ Hin') as [Hat' Hlen']. cbn [fst snd] in *.
      rewrite Hat in Hat'. injection Hat' as <-.
      unfold all_delivered. destruct (N.leb_spec (len m) SLICE_SIZE); [|lia].
      exists i, bytes. split; [exact Hi|]. split; [exact Hn|]. exists sq, ms. split; [exact Hp|].
      apply in_map_iff. exists (id, m). auto.
    + destruct Hrel as (-> & -> & num & Hknum & Hall).
      destruct p as [sq ch0 ms|sq ch0 ms|sq ch0 sl|sq ch0 sl|sq rs]; cbn [pkt_info] in Hinfo; try discriminate.
      injection Hinfo as -> Hid Hix. cbn [pkt_honest] in Hhon.
      destruct Hhon as (m' & Hat' & Hlen' & _). rewrite Hid, Hat in Hat'. injection Hat' as <-.
      assert (Hnum : num = num_slices_of m).
      { rewrite SendRelP.kind_of_st in Hknum.
        destruct (st_of (sr_unacked s) id) as [[m0 [n|]]|] eqn:Est; try discriminate.
        injection Hknum as ->. destruct (st_of_find _ _ _ _ _ Hsi Est) as (u & Eu & <- & -> & _).
        specialize (Hmsgs id u Eu). congruence. }
      unfold all_delivered. destruct (N.leb_spec (len m) SLICE_SIZE); [lia|].
      intros j Hj. destruct (N.eq_dec j idx) as [->|Hne].
      * exists i, bytes. split; [exact Hi|]. split; [exact Hn|]. exists sq, sl. auto.
      * apply B. apply Hall; [lia|exact Hne].
  - intros idx Hidx. destruct (K3 idx Hidx) as [Hold|Hnew]; [auto|]. rewrite Hnew in Hinfo.
    destruct p as [sq ch0 ms|sq ch0 ms|sq ch0 sl|sq ch0 sl|sq rs]; cbn [pkt_info] in Hinfo; try discriminate.
    injection Hinfo as -> Hid Hix.
    exists i, bytes. split; [exact Hi|]. split; [exact Hn|]. exists sq, sl. auto.
Qed.

Lemma apply_acks_pres sent oa dlv seqs c c' : conn_inv c -> NoDup seqs ->
  Forall (fun s => sm_mem s (c_sent c) = true) seqs ->
  (forall s t info, In s seqs -> sm_find s (c_sent c) = Some (t, info) -> rec_delivered oa dlv sent info) ->
  apply_acks c seqs = Ok c' ->
  sender_ok (c_sr c) sent -> release_ok (c_sr c) sent oa dlv ->
  sender_ok (c_sr c') sent /\ release_ok (c_sr c') sent oa dlv.
Proof.
  intros Hi Hnd Hmem Hall E. revert Hall.
  refine (apply_acks_ok_ind (fun seqs c c' =>
    (forall s t info, In s seqs -> sm_find s (c_sent c) = Some (t, info) -> rec_delivered oa dlv sent info) ->
    sender_ok (c_sr c) sent -> release_ok (c_sr c) sent oa dlv ->
    sender_ok (c_sr c') sent /\ release_ok (c_sr c') sent oa dlv) _ _ seqs c c' Hi Hnd Hmem E); [auto|].
  clear. intros seq t c tm info c1 c' Hi Hnotin Hf Ak Hi1 _ Hack1 IH Hall D1 D6.
  assert (Hsr : Forall (fun e : N * send_rel => sr_inv (c_now c) (snd e)) (c_sr c)).
  { eapply Forall_impl; [|exact (ci_sr c Hi)]. intros e [A _]. exact A. }
  destruct (ack_step_pres _ _ _ _ _ _ _ Hsr Hack1 (Hall seq tm info (or_introl eq_refl) Hf) D1 D6) as [D1' D6'].
  apply IH; auto. intros s ts is Hs Hfs. apply (Hall s ts is (or_intror Hs)).
  rewrite (ack_step_sent _ _ _ _ Ak) in Hfs. exact (proj2 (sm_find_remove_some _ _ _ _ (ci_sent_sorted c Hi) Hfs)).
Qed.

Lemma acked_rec_delivered acks ob oa dlv seq recs sent bytes sq rs s t info :
  acks_ok acks ob oa dlv -> track_ok oa seq recs -> out_ok oa sent ->
  In bytes ob -> from_bytes bytes = Ok (Ack sq rs) -> in_ranges s rs -> sm_find s recs = Some (t, info) ->
  rec_delivered oa dlv sent info.
Proof.
  intros [_ D4] D5 D2 Hin Hp Hrange Hf.
  destruct (D4 bytes sq rs Hin Hp s Hrange) as (i & b & p & Hi0 & Hn & Hpb & Hseq).
  assert (Hb : In b oa) by (eapply nth_error_In; eauto).
  destruct (D5 b p Hb Hpb) as [_ Hrec]. rewrite Hseq in Hrec.
  exists i, b, p. split; [exact Hi0|]. split; [exact Hn|]. split; [exact Hpb|].
  split; [symmetry; eapply Hrec; exact Hf|eauto].
Qed.

Lemma dinv_ack {ordf} c1 bytes sq rs l c' {rr ru acks oa ob sent got dlv} :
  conn_inv c1 -> In bytes ob -> from_bytes bytes = Ok (Ack sq rs) -> packet_wf (Ack sq rs) ->
  collect_new_acks rs (c_sent c1) = Ok l -> apply_acks c1 l = Ok c' ->
  dinv ordf (c_sr c1) (c_su c1) (c_seq c1) (c_sent c1) rr ru acks oa ob sent got dlv ->
  dinv ordf (c_sr c') (c_su c') (c_seq c') (c_sent c') rr ru acks oa ob sent got dlv.
Proof.
  intros Hi1 Hin Hp Hwf El Ea [D1 D2 D3 D4 D5 D6 D7 D8 D9 D10].
  pose proof (packet_wf_ack_ranges _ _ Hwf) as Hrs.
  destruct (collect_new_acks_sent c1 rs l Hi1 Hrs El) as (Hnd & Hmem & Hl).
  destruct (apply_acks_spec l c1 c' Hi1 Hnd Hmem Ea) as (_ & Hsent & _).
  pose proof (apply_acks_frame _ _ _ Ea) as F.
  assert (Hall : forall s t info, In s l -> sm_find s (c_sent c1) = Some (t, info) -> rec_delivered oa dlv sent info).
  { intros s t info Hs Hf. apply Hl in Hs. destruct Hs as [_ Hrange].
    exact (acked_rec_delivered _ _ _ _ _ _ _ bytes sq rs s t info D4 D5 D2 Hin Hp Hrange Hf). }
  destruct (apply_acks_pres sent oa dlv l c1 c' Hi1 Hnd Hmem Hall Ea D1 D6) as [D1' D6'].
  rewrite (af_seq F), (af_su F).
  constructor; auto.
  eapply track_ok_sub; [|apply N.le_refl|exact D5]. exact Hsent.
Qed.

(* of the packets of the receiver only an Ack packet changes what this direction reads of the sender *)
Lemma dinv_back ordf d i bytes c' :
  dir_ok ordf d -> nth_error (d_ob d) i = Some bytes -> process_packet (d_snd d) bytes = Ok c' ->
  Dinv ordf (with_snd d c' (d_oa d) (d_sent d)).
Proof.
  intros O En Ep. pose proof (do_snd O) as Hi. pose proof (do_wfb O) as Hwb. pose proof (do_inv O) as D.
  unfold Dinv in *. cbn [with_snd d_snd d_rcv d_oa d_ob d_sent d_got d_dlv].
  assert (Hin : In bytes (d_ob d)) by (eapply nth_error_In; eauto).
  destruct (process_packet_cases _ _ _ Ep) as [(st & _ & ->)|(p & Hd & Hp & PS)]; [exact D|]. clear Ep.
  pose proof (Hwb bytes p Hin Hp) as Hwf. pose proof (inv_note_seq _ p Hi Hwf) as Hi1.
  remember (note_seq (d_snd d) (packet_seq p)) as c1 eqn:Ec1.
  destruct PS as [p r _| | | | |sq rs l c' El Ea]; subst c1; try exact D.
  - exact (dinv_ack _ bytes sq rs l c' Hi1 Hin Hp Hwf El Ea D).
Qed.

Lemma api_outs c op c' out : cstep c op = Ok (c', out) ->
  outs_of out = [] \/ (is_disconnected c = false /\ get_packets_to_send c = Ok (c', outs_of out)).
Proof. intros E. destruct (cstep_inv c op c' out E); auto using outs_idle. Qed.

Lemma chans_u8_same c c' : same_channels c c' -> chans_u8 c -> chans_u8 c'.
Proof. intros H Hu ch Hch. apply Hu. destruct (H ch) as (A1 & A2 & _). rewrite <- A1, <- A2. exact Hch. Qed.

Lemma same_channels_rr_none c c' ch : same_channels c c' -> sm_find ch (c_rr c') = None -> sm_find ch (c_rr c) = None.
Proof.
  intros H Hf. destruct (H ch) as (_ & _ & A3 & _). apply sm_find_none_mem. rewrite <- A3. now apply sm_find_none_mem.
Qed.

(* out_wf, out_ok and small_out_ok all say that every packet of the output that decodes satisfies Q *)
Lemma out_all_app (Q : packet -> Prop) (out more : list (list N)) :
  (forall b p, In b out -> from_bytes b = Ok p -> Q p) -> (forall b p, In b more -> from_bytes b = Ok p -> Q p) ->
  forall b p, In b (out ++ more) -> from_bytes b = Ok p -> Q p.
Proof. intros H1 H2 b p Hin Hp. apply in_app_or in Hin. destruct Hin; eauto. Qed.

Lemma out_all_nil (Q : packet -> Prop) : forall (b : list N) p, In b [] -> from_bytes b = Ok p -> Q p.
Proof. intros b p []. Qed.

Lemma out_wf_nil : out_wf [].
Proof. exact (out_all_nil packet_wf). Qed.

Lemma api_side_ok c op c' out o :
  conn_inv c -> chans_u8 c -> out_wf o -> is_process op = false -> cstep c op = Ok (c', out) ->
  conn_inv c' /\ chans_u8 c' /\ out_wf (o ++ outs_of out).
Proof.
  intros Hi Hu8 Hw Hnp E. split; [|split].
  - apply (conn_step_keeps_inv c op c' out Hi); [|now apply cstep_inv]. intros b p ->. discriminate Hnp.
  - exact (chans_u8_same _ _ (cstep_channels c op c' out Hi E) Hu8).
  - refine (out_all_app packet_wf _ _ Hw _). destruct (api_outs c op c' out E) as [->|[Hd Eg]]; [apply out_wf_nil|].
    destruct (flush_summary c c' _ Hi Hu8 Hd Eg) as (c1 & av & pk0 & pk & F).
    intros b p Hin Hp. now destruct (fl_decoded F b p Hin Hp).
Qed.

Lemma deliver_side_ok c bytes c' :
  conn_inv c -> chans_u8 c -> (forall p, from_bytes bytes = Ok p -> packet_wf p) -> process_packet c bytes = Ok c' ->
  conn_inv c' /\ chans_u8 c'.
Proof.
  intros Hi Hu8 Hw Ep. apply process_packet_step in Ep. split.
  - apply (conn_step_keeps_inv c (CProcess bytes) c' ONone Hi); [|exact Ep]. intros b p [= <-]. apply Hw.
  - exact (chans_u8_same _ _ (conn_step_channels _ _ _ _ Hi Ep) Hu8).
Qed.

(* what a system step is for one direction: nothing, an API call of the sender (T1-T3) or of the receiver
   (T4-T6), a packet of the sender handed to the receiver (T7), a packet of the receiver handed to the
   sender (T8) *)
Inductive dstep (d : dir) : dir -> Prop :=
| DS_skip : dstep d d
| DS_snd op c' out : is_process op = false -> cstep (d_snd d) op = Ok (c', out) ->
    dstep d (with_snd d c' (d_oa d ++ outs_of out) (sent_upd (d_snd d) c' op (d_sent d)))
| DS_rcv op c' out : is_process op = false -> cstep (d_rcv d) op = Ok (c', out) ->
    dstep d (with_rcv d c' (d_ob d ++ outs_of out) (got_upd op out (d_got d)) (d_dlv d))
| DS_fwd i bytes c' : nth_error (d_oa d) i = Some bytes -> process_packet (d_rcv d) bytes = Ok c' ->
    dstep d (with_rcv d c' (d_ob d) (d_got d) (if is_disconnected (d_rcv d) then d_dlv d else d_dlv d ++ [i]))
| DS_back i bytes c' : nth_error (d_ob d) i = Some bytes -> process_packet (d_snd d) bytes = Ok c' ->
    dstep d (with_snd d c' (d_oa d) (d_sent d)).

(* the one place where the symmetry A <-> B of sys_step (sys_step_flip_ok) is used *)
Lemma sys_step_dir s o s' :
  sys_step s o = Ok s' -> dstep (dir_ab s) (dir_ab s') /\ dstep (dir_ab (flip s)) (dir_ab (flip s')).
Proof.
  assert (H : forall s o s', sys_step s o = Ok s' -> dstep (dir_ab s) (dir_ab s')).
  { clear. intros s o s' E.
    destruct (sys_step_inv s o s' E) as [o|[] op c' out Hnp Ec|i bytes c' En Ep|i bytes c' En Ep].
    - constructor.
    - exact (DS_snd (dir_ab s) op c' out Hnp Ec).
    - exact (DS_rcv (dir_ab s) op c' out Hnp Ec).
    - exact (DS_back (dir_ab s) i bytes c' En Ep).
    - exact (DS_fwd (dir_ab s) i bytes c' En Ep). }
  intros E. split; [exact (H s o s' E)|exact (H _ _ _ (sys_step_flip_ok s o s' E))].
Qed.

Lemma dinv_snd ordf d op c' out :
  dir_ok ordf d -> is_process op = false -> cstep (d_snd d) op = Ok (c', out) ->
  Dinv ordf (with_snd d c' (d_oa d ++ outs_of out) (sent_upd (d_snd d) c' op (d_sent d))).
Proof.
  intros O Hnp Ec. pose proof (do_snd O) as Hi. pose proof (do_inv O) as D.
  unfold Dinv in *. cbn [with_snd d_snd d_rcv d_oa d_ob d_sent d_got d_dlv].
  destruct (cstep_inv _ op c' out Ec)
    as [op st S|ch m s s' Hd Hs Es|ch m s Hd Hs Hsu|ch r r' mo _ Hr0 Er|ch r r' mo _ Hr0 Hru Er
       |dt ru1 sent1 Hru Hdl|c' bytes Hd Eg|b p c' _ _ _]; cbn [outs_of]; rewrite ?app_nil_r; try exact D.
  - rewrite outs_idle, app_nil_r, (sent_upd_status _ _ _ _ S). exact D.
  - rewrite sent_upd_send by exact Hd. eapply dinv_send_rel; eauto.
  - rewrite sent_upd_send by exact Hd. eapply dinv_send_unrel; eauto.
  - exact (dinv_recs_sub _ (drop_lost_sub _ dt sent1 Hi Hdl) D).
  - exact (dinv_flush ordf d c' bytes O Hd Eg).
  - discriminate Hnp.
Qed.

Lemma dinv_rcv ordf d op c' out :
  dir_ok ordf d -> is_process op = false -> cstep (d_rcv d) op = Ok (c', out) ->
  Dinv ordf (with_rcv d c' (d_ob d ++ outs_of out) (got_upd op out (d_got d)) (d_dlv d)).
Proof.
  intros O Hnp Ec. pose proof (do_rcv O) as Hr. pose proof (do_inv O) as D.
  unfold Dinv in *. cbn [with_rcv d_snd d_rcv d_oa d_ob d_sent d_got d_dlv].
  destruct (cstep_inv _ op c' out Ec)
    as [op st S|ch m s s' Hd Hs Es|ch m s Hd Hs Hsu|ch r r' mo _ Hr0 Er|ch r r' mo _ Hr0 Hru Er
       |dt ru1 sent1 Hru Hdl|c' bytes Hd Eg|b p c' _ _ _]; cbn [outs_of]; rewrite ?app_nil_r; try exact D.
  - rewrite outs_idle, app_nil_r, got_upd_idle. exact D.
  - exact (dinv_recv_rel ch r r' mo D Hr0 Er).
  - exact (dinv_recv_unrel ch r r' mo D Hr0 Hru Er).
  - eapply dinv_ru_discard; [exact D|exact (ci_ru _ Hr)| |exact Hru]. lia.
  - exact (dinv_rcv_flush ordf d c' bytes O Hd Eg).
  - discriminate Hnp.
Qed.

Lemma dir_ok_step ordf d d' : dir_ok ordf d -> dstep d d' -> dir_ok ordf d'.
Proof.
  intros O S. pose proof O as [Hi Hr Hu Hur Hw Hwb _].
  destruct S as [|op c' out Hnp Ec|op c' out Hnp Ec|i bytes c' En Ep|i bytes c' En Ep].
  - exact O.
  - pose proof (dinv_snd ordf d op c' out O Hnp Ec) as D'.
    destruct (api_side_ok _ _ _ _ _ Hi Hu Hw Hnp Ec) as (A & B & C). constructor; assumption.
  - pose proof (dinv_rcv ordf d op c' out O Hnp Ec) as D'.
    destruct (api_side_ok _ _ _ _ _ Hr Hur Hwb Hnp Ec) as (A & B & C). constructor; assumption.
  - pose proof (dinv_fwd ordf d i bytes c' O En Ep) as D'. apply nth_error_In in En.
    destruct (deliver_side_ok _ _ _ Hr Hur (fun p => Hw bytes p En) Ep) as [A B]. constructor; assumption.
  - pose proof (dinv_back ordf d i bytes c' O En Ep) as D'. apply nth_error_In in En.
    destruct (deliver_side_ok _ _ _ Hi Hu (fun p => Hwb bytes p En) Ep) as [A B]. constructor; assumption.
Qed.

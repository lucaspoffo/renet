(* RecvRelP.v - ReceiveChannelReliable: safety under hostile input, memory accounting,
   and functional correctness under an honest sender and any network schedule. *)
From RenetV Require Import Base Consts Varint Packet Channels RecvSpec SMapP SliceP BaseP.
Require Import Lia Permutation.
Open Scope N_scope.

Local Notation MaxMem := ReliableChannelMaxMemoryReached.

Local Notation mb := (fun m : list N => len m).

Lemma mb_insert id m ms : asc (map fst ms) ->
  msgs_bytes (sm_insert id m ms) + fopt mb (sm_find id ms) = msgs_bytes ms + len m.
Proof. exact (vsum_insert mb id m ms). Qed.
Lemma mb_remove id ms : msgs_bytes (sm_remove id ms) + fopt mb (sm_find id ms) = msgs_bytes ms.
Proof. exact (vsum_remove mb id ms). Qed.

Lemma rr_inv_tbl r : rr_inv r -> tbl_ok (rr_slices r).
Proof. intros (_ & _ & I3 & I4 & _). exact (conj I3 I4). Qed.

Definition mode (r : recv_rel) : bool :=
  match rr_order r with Ordered => true | Unordered _ _ => false end.

Lemma mode_ordered r : mode r = true <-> rr_order r = Ordered.
Proof. unfold mode. destruct (rr_order r); split; intros H; [reflexivity|reflexivity|discriminate|discriminate]. Qed.

Lemma mode_unordered r : mode r = false <-> exists mr rcv, rr_order r = Unordered mr rcv.
Proof.
  unfold mode. destruct (rr_order r) as [|mr rcv]; split; intros H; [discriminate| |eauto|reflexivity].
  destruct H as (mr & rcv & H). discriminate.
Qed.

(* the `most_recent` field (Unordered mode) is written but never read: nothing below depends on it *)
Definition set_mr (r : recv_rel) (x : N) : recv_rel :=
  match rr_order r with
  | Ordered => r
  | Unordered _ rcv => rr_with r (rr_slices r) (rr_messages r) (rr_oldest r) (Unordered x rcv) (rr_mem r)
  end.

Lemma rr_seen_set_mr r x k : rr_seen (set_mr r x) k = rr_seen r k.
Proof. destruct r as [sl ms old [|mr rcv] mem mx]; reflexivity. Qed.

Lemma rr_inv_set_mr r x : rr_inv r -> rr_inv (set_mr r x) /\ rr_max (set_mr r x) = rr_max r.
Proof. destruct r as [sl ms old [|mr rcv] mem mx]; intros H; exact (conj H eq_refl). Qed.

Theorem rr_inv_init : forall max ordered, rr_inv (recv_rel_new max ordered).
Proof.
  intros max ordered. unfold rr_inv, recv_rel_new.
  cbn [rr_slices rr_messages rr_oldest rr_order rr_mem rr_max map].
  split; [reflexivity|]. split; [lia|]. split; [constructor|]. split; [exact I|]. split; [exact I|].
  destruct ordered; [exact I|]. split; [exact I|]. intros id H. discriminate.
Qed.

Definition ord_add (o : rorder) (id : N) : rorder :=
  match o with
  | Ordered => Ordered
  | Unordered mr rcv => Unordered (if mr <? id then id else mr) (ss_insert id rcv)
  end.

Definition rr_accept (r : recv_rel) (m : list N) (id : N) : recv_rel :=
  rr_with r (rr_slices r) (sm_insert id m (rr_messages r)) (rr_oldest r)
          (ord_add (rr_order r) id) (rr_mem r + len m).

Lemma rr_pm_unseen r m id : rr_seen r id = false ->
  rr_process_message r m id =
    if rr_max r <? rr_mem r + len m then Err MaxMem else Ok (rr_accept r m id).
Proof.
  unfold rr_seen, rr_process_message, rr_accept. intros H.
  apply orb_false_iff in H. destruct H as [H1 H2]. rewrite H1.
  destruct (rr_order r); cbn [ord_add]; rewrite H2; reflexivity.
Qed.

Lemma rr_pm_seen r m id : rr_seen r id = true ->
  exists x, rr_process_message r m id = Ok (set_mr r x).
Proof.
  intros H. destruct r as [sl ms old [|mr rcv] mem mx]; unfold rr_seen, rr_process_message, set_mr in *;
    cbn [rr_slices rr_messages rr_oldest rr_order rr_mem rr_max] in *; cbv zeta.
  - exists 0. destruct (id <? old); [reflexivity|]. cbn [orb] in H. rewrite H. reflexivity.
  - destruct (id <? old); [exists mr; reflexivity|]. cbn [orb] in H. rewrite H. eexists. reflexivity.
Qed.

Lemma mode_accept r m id : mode (rr_accept r m id) = mode r.
Proof. unfold mode, rr_accept. cbn [rr_with rr_order]. destruct (rr_order r); reflexivity. Qed.

Lemma unseen_not_msg r id : rr_inv r -> rr_seen r id = false -> sm_mem id (rr_messages r) = false.
Proof.
  intros (_ & _ & _ & _ & _ & I6) H.
  destruct (sm_mem id (rr_messages r)) eqn:E; [|reflexivity].
  unfold rr_seen in *. destruct (rr_order r).
  - rewrite E, orb_true_r in H. discriminate.
  - destruct I6 as [_ B]. specialize (B id E). congruence.
Qed.

Lemma msg_seen r id : rr_inv r -> sm_mem id (rr_messages r) = true -> rr_seen r id = true.
Proof.
  intros Hinv H. destruct (rr_seen r id) eqn:E; [reflexivity|].
  rewrite (unseen_not_msg r id Hinv E) in H. discriminate.
Qed.

Lemma rr_seen_accept r m id k : rr_seen (rr_accept r m id) k = (k =? id) || rr_seen r k.
Proof.
  unfold rr_seen, rr_accept, rr_with. cbn [rr_oldest rr_order rr_messages].
  destruct (rr_order r); cbn [ord_add].
  - rewrite sm_mem_insert. destruct (k <? rr_oldest r), (k =? id); reflexivity.
  - rewrite ss_mem_insert. destruct (k <? rr_oldest r), (k =? id); reflexivity.
Qed.

Lemma rr_inv_accept r m id : rr_inv r -> rr_seen r id = false -> rr_mem r + len m <= rr_max r ->
  rr_inv (rr_accept r m id).
Proof.
  intros Hinv Hs Hmax. pose proof (unseen_not_msg r id Hinv Hs) as Hnm.
  pose proof (rr_seen_accept r m id) as Hseen.
  destruct Hinv as (I1 & I2 & I3 & I4 & I5 & I6).
  pose proof (mb_insert id m _ I5) as E. apply sm_find_none_mem in Hnm. rewrite Hnm in E. cbn [fopt] in E.
  unfold rr_inv. unfold rr_accept, rr_with in *.
  cbn [rr_slices rr_messages rr_oldest rr_order rr_mem rr_max] in *.
  split; [lia|]. split; [exact Hmax|]. split; [exact I3|]. split; [exact I4|].
  split; [apply asc_sm_insert; exact I5|].
  destruct (rr_order r) as [|mr rcv]; cbn [ord_add] in *; [exact I|].
  destruct I6 as [A B]. split; [apply asc_ss_insert; exact A|].
  intros k Hk. rewrite Hseen. rewrite sm_mem_insert in Hk.
  destruct (k =? id); [reflexivity|]. cbn [orb] in *. auto.
Qed.

Theorem rr_process_message_safe : forall r m id, rr_inv r ->
  match rr_process_message r m id with
  | Ok r' => rr_inv r' /\ rr_max r' = rr_max r
  | Err e => e = ReliableChannelMaxMemoryReached
  | Panic _ => False
  end.
Proof.
  intros r m id Hinv. destruct (rr_seen r id) eqn:Hs.
  - destruct (rr_pm_seen r m id Hs) as (x & ->). apply rr_inv_set_mr. exact Hinv.
  - rewrite rr_pm_unseen by auto.
    destruct (N.ltb_spec (rr_max r) (rr_mem r + len m)); [reflexivity|].
    split; [apply rr_inv_accept; auto|reflexivity].
Qed.

(* rr_process_slice is taken apart (rr_ps_spec): a slice of an unseen id first reserves a constructor
   for the id if there is none, and then runs rr_body on a state that has one *)

Definition rr_reserve (r : recv_rel) (id n : N) : recv_rel :=
  rr_with r (sm_insert id (sctor_new n) (rr_slices r)) (rr_messages r) (rr_oldest r) (rr_order r)
          (rr_mem r + n * SLICE_SIZE).

Definition rr_close (r : recv_rel) (id mem : N) : recv_rel :=
  rr_with r (sm_remove id (rr_slices r)) (rr_messages r) (rr_oldest r) (rr_order r) mem.

Definition rr_put (r : recv_rel) (id : N) (c : sctor) : recv_rel :=
  rr_with r (sm_insert id c (rr_slices r)) (rr_messages r) (rr_oldest r) (rr_order r) (rr_mem r).

Definition rr_body (r : recv_rel) (id idx : N) (payload : list N) (c : sctor) : cres recv_rel :=
  match sctor_process c idx payload with
  | Panic p => Panic p
  | Err e => Err e
  | Ok (c', None) => Ok (rr_put r id c')
  | Ok (c', Some m) =>
      if sc_num c * SLICE_SIZE <=? rr_mem r
      then rr_process_message (rr_close r id (rr_mem r - sc_num c * SLICE_SIZE)) m id
      else Panic SITE_RECV_MEM_SUB
  end.

(* the code stores the completed constructor, processes the message and only then removes the entry *)
Lemma rr_ps_tail r id c' mem m : asc (map fst (rr_slices r)) -> rr_seen r id = false ->
  (do r3 <- rr_process_message
              (rr_with r (sm_insert id c' (rr_slices r)) (rr_messages r) (rr_oldest r) (rr_order r) mem) m id;
   Ok (rr_with r3 (sm_remove id (rr_slices r3)) (rr_messages r3) (rr_oldest r3) (rr_order r3) (rr_mem r3)))
  = rr_process_message (rr_close r id mem) m id.
Proof.
  intros A Hs. unfold rr_close. rewrite !rr_pm_unseen by exact Hs. unfold rr_accept.
  cbn [rr_with rr_slices rr_messages rr_oldest rr_order rr_mem rr_max].
  destruct (rr_max r <? mem + len m); cbn [bind]; [reflexivity|].
  cbn [rr_with rr_slices rr_messages rr_oldest rr_order rr_mem rr_max].
  rewrite sm_remove_insert by exact A. reflexivity.
Qed.

Lemma rr_ps_skip r id :
  sm_mem id (rr_messages r) || (id <? rr_oldest r) || rr_already_delivered r id =
  sm_mem id (rr_messages r) || rr_seen r id.
Proof.
  unfold rr_seen, rr_already_delivered.
  destruct (rr_order r), (sm_mem id (rr_messages r)), (id <? rr_oldest r); reflexivity.
Qed.

Lemma rr_ps_some r s c : asc (map fst (rr_slices r)) -> sm_find (sl_id s) (rr_slices r) = Some c ->
  sm_mem (sl_id s) (rr_messages r) || rr_seen r (sl_id s) = false ->
  rr_process_slice r s = rr_body r (sl_id s) (sl_index s) (sl_payload s) c.
Proof.
  intros A Ef Hs. pose proof Hs as Hs'. apply orb_false_iff in Hs'. destruct Hs' as [_ Hs'].
  rewrite <- rr_ps_skip in Hs. apply orb_false_iff in Hs. destruct Hs as [H1 H2].
  unfold rr_process_slice, rr_body. rewrite H1, H2, Ef. cbn [bind]. rewrite Ef.
  destruct (sctor_process c (sl_index s) (sl_payload s)) as [[c' [m|]]|e|p]; cbn [bind];
    try reflexivity.
  unfold sub_chk. cbv zeta. destruct (sc_num c * SLICE_SIZE <=? rr_mem r); cbn [bind]; [|reflexivity].
  apply rr_ps_tail; assumption.
Qed.

Lemma rr_ps_spec r s : rr_inv r ->
  rr_process_slice r s =
  if rr_seen r (sl_id s) then Ok r else
  match sm_find (sl_id s) (rr_slices r) with
  | Some c => rr_body r (sl_id s) (sl_index s) (sl_payload s) c
  | None =>
      if rr_max r <? rr_mem r + sl_num s * SLICE_SIZE then Err MaxMem
      else rr_body (rr_reserve r (sl_id s) (sl_num s)) (sl_id s) (sl_index s) (sl_payload s)
                   (sctor_new (sl_num s))
  end.
Proof.
  intros Hinv. pose proof (rr_inv_tbl r Hinv) as [_ A].
  (* a buffered id is a seen id, so the first half of the code's test is implied by the second *)
  assert (Hm : sm_mem (sl_id s) (rr_messages r) || rr_seen r (sl_id s) = rr_seen r (sl_id s)).
  { destruct (sm_mem (sl_id s) (rr_messages r)) eqn:Em; [|reflexivity]. rewrite (msg_seen r _ Hinv Em). reflexivity. }
  rewrite <- Hm. clear Hm. destruct (sm_mem (sl_id s) (rr_messages r) || rr_seen r (sl_id s)) eqn:Hs.
  - rewrite <- rr_ps_skip in Hs. unfold rr_process_slice.
    destruct (sm_mem (sl_id s) (rr_messages r) || (sl_id s <? rr_oldest r)); [reflexivity|].
    cbn [orb] in Hs. rewrite Hs. reflexivity.
  - destruct (sm_find (sl_id s) (rr_slices r)) as [c|] eqn:Ef; [apply rr_ps_some; assumption|].
    (* once the entry is reserved, the call behaves as on the state that already has it *)
    transitivity (if rr_max r <? rr_mem r + sl_num s * SLICE_SIZE then Err MaxMem
                  else rr_process_slice (rr_reserve r (sl_id s) (sl_num s)) s).
    + pose proof Hs as Hs'. rewrite <- rr_ps_skip in Hs'. apply orb_false_iff in Hs'.
      destruct Hs' as [H1 H2]. unfold rr_process_slice, rr_reserve, rr_already_delivered in *.
      cbn [rr_with rr_slices rr_messages rr_oldest rr_order rr_mem rr_max].
      rewrite H1, H2, Ef, sm_find_insert_same. cbv zeta.
      destruct (rr_max r <? rr_mem r + sl_num s * SLICE_SIZE); cbn [bind rr_with rr_slices]; [reflexivity|].
      rewrite sm_find_insert_same. reflexivity.
    + destruct (rr_max r <? rr_mem r + sl_num s * SLICE_SIZE); [reflexivity|].
      apply rr_ps_some; [apply asc_sm_insert; exact A|apply sm_find_insert_same|exact Hs].
Qed.

Lemma rr_inv_slices r sl mem : rr_inv r -> tbl_ok sl ->
  mem = msgs_bytes (rr_messages r) + ctors_bytes sl -> mem <= rr_max r ->
  rr_inv (rr_with r sl (rr_messages r) (rr_oldest r) (rr_order r) mem).
Proof.
  intros (I1 & I2 & I3 & I4 & I5 & I6) [W A] H1 H2. unfold rr_inv.
  cbn [rr_with rr_slices rr_messages rr_oldest rr_order rr_mem rr_max].
  repeat (split; [assumption|]). exact I6.
Qed.

Lemma rr_inv_reserve r id n : rr_inv r -> 1 <= n -> sm_find id (rr_slices r) = None ->
  rr_mem r + n * SLICE_SIZE <= rr_max r -> rr_inv (rr_reserve r id n).
Proof.
  intros Hinv Hn Hf Hmax. destruct (tbl_open id n _ (rr_inv_tbl r Hinv) Hn Hf) as [T E].
  apply rr_inv_slices; [exact Hinv|exact T| |exact Hmax]. destruct Hinv as (I1 & _). lia.
Qed.

Lemma rr_inv_put r id c c' : rr_inv r -> sm_find id (rr_slices r) = Some c ->
  sctor_wf c' -> sc_num c' = sc_num c -> rr_inv (rr_put r id c').
Proof.
  intros Hinv Hf W En. destruct (tbl_put id c c' _ (rr_inv_tbl r Hinv) Hf W En) as [T E].
  pose proof Hinv as (I1 & I2 & _). apply rr_inv_slices; [exact Hinv|exact T|lia|exact I2].
Qed.

Lemma rr_inv_close r id c : rr_inv r -> sm_find id (rr_slices r) = Some c ->
  sc_num c * SLICE_SIZE <= rr_mem r /\ rr_inv (rr_close r id (rr_mem r - sc_num c * SLICE_SIZE)).
Proof.
  intros Hinv Hf. destruct (tbl_close id c _ (rr_inv_tbl r Hinv) Hf) as [T E].
  pose proof Hinv as (I1 & I2 & _). split; [lia|].
  apply rr_inv_slices; [exact Hinv|exact T|lia|lia].
Qed.

Lemma rr_body_safe r id idx payload c : rr_inv r -> sm_find id (rr_slices r) = Some c ->
  match rr_body r id idx payload c with
  | Ok r' => rr_inv r' /\ rr_max r' = rr_max r
  | Err e => e = MaxMem \/ e = InvalidSliceMessage
  | Panic _ => False
  end.
Proof.
  intros Hinv Hf. unfold rr_body.
  pose proof (sctor_process_safe c idx payload (tbl_find id c _ (rr_inv_tbl r Hinv) Hf)) as P.
  destruct (sctor_process c idx payload) as [[c' [m|]]|e|p]; auto.
  - destruct (rr_inv_close r id c Hinv Hf) as [Hr Hc].
    destruct (N.leb_spec (sc_num c * SLICE_SIZE) (rr_mem r)); [|lia].
    pose proof (rr_process_message_safe _ m id Hc) as Q.
    destruct (rr_process_message _ m id); auto.
  - destruct P as [W En]. split; [apply (rr_inv_put r id c); assumption|reflexivity].
Qed.

Lemma rr_process_slice_safe' r s : rr_inv r -> 1 <= sl_num s ->
  match rr_process_slice r s with
  | Ok r' => rr_inv r' /\ rr_max r' = rr_max r
  | Err e => e = MaxMem \/ e = InvalidSliceMessage
  | Panic _ => False
  end.
Proof.
  intros Hinv Hn. rewrite rr_ps_spec by exact Hinv.
  destruct (rr_seen r (sl_id s)); [auto|].
  destruct (sm_find (sl_id s) (rr_slices r)) as [c|] eqn:Ef; [apply rr_body_safe; assumption|].
  destruct (N.ltb_spec (rr_max r) (rr_mem r + sl_num s * SLICE_SIZE)) as [Hx|Hx]; [left; reflexivity|].
  apply (rr_body_safe (rr_reserve r (sl_id s) (sl_num s))).
  - apply rr_inv_reserve; assumption.
  - apply sm_find_insert_same.
Qed.

Theorem rr_process_slice_safe : forall r s, rr_inv r -> slice_decoded s ->
  match rr_process_slice r s with
  | Ok r' => rr_inv r' /\ rr_max r' = rr_max r
  | Err _ => True
  | Panic _ => False
  end.
Proof.
  intros r s Hinv [H _]. pose proof (rr_process_slice_safe' r s Hinv H) as S.
  destruct (rr_process_slice r s); [exact S|exact I|exact S].
Qed.

Lemma cursor_past (X : N -> bool) old k : X old = true ->
  (k <? old + 1) || (negb (k =? old) && X k) = (k <? old) || X k.
Proof.
  intros E. destruct (N.eqb_spec k old) as [->|Hne]; cbn [negb andb].
  - rewrite E. destruct (N.ltb_spec old (old + 1)); [|lia]. rewrite orb_true_r. reflexivity.
  - destruct (N.ltb_spec k (old + 1)), (N.ltb_spec k old); try lia; reflexivity.
Qed.

Lemma advance_spec fuel : forall old rcv, asc rcv ->
  asc (snd (advance_oldest fuel old rcv)) /\
  forall k, (k <? fst (advance_oldest fuel old rcv)) || ss_mem k (snd (advance_oldest fuel old rcv))
            = (k <? old) || ss_mem k rcv.
Proof.
  induction fuel as [|f IH]; intros old rcv A; cbn [advance_oldest fst snd]; [auto|].
  destruct (ss_mem old rcv) eqn:E; cbn [fst snd]; [|auto].
  destruct (IH (old + 1) (ss_remove old rcv) (asc_ss_remove _ _ A)) as (A' & S).
  split; [exact A'|]. intros k. rewrite S. rewrite ss_mem_remove by auto.
  exact (cursor_past (fun k => ss_mem k rcv) old k E).
Qed.

(* rr_receive has handed over message id; the set of seen ids stays the same, in either mode *)
Definition popped (r : recv_rel) (id : N) (m : list N) (r' : recv_rel) : Prop :=
  sm_find id (rr_messages r) = Some m /\ rr_inv r' /\ rr_max r' = rr_max r /\ mode r' = mode r /\
  (forall k, rr_seen r' k = rr_seen r k) /\ rr_slices r' = rr_slices r /\
  rr_messages r' = sm_remove id (rr_messages r) /\
  (rr_order r = Ordered -> id = rr_oldest r /\ rr_oldest r' = rr_oldest r + 1).

(* whether rr_receive hands a message over is decided by next_id; no invariant is needed *)
Lemma rr_receive_next_id r r' mo : rr_receive r = Ok (r', mo) ->
  match mo with
  | Some _ => exists id, next_id r = Some id
  | None => r' = r /\ next_id r = None
  end.
Proof.
  unfold rr_receive, next_id, sm_mem. destruct (rr_order r) as [|mr rcv].
  - destruct (sm_find (rr_oldest r) (rr_messages r)) as [m|]; [|intros [= <- <-]; auto].
    destruct (sub_chk SITE_RECV_MEM_SUB (rr_mem r) (len m)); cbn [bind]; [|discriminate|discriminate].
    intros [= _ <-]. eauto.
  - destruct (rr_messages r) as [|[id m] rest]; [intros [= <- <-]; auto|].
    destruct (if rr_oldest r =? id then advance_oldest (length rcv) (rr_oldest r) rcv else (rr_oldest r, rcv)).
    destruct (sub_chk SITE_RECV_MEM_SUB (rr_mem r) (len m)); cbn [bind]; [|discriminate|discriminate].
    intros [= _ <-]. eauto.
Qed.

Lemma rr_receive_cases r : rr_inv r ->
  match next_id r with
  | None => rr_receive r = Ok (r, None)
  | Some id => exists m r', rr_receive r = Ok (r', Some m) /\ popped r id m r'
  end.
Proof.
  intros (I1 & I2 & I3 & I4 & I5 & I6). unfold next_id, rr_receive, popped, mode, rr_inv.
  destruct (rr_order r) as [|mr rcv] eqn:Eo.
  - unfold sm_mem. destruct (sm_find (rr_oldest r) (rr_messages r)) as [m|] eqn:E; [|reflexivity].
    pose proof (mb_remove (rr_oldest r) (rr_messages r)) as R. rewrite E in R. cbn [fopt] in R.
    rewrite sub_chk_ok by lia. cbn [bind]. exists m. eexists. split; [reflexivity|].
    cbn [rr_with rr_slices rr_messages rr_oldest rr_order rr_mem rr_max].
    split; [exact E|]. split; [|repeat split].
    + split; [lia|]. split; [lia|]. split; [exact I3|]. split; [exact I4|].
      split; [apply asc_sm_remove; exact I5|exact I].
    + (* the id leaves the buffer as the cursor moves past it *)
      intros k. unfold rr_seen. cbn [rr_with rr_oldest rr_order rr_messages].
      rewrite Eo, sm_mem_remove by exact I5.
      apply (cursor_past (fun k => sm_mem k (rr_messages r))). unfold sm_mem. rewrite E. reflexivity.
  - destruct (rr_messages r) as [|[id m] rest] eqn:E; [reflexivity|].
    change (msgs_bytes ((id, m) :: rest)) with (len m + msgs_bytes rest) in I1.
    cbn [map fst] in I5. destruct I5 as [F5 A5]. destruct I6 as [A B].
    set (p := if rr_oldest r =? id then advance_oldest (length rcv) (rr_oldest r) rcv
              else (rr_oldest r, rcv)).
    assert (P : asc (snd p) /\
                forall k, (k <? fst p) || ss_mem k (snd p) = (k <? rr_oldest r) || ss_mem k rcv).
    { unfold p. destruct (rr_oldest r =? id); [apply advance_spec; exact A|split; [exact A|reflexivity]]. }
    destruct p as [old' rcv']. cbn [fst snd] in P. destruct P as [A' S].
    rewrite sub_chk_ok by lia. cbn [bind]. exists m. eexists. split; [reflexivity|].
    cbn [rr_with rr_slices rr_messages rr_oldest rr_order rr_mem rr_max sm_find sm_remove].
    rewrite N.eqb_refl.
    assert (Hseen : forall k, rr_seen (rr_with r (rr_slices r) rest old' (Unordered mr rcv') (rr_mem r - len m)) k
                              = rr_seen r k).
    { intros k. unfold rr_seen. cbn [rr_with rr_oldest rr_order]. rewrite Eo. apply S. }
    split; [reflexivity|]. split; [|repeat split; [exact Hseen|discriminate|discriminate]].
    split; [lia|]. split; [lia|]. split; [exact I3|]. split; [exact I4|]. split; [exact A5|].
    split; [exact A'|]. intros k Hk. rewrite Hseen. apply B.
    unfold sm_mem in *. cbn [sm_find]. destruct (k =? id); [reflexivity|exact Hk].
Qed.

Theorem rr_receive_safe : forall r, rr_inv r ->
  match rr_receive r with
  | Ok (r', _) => rr_inv r' /\ rr_max r' = rr_max r
  | _ => False
  end.
Proof.
  intros r Hinv. pose proof (rr_receive_cases r Hinv) as C. destruct (next_id r) as [id|].
  - destruct C as (m & r' & -> & _ & Hinv' & Hmax & _). exact (conj Hinv' Hmax).
  - rewrite C. exact (conj Hinv eq_refl).
Qed.

(* From here on the sender is honest: the events are those of RecvSpec.rev_ok, in any order and
   with any repetition. *)

Definition outs_ok (sent : list (list N)) (outs : list (N * list N)) : Prop :=
  Forall (fun im => msg_at sent (fst im) = Some (snd im)) outs.

Definition outs_rel (r : recv_rel) (outs : list (N * list N)) : Prop :=
  NoDup (map fst outs) /\
  (forall id, In id (map fst outs) <-> rr_seen r id = true /\ sm_mem id (rr_messages r) = false) /\
  (mode r = true -> map fst outs = iota (rr_oldest r)).

Record hcore (sent : list (list N)) (r : recv_rel) (outs : list (N * list N)) : Prop := {
  hc_inv : rr_inv r;
  hc_msgs : forall id m, sm_find id (rr_messages r) = Some m -> msg_at sent id = Some m;
  hc_ctors : forall id c, sm_find id (rr_slices r) = Some c ->
      rr_seen r id = false /\
      exists m, msg_at sent id = Some m /\ SLICE_SIZE < len m /\ ctor_ok m c;
  hc_outs_ok : outs_ok sent outs;
  hc_outs : outs_rel r outs;
}.

Lemma hcore_set_mr sent r outs x : hcore sent r outs ->
  hcore sent (set_mr r x) outs /\ mode (set_mr r x) = mode r /\ rr_slices (set_mr r x) = rr_slices r.
Proof.
  destruct r as [sl ms old [|mr rcv] mem mx]; intros [A B C D E];
    (split; [constructor; assumption|split; reflexivity]).
Qed.

Lemma hcore_accept sent r outs m id : hcore sent r outs -> msg_at sent id = Some m ->
  rr_seen r id = false -> sm_find id (rr_slices r) = None -> rr_mem r + len m <= rr_max r ->
  hcore sent (rr_accept r m id) outs.
Proof.
  intros [Hinv Hm Hc Hok Ho] Hat Hs Hnc Hmax.
  pose proof (rr_seen_accept r m id) as Hseen.
  pose proof (unseen_not_msg r id Hinv Hs) as Hnm.
  constructor.
  - apply rr_inv_accept; auto.
  - intros k mk. unfold rr_accept. cbn [rr_with rr_messages]. rewrite sm_find_insert.
    destruct (N.eqb_spec k id) as [->|Hne]; [intros [= <-]; exact Hat|apply Hm].
  - intros k c Hf. unfold rr_accept in Hf. cbn [rr_with rr_slices] in Hf.
    destruct (Hc k c Hf) as [Hk Hr]. split; [|exact Hr]. rewrite Hseen.
    destruct (N.eqb_spec k id) as [->|Hne]; [congruence|exact Hk].
  - exact Hok.
  - destruct Ho as (A & B & C). split; [exact A|split].
    + intros k. rewrite B, Hseen. unfold rr_accept. cbn [rr_with rr_messages]. rewrite sm_mem_insert.
      destruct (N.eqb_spec k id) as [->|_]; cbn [orb]; [|reflexivity].
      rewrite Hs. split; intros [? ?]; discriminate.
    + rewrite mode_accept. exact C.
Qed.

(* Progress: event e has arrived.  RLiveBaseP.ev_done is the same predicate, stated there once more because
   the liveness invariants are written over it; the two are convertible, so what is proved here applies
   to either. *)
Definition ev_done (r : recv_rel) (e : rev) : Prop :=
  match e with
  | RSmall id => rr_seen r id = true
  | RSlice id idx => rr_seen r id = true \/ exists c, sm_find id (rr_slices r) = Some c /\ has c idx
  | RRecv => True
  end.

Definition prog_le (r r' : recv_rel) : Prop :=
  (forall k, rr_seen r k = true -> rr_seen r' k = true) /\
  (forall k c i, sm_find k (rr_slices r) = Some c -> has c i ->
     rr_seen r' k = true \/ exists c', sm_find k (rr_slices r') = Some c' /\ has c' i).

Lemma prog_le_refl r : prog_le r r.
Proof. split; [auto|]. intros k c i Hf Hh. right. eauto. Qed.

Lemma prog_le_trans a b c : prog_le a b -> prog_le b c -> prog_le a c.
Proof.
  intros [S1 L1] [S2 L2]. split; [auto|]. intros k x i Hf Hh.
  destruct (L1 k x i Hf Hh) as [Hs|(x' & Hf' & Hh')]; [left; auto|eauto].
Qed.

Lemma prog_le_same_slices r r' : (forall k, rr_seen r k = true -> rr_seen r' k = true) ->
  rr_slices r' = rr_slices r -> prog_le r r'.
Proof. intros H E. split; [auto|]. intros k c i Hf Hh. right. rewrite E. eauto. Qed.

Lemma ev_done_mono r r' e : prog_le r r' -> ev_done r e -> ev_done r' e.
Proof.
  intros [L1 L2]. destruct e as [id|id idx|]; cbn [ev_done]; auto.
  intros [Hs|(c & Hf & Hh)]; [left; auto|eauto].
Qed.

Definition stepped sent (r : recv_rel) (e : rev) (r' : recv_rel) outs' : Prop :=
  hcore sent r' outs' /\ mode r' = mode r /\ prog_le r r' /\ ev_done r' e.

Lemma hcore_pm sent r outs m id r' : hcore sent r outs -> msg_at sent id = Some m ->
  (rr_seen r id = false -> sm_find id (rr_slices r) = None) ->
  rr_process_message r m id = Ok r' ->
  hcore sent r' outs /\ mode r' = mode r /\ rr_seen r' id = true /\
  (forall k, rr_seen r k = true -> rr_seen r' k = true) /\ rr_slices r' = rr_slices r.
Proof.
  intros H Hat Hnc Hpm. destruct (rr_seen r id) eqn:Hs.
  - destruct (rr_pm_seen r m id Hs) as (x & E). rewrite E in Hpm. injection Hpm as <-.
    destruct (hcore_set_mr sent r outs x H) as (H' & M & Esl).
    split; [exact H'|]. split; [exact M|]. split; [rewrite rr_seen_set_mr; exact Hs|].
    split; [|exact Esl]. intros k. rewrite rr_seen_set_mr. auto.
  - rewrite rr_pm_unseen in Hpm by auto.
    destruct (N.ltb_spec (rr_max r) (rr_mem r + len m)); [discriminate|]. injection Hpm as <-.
    split; [apply hcore_accept; auto|]. split; [apply mode_accept|].
    split; [rewrite rr_seen_accept, N.eqb_refl; reflexivity|].
    split; [|reflexivity]. intros k Hk. rewrite rr_seen_accept, Hk. apply orb_true_r.
Qed.

Lemma step_small sent r outs id m :
  hcore sent r outs -> msg_at sent id = Some m -> len m <= SLICE_SIZE ->
  match rr_process_message r m id with
  | Ok r' => stepped sent r (RSmall id) r' outs
  | Err e => e = MaxMem
  | Panic _ => False
  end.
Proof.
  intros H Hat Hl. pose proof (rr_process_message_safe r m id (hc_inv _ _ _ H)) as S.
  destruct (rr_process_message r m id) as [r'|e|p] eqn:E; auto.
  destruct (hcore_pm sent r outs m id r' H Hat) as (H' & M & Hs & Hmono & Hsl); auto.
  { intros Hu. destruct (sm_find id (rr_slices r)) as [c|] eqn:Ef; [|reflexivity].
    destruct (hc_ctors _ _ _ H id c Ef) as (_ & m' & Hat' & Hlen & _).
    rewrite Hat in Hat'. injection Hat' as <-. lia. }
  split; [exact H'|]. split; [exact M|]. split; [apply prog_le_same_slices; assumption|exact Hs].
Qed.

Lemma hcore_slices sent r outs sl mem :
  hcore sent r outs ->
  rr_inv (rr_with r sl (rr_messages r) (rr_oldest r) (rr_order r) mem) ->
  (forall id c, sm_find id sl = Some c ->
      rr_seen r id = false /\ exists m, msg_at sent id = Some m /\ SLICE_SIZE < len m /\ ctor_ok m c) ->
  hcore sent (rr_with r sl (rr_messages r) (rr_oldest r) (rr_order r) mem) outs.
Proof.
  intros [Hinv Hm Hc Hok Ho] Hinv' Hc'. constructor; auto.
Qed.

Lemma hcore_reserve sent r outs id m : hcore sent r outs -> msg_at sent id = Some m ->
  SLICE_SIZE < len m -> rr_seen r id = false -> sm_find id (rr_slices r) = None ->
  rr_mem r + num_slices_of m * SLICE_SIZE <= rr_max r ->
  hcore sent (rr_reserve r id (num_slices_of m)) outs /\ prog_le r (rr_reserve r id (num_slices_of m)).
Proof.
  intros H Hat Hl Hs Hf Hmax. pose proof (num_bounds m Hl) as Hn. split.
  - apply hcore_slices; [exact H|apply rr_inv_reserve; [apply H|lia|exact Hf|exact Hmax]|].
    intros k c. rewrite sm_find_insert. destruct (N.eqb_spec k id) as [->|Hne]; [|apply H].
    intros [= <-]. split; [exact Hs|]. exists m. split; [exact Hat|]. split; [exact Hl|apply ctor_ok_new].
  - split; [auto|]. intros k c i Hk Hh. right. exists c. split; [|exact Hh].
    unfold rr_reserve. cbn [rr_with rr_slices]. rewrite sm_find_insert_other by congruence. exact Hk.
Qed.

Lemma step_body sent r outs id idx m c :
  hcore sent r outs -> msg_at sent id = Some m -> SLICE_SIZE < len m -> idx < num_slices_of m ->
  sm_find id (rr_slices r) = Some c ->
  match rr_body r id idx (slice_payload m idx) c with
  | Ok r' => stepped sent r (RSlice id idx) r' outs
  | Err e => e = MaxMem
  | Panic _ => False
  end.
Proof.
  intros H Hat Hl Hi Hf. pose proof (hc_inv _ _ _ H) as Hinv.
  pose proof (rr_inv_tbl r Hinv) as T. pose proof T as [_ A].
  destruct (hc_ctors _ _ _ H id c Hf) as (Es & m' & Hat' & _ & O0).
  rewrite Hat in Hat'. injection Hat' as <-.
  pose proof (sctor_process_honest m c idx Hl (tbl_find id c _ T Hf) O0 Hi) as Q. unfold rr_body.
  destruct (sctor_process c idx (slice_payload m idx)) as [[c' [m'|]]|e|p]; try contradiction.
  - (* the last missing slice: the constructor is closed and the message accepted *)
    destruct Q as [-> Hall]. destruct (rr_inv_close r id c Hinv Hf) as [Hr Hc].
    destruct (N.leb_spec (sc_num c * SLICE_SIZE) (rr_mem r)); [|lia].
    set (rc := rr_close r id (rr_mem r - sc_num c * SLICE_SIZE)) in *.
    pose proof (rr_process_message_safe rc m id Hc) as S.
    destruct (rr_process_message rc m id) as [r'|e|p] eqn:Epm; auto.
    assert (Hcc : hcore sent rc outs).
    { apply hcore_slices; auto. intros k c0 Hk. rewrite sm_find_remove in Hk by exact A.
      destruct (k =? id); [discriminate|]. apply H. exact Hk. }
    destruct (hcore_pm sent rc outs m id r' Hcc Hat) as (H' & M & Hs' & Hmono & Hsl); auto.
    { intros _. unfold rc, rr_close. cbn [rr_with rr_slices].
      rewrite sm_find_remove by exact A. rewrite N.eqb_refl. reflexivity. }
    split; [exact H'|]. split; [exact M|]. split; [|left; exact Hs'].
    split; [exact Hmono|]. intros k c0 i Hk Hh.
    destruct (N.eq_dec k id) as [->|Hne]; [left; exact Hs'|]. right. exists c0. split; [|exact Hh].
    rewrite Hsl. unfold rc, rr_close. cbn [rr_with rr_slices].
    rewrite sm_find_remove_other by exact Hne. exact Hk.
  - destruct Q as (W' & O' & En & Hhas). split; [|split; [reflexivity|split]].
    + apply hcore_slices; [exact H|apply (rr_inv_put r id c); assumption|].
      intros k c0. rewrite sm_find_insert. destruct (N.eqb_spec k id) as [->|Hne]; [|apply H].
      intros [= <-]. split; [exact Es|]. exists m. auto.
    + split; [auto|]. intros k c0 i Hk Hh. right. unfold rr_put. cbn [rr_with rr_slices].
      rewrite sm_find_insert. destruct (N.eqb_spec k id) as [->|Hne]; [|eauto].
      exists c'. split; [reflexivity|]. apply Hhas. left. congruence.
    + right. exists c'. split; [apply sm_find_insert_same|]. apply Hhas. right. reflexivity.
Qed.

Lemma step_slice sent r outs id idx m :
  hcore sent r outs -> msg_at sent id = Some m -> SLICE_SIZE < len m -> idx < num_slices_of m ->
  match rr_process_slice r (slice_of m id idx) with
  | Ok r' => stepped sent r (RSlice id idx) r' outs
  | Err e => e = MaxMem
  | Panic _ => False
  end.
Proof.
  intros H Hat Hl Hi. pose proof (hc_inv _ _ _ H) as Hinv.
  rewrite rr_ps_spec by exact Hinv. cbn [slice_of sl_id sl_index sl_num sl_payload].
  destruct (rr_seen r id) eqn:Es.
  - split; [exact H|]. split; [reflexivity|]. split; [apply prog_le_refl|]. left. exact Es.
  - destruct (sm_find id (rr_slices r)) as [c|] eqn:Ef; [apply step_body; assumption|].
    destruct (N.ltb_spec (rr_max r) (rr_mem r + num_slices_of m * SLICE_SIZE)) as [Hx|Hx]; [reflexivity|].
    destruct (hcore_reserve sent r outs id m H Hat Hl Es Ef Hx) as [H1 L1].
    pose proof (step_body sent _ outs id idx m (sctor_new (num_slices_of m)) H1 Hat Hl Hi
                  (sm_find_insert_same _ _ _)) as S.
    destruct (rr_body _ id idx (slice_payload m idx) _) as [r'|e|p]; [|exact S|exact S].
    destruct S as (H' & M & L & Ev). split; [exact H'|]. split; [exact M|].
    split; [exact (prog_le_trans _ _ _ L1 L)|exact Ev].
Qed.

Lemma hcore_pop sent r outs id m r' : hcore sent r outs -> popped r id m r' ->
  hcore sent r' (outs ++ [(id, m)]) /\ prog_le r r'.
Proof.
  intros [Hinv Hm Hc Hok Ho] (Ef & Hinv' & _ & M & Hseen & Esl & Ems & Hord).
  pose proof Hinv as (_ & _ & _ & _ & I5 & _).
  split; [constructor|].
  - exact Hinv'.
  - intros k mk. rewrite Ems, sm_find_remove by exact I5. destruct (k =? id); [discriminate|apply Hm].
  - rewrite Esl. intros k c Hf. rewrite Hseen. auto.
  - apply Forall_app. split; [exact Hok|]. constructor; [|constructor]. cbn [fst snd]. auto.
  - destruct Ho as (A & B & C). apply sm_find_some_mem in Ef.
    unfold outs_rel. rewrite map_app. cbn [map fst]. split; [|split].
    + apply NoDup_snoc; [exact A|]. intros Hin. apply B in Hin. destruct Hin as [_ Hin]. congruence.
    + intros k. rewrite Hseen, Ems, sm_mem_remove, in_app_iff, B by exact I5. cbn [In].
      destruct (N.eqb_spec k id) as [->|Hne]; cbn [negb andb].
      * split; [intros _|auto]. split; [apply msg_seen; assumption|reflexivity].
      * split; [intros [K|[K|[]]]; [exact K|congruence]|auto].
    + rewrite M. intros Mr. rewrite (C Mr).
      destruct (Hord (proj1 (mode_ordered r) Mr)) as [-> ->]. rewrite iota_succ. reflexivity.
  - apply prog_le_same_slices; [|exact Esl]. intros k. rewrite Hseen. auto.
Qed.

Lemma step_inv sent r outs e : rev_ok sent e -> hcore sent r outs ->
  match rr_step sent r e with
  | Ok (r', o) => stepped sent r e r' (match o with Some x => outs ++ [x] | None => outs end)
  | Err x => x = MaxMem
  | Panic _ => False
  end.
Proof.
  intros He H. destruct e as [id|id idx|]; cbn [rr_step].
  - destruct He as (m & Hat & Hl). rewrite Hat.
    pose proof (step_small sent r outs id m H Hat Hl) as S.
    destruct (rr_process_message r m id); exact S.
  - destruct He as (m & Hat & Hl & Hi). rewrite Hat.
    pose proof (step_slice sent r outs id idx m H Hat Hl Hi) as S.
    destruct (rr_process_slice r (slice_of m id idx)); exact S.
  - pose proof (rr_receive_cases r (hc_inv _ _ _ H)) as C. destruct (next_id r) as [id|].
    + destruct C as (m & r' & -> & P). destruct (hcore_pop sent r outs id m r' H P) as [H' L].
      pose proof P as (_ & _ & _ & M & _).
      split; [exact H'|]. split; [exact M|]. split; [exact L|exact I].
    + rewrite C. split; [exact H|]. split; [reflexivity|]. split; [apply prog_le_refl|exact I].
Qed.

Lemma exec_inv sent : forall evs r outs r' outs' stopped,
  Forall (rev_ok sent) evs -> hcore sent r outs ->
  rr_exec sent r evs outs = (r', outs', stopped) ->
  hcore sent r' outs' /\ mode r' = mode r /\ prog_le r r' /\
  if stopped
  then exists pre e post, evs = pre ++ e :: post /\
         rr_exec sent r pre outs = (r', outs', false) /\ rr_step sent r' e = Err MaxMem
  else Forall (ev_done r') evs.
Proof.
  induction evs as [|e t IH]; intros r outs r' outs' stopped F H E; cbn [rr_exec] in E.
  - injection E as <- <- <-. split; [exact H|]. split; [reflexivity|]. split; [apply prog_le_refl|constructor].
  - inversion F as [|? ? He Ft]; subst.
    pose proof (step_inv sent r outs e He H) as S.
    destruct (rr_step sent r e) as [[r1 o]|x|p] eqn:Es; [| |contradiction].
    + destruct S as (H1 & M1 & L1 & D1).
      destruct (IH r1 _ r' outs' stopped Ft H1 E) as (A & M & L & C).
      split; [exact A|]. split; [congruence|]. split; [exact (prog_le_trans _ _ _ L1 L)|].
      destruct stopped.
      * destruct C as (pre & e' & post & -> & Ex & Est).
        exists (e :: pre), e', post. split; [reflexivity|]. split; [|exact Est].
        cbn [rr_exec]. rewrite Es. exact Ex.
      * constructor; [exact (ev_done_mono _ _ _ L D1)|exact C].
    + subst x. injection E as <- <- <-. split; [exact H|]. split; [reflexivity|]. split; [apply prog_le_refl|].
      exists [], e, t. repeat split; auto.
Qed.

Lemma hcore_init sent max ordered : hcore sent (recv_rel_new max ordered) [].
Proof.
  constructor.
  - apply rr_inv_init.
  - intros id m H. discriminate.
  - intros id c H. discriminate.
  - constructor.
  - split; [constructor|split; [|reflexivity]]. intros id. cbn [map In]. split; [tauto|]. intros [Hs _].
    unfold rr_seen, recv_rel_new in Hs. cbn [rr_oldest rr_order rr_messages] in Hs.
    destruct (N.ltb_spec id 0); [lia|]. destruct ordered; discriminate.
Qed.

Lemma exec_from_init sent max ordered evs r outs stopped :
  Forall (rev_ok sent) evs ->
  rr_exec sent (recv_rel_new max ordered) evs [] = (r, outs, stopped) ->
  hcore sent r outs /\ mode r = ordered /\ (stopped = false -> Forall (ev_done r) evs).
Proof.
  intros F E.
  destruct (exec_inv sent evs _ [] r outs stopped F (hcore_init sent max ordered) E) as (A & M & _ & C).
  split; [exact A|]. split; [rewrite M; destruct ordered; reflexivity|]. intros ->. exact C.
Qed.

Lemma firstn_snoc {A} (l : list A) n y : nth_error l n = Some y -> firstn (S n) l = firstn n l ++ [y].
Proof.
  revert n. induction l as [|x l IH]; intros [|n]; cbn [nth_error firstn app]; try discriminate.
  - intros [= ->]. reflexivity.
  - intros H. f_equal. apply IH. exact H.
Qed.

Lemma prefix_of_iota sent : forall outs n, map fst outs = iota n -> outs_ok sent outs ->
  map snd outs = firstn (length outs) sent.
Proof.
  induction outs as [|x l IH] using List.rev_ind; intros n E Hok.
  - reflexivity.
  - assert (Hn : n = len l + 1).
    { apply (f_equal (@length N)) in E. rewrite map_length, app_length, iota_length in E.
      cbn [length] in E. unfold len. lia. }
    subst n. rewrite iota_succ, map_app in E. cbn [map] in E. apply app_inj_tail in E.
    destruct E as [E1 E2]. apply Forall_app in Hok. destruct Hok as [Hok1 Hok2].
    inversion Hok2 as [|? ? Hx _]; subst. rewrite E2 in Hx.
    rewrite map_app, app_length. cbn [map length]. rewrite (IH _ E1 Hok1).
    replace (length l + 1)%nat with (S (length l)) by lia.
    unfold msg_at, len in Hx. rewrite Nat2N.id in Hx. rewrite (firstn_snoc _ _ _ Hx). reflexivity.
Qed.

Theorem ordered_prefix : forall sent max evs r outs stopped,
  Forall (rev_ok sent) evs ->
  rr_exec sent (recv_rel_new max true) evs [] = (r, outs, stopped) ->
  map snd outs = firstn (length outs) sent /\ map fst outs = iota (len outs).
Proof.
  intros sent max evs r outs stopped F E.
  destruct (exec_from_init sent max true evs r outs stopped F E) as ([Hinv Hm Hc Hok Ho] & M & _).
  destruct Ho as (_ & _ & A). specialize (A M). split; [eapply prefix_of_iota; eauto|].
  rewrite A. f_equal. apply (f_equal (@length N)) in A. rewrite map_length, iota_length in A.
  unfold len. lia.
Qed.

Lemma handed_over_once sent max ordered evs r outs stopped :
  Forall (rev_ok sent) evs ->
  rr_exec sent (recv_rel_new max ordered) evs [] = (r, outs, stopped) ->
  NoDup (map fst outs) /\ outs_ok sent outs.
Proof.
  intros F E. destruct (exec_from_init sent max ordered evs r outs stopped F E) as ([_ _ _ Hok Ho] & _).
  exact (conj (proj1 Ho) Hok).
Qed.

Theorem unordered_exactly_once : forall sent max evs r outs stopped,
  Forall (rev_ok sent) evs ->
  rr_exec sent (recv_rel_new max false) evs [] = (r, outs, stopped) ->
  NoDup (map fst outs) /\ Forall (fun im => msg_at sent (fst im) = Some (snd im)) outs.
Proof. intros sent max. exact (handed_over_once sent max false). Qed.

Definition honest_reachable (sent : list (list N)) (r : recv_rel) : Prop :=
  exists max ordered evs outs,
    Forall (rev_ok sent) evs /\ rr_exec sent (recv_rel_new max ordered) evs [] = (r, outs, false).

Theorem honest_step_ok_or_memory : forall sent r e,
  honest_reachable sent r -> rev_ok sent e ->
  match rr_step sent r e with
  | Ok _ => True
  | Err x => x = ReliableChannelMaxMemoryReached
  | Panic _ => False
  end.
Proof.
  intros sent r e (max & ordered & evs & outs & F & E) He.
  destruct (exec_from_init sent max ordered evs r outs false F E) as (H & _).
  pose proof (step_inv sent r outs e He H) as S.
  destruct (rr_step sent r e) as [[r' o]|x|p]; auto.
Qed.

Theorem exec_stops_only_on_memory : forall sent max ordered evs r outs,
  Forall (rev_ok sent) evs ->
  rr_exec sent (recv_rel_new max ordered) evs [] = (r, outs, true) ->
  exists pre e post, evs = pre ++ e :: post /\
    rr_exec sent (recv_rel_new max ordered) pre [] = (r, outs, false) /\
    rr_step sent r e = Err ReliableChannelMaxMemoryReached.
Proof.
  intros sent max ordered evs r outs F E.
  destruct (exec_inv sent evs _ [] r outs true F (hcore_init sent max ordered) E) as (_ & _ & _ & C). exact C.
Qed.

(* a constructor in the table is never full (wf_not_full), so a message all of whose slices have arrived
   cannot still sit in one *)
Lemma all_slices_seen sent r outs id m :
  hcore sent r outs -> msg_at sent id = Some m -> SLICE_SIZE < len m ->
  (forall idx, idx < num_slices_of m -> ev_done r (RSlice id idx)) -> rr_seen r id = true.
Proof.
  intros H Hat Hl Hall. destruct (rr_seen r id) eqn:Es; [reflexivity|exfalso].
  pose proof (num_bounds m Hl) as (_ & _ & B2).
  destruct (Hall 0 ltac:(lia)) as [?|(c & Hf & _)]; [congruence|].
  destruct (hc_ctors _ _ _ H id c Hf) as (_ & m' & Hat' & _ & [On _]).
  rewrite Hat in Hat'. injection Hat' as <-.
  apply (wf_not_full c (tbl_find id c _ (rr_inv_tbl r (hc_inv _ _ _ H)) Hf)). rewrite On. intros i Hi.
  destruct (Hall i Hi) as [?|(c' & Hf' & Hh)]; [congruence|]. rewrite Hf in Hf'. injection Hf' as <-.
  exact Hh.
Qed.

Lemma complete_seen sent evs r outs id :
  hcore sent r outs -> Forall (ev_done r) evs -> complete_in sent evs id -> rr_seen r id = true.
Proof.
  intros H P C. unfold complete_in in C. destruct (msg_at sent id) as [m|] eqn:Hat; [|contradiction].
  rewrite Forall_forall in P. destruct (N.leb_spec (len m) SLICE_SIZE) as [Hl|Hl].
  - exact (P _ C).
  - apply (all_slices_seen sent r outs id m H Hat Hl). intros idx Hi. exact (P _ (C idx Hi)).
Qed.

Lemma complete_held sent max ordered evs r outs :
  Forall (rev_ok sent) evs ->
  rr_exec sent (recv_rel_new max ordered) evs [] = (r, outs, false) ->
  forall id, complete_in sent evs id -> In id (map fst outs) \/ sm_mem id (rr_messages r) = true.
Proof.
  intros F E id C. destruct (exec_from_init sent max ordered evs r outs false F E) as (H & _ & P).
  pose proof (complete_seen sent evs r outs id H (P eq_refl) C) as Hs.
  destruct (sm_mem id (rr_messages r)) eqn:Em; [right; reflexivity|left]. apply (hc_outs _ _ _ H). auto.
Qed.

Theorem unordered_eager : forall sent max evs r outs,
  Forall (rev_ok sent) evs ->
  rr_exec sent (recv_rel_new max false) evs [] = (r, outs, false) ->
  forall id, complete_in sent evs id ->
    In id (map fst outs) \/ sm_mem id (rr_messages r) = true.
Proof. intros sent max. exact (complete_held sent max false). Qed.

Theorem ordered_complete_buffered : forall sent max evs r outs,
  Forall (rev_ok sent) evs ->
  rr_exec sent (recv_rel_new max true) evs [] = (r, outs, false) ->
  forall id, complete_in sent evs id ->
    id < rr_oldest r \/ sm_mem id (rr_messages r) = true.
Proof.
  intros sent max evs r outs F E id C.
  destruct (exec_from_init sent max true evs r outs false F E) as (H & M & P).
  pose proof (complete_seen sent evs r outs id H (P eq_refl) C) as Hs.
  apply mode_ordered in M. unfold rr_seen in Hs. rewrite M in Hs.
  apply orb_true_iff in Hs. destruct Hs as [Hs|Hs]; [left; lia|right; exact Hs].
Qed.

Theorem unordered_receive_available : forall r mr rcv,
  rr_inv r -> rr_order r = Unordered mr rcv -> rr_messages r <> [] ->
  exists r' m, rr_receive r = Ok (r', Some m).
Proof.
  intros r mr rcv Hinv Eo Hne. pose proof (rr_receive_cases r Hinv) as C. unfold next_id in C.
  rewrite Eo in C. destruct (rr_messages r) as [|[id m] rest]; [congruence|].
  destruct C as (m' & r' & E & _). eauto.
Qed.

Theorem ordered_receive_available : forall r,
  rr_inv r -> rr_order r = Ordered -> sm_mem (rr_oldest r) (rr_messages r) = true ->
  exists r' m, rr_receive r = Ok (r', Some m).
Proof.
  intros r Hinv Eo Hm. pose proof (rr_receive_cases r Hinv) as C. unfold next_id in C.
  rewrite Eo, Hm in C. destruct C as (m & r' & E & _). eauto.
Qed.

Lemma msg_at_lt sent id m : msg_at sent id = Some m -> id < len sent.
Proof.
  unfold msg_at, len. intros H.
  assert (nth_error sent (N.to_nat id) <> None) as Hn by congruence.
  apply nth_error_Some in Hn. lia.
Qed.

Lemma msg_at_app l l' id m : msg_at l id = Some m -> msg_at (l ++ l') id = Some m.
Proof. apply nth_error_app_some. Qed.

Lemma msg_at_snoc l m : msg_at (l ++ [m]) (len l) = Some m.
Proof.
  unfold msg_at, len. rewrite Nat2N.id, nth_error_app2 by lia. rewrite Nat.sub_diag. reflexivity.
Qed.

Lemma msg_at_snoc_inv l m id x : msg_at (l ++ [m]) id = Some x -> msg_at l id = Some x \/ (id = len l /\ x = m).
Proof.
  unfold msg_at, len. intros H.
  destruct (Nat.lt_ge_cases (N.to_nat id) (length l)) as [Hlt|Hge].
  - left. now rewrite nth_error_app1 in H by exact Hlt.
  - right. rewrite nth_error_app2 in H by exact Hge.
    destruct (N.to_nat id - length l)%nat as [|k] eqn:E; cbn [nth_error] in H.
    + injection H as <-. split; [lia|reflexivity].
    + destruct k; discriminate.
Qed.

Lemma msg_at_in l id m : msg_at l id = Some m -> In m l.
Proof. unfold msg_at. apply nth_error_In. Qed.

Theorem drained_is_empty : forall sent max ordered evs r outs,
  Forall (rev_ok sent) evs ->
  rr_exec sent (recv_rel_new max ordered) evs [] = (r, outs, false) ->
  len outs = len sent ->
  rr_mem r = 0 /\ rr_slices r = [] /\ rr_messages r = [].
Proof.
  intros sent max ordered evs r outs F E L.
  destruct (exec_from_init sent max ordered evs r outs false F E) as ([Hinv Hm Hc Hok Ho] & _).
  destruct Ho as (ND & D & _).
  (* as many distinct ids as there are messages: every message has been handed over *)
  assert (Hall : forall k m, msg_at sent k = Some m ->
                   rr_seen r k = true /\ sm_mem k (rr_messages r) = false).
  { intros k m Hat. apply D. apply (NoDup_length_incl ND (l' := iota (len sent))).
    - rewrite iota_length, map_length. unfold len in *. lia.
    - intros k' Hk. apply in_map_iff in Hk. destruct Hk as ([k'' mk] & <- & Hin).
      unfold outs_ok in Hok. rewrite Forall_forall in Hok. apply in_iota.
      exact (msg_at_lt _ _ _ (Hok _ Hin)).
    - apply in_iota. exact (msg_at_lt _ _ _ Hat). }
  assert (Hmsgs : rr_messages r = []).
  { apply sm_no_mem_nil. intros k. destruct (sm_mem k (rr_messages r)) eqn:Ek; [|reflexivity].
    destruct (sm_mem_find _ _ Ek) as [mk Hf]. destruct (Hall k mk (Hm _ _ Hf)). congruence. }
  assert (Hsl : rr_slices r = []).
  { apply sm_no_mem_nil. intros k. destruct (sm_mem k (rr_slices r)) eqn:Ek; [|reflexivity].
    destruct (sm_mem_find _ _ Ek) as [c Hf]. destruct (Hc k c Hf) as (Hs & m & Hat & _).
    destruct (Hall k m Hat). congruence. }
  destruct Hinv as (I1 & _). rewrite Hmsgs, Hsl in I1. split; [|auto]. rewrite I1. reflexivity.
Qed.

Lemma ordered_all_obtained sent r outs :
  hcore sent r outs -> rr_order r = Ordered -> next_id r = None ->
  (forall id, id < len sent -> rr_seen r id = true) -> map snd outs = sent.
Proof.
  intros H Eo Hn Hall. pose proof (hc_outs _ _ _ H) as Ho. pose proof (hc_outs_ok _ _ _ H) as Hok.
  destruct Ho as (_ & _ & A). specialize (A (proj2 (mode_ordered r) Eo)).
  unfold next_id in Hn. rewrite Eo in Hn.
  destruct (sm_mem (rr_oldest r) (rr_messages r)) eqn:Em; [discriminate|].
  assert (Hlen : len outs = rr_oldest r).
  { apply (f_equal (@length N)) in A. rewrite map_length, iota_length in A. unfold len. lia. }
  assert (Hge : len sent <= rr_oldest r).
  { destruct (N.le_gt_cases (len sent) (rr_oldest r)) as [Hle|Hgt]; [exact Hle|exfalso].
    specialize (Hall _ Hgt). unfold rr_seen in Hall. rewrite Eo, Em in Hall.
    destruct (N.ltb_spec (rr_oldest r) (rr_oldest r)); [lia|discriminate]. }
  assert (Hle : rr_oldest r <= len sent).
  { destruct (N.eq_dec (rr_oldest r) 0) as [->|Hne]; [lia|].
    assert (Hin : In (rr_oldest r - 1) (map fst outs)) by (rewrite A; apply in_iota; lia).
    apply in_map_iff in Hin. destruct Hin as ([id m] & Hid & Hin). cbn [fst] in Hid. subst id.
    unfold outs_ok in Hok. rewrite Forall_forall in Hok. specialize (Hok _ Hin). cbn [fst snd] in Hok.
    apply msg_at_lt in Hok. lia. }
  rewrite (prefix_of_iota sent outs _ A Hok).
  apply firstn_all2. unfold len in *. lia.
Qed.

Lemma unordered_all_obtained sent r outs mr rcv :
  hcore sent r outs -> rr_order r = Unordered mr rcv -> next_id r = None ->
  (forall id, id < len sent -> rr_seen r id = true) -> Permutation (map snd outs) sent.
Proof.
  intros H Eo Hn Hall. pose proof (hc_outs _ _ _ H) as Ho. pose proof (hc_outs_ok _ _ _ H) as Hok.
  destruct Ho as (A & B & _).
  unfold next_id in Hn. rewrite Eo in Hn.
  destruct (rr_messages r) as [|[id0 m0] rest] eqn:Em; [|discriminate].
  unfold outs_ok in Hok.
  assert (Hperm : Permutation (map fst outs) (iota (len sent))).
  { apply NoDup_Permutation; [exact A|apply NoDup_iota|]. intros id. rewrite in_iota. split.
    - intros Hin. apply in_map_iff in Hin. destruct Hin as ([id' m] & <- & Hin).
      rewrite Forall_forall in Hok. specialize (Hok _ Hin). cbn [fst snd] in *. eapply msg_at_lt; eauto.
    - intros Hlt. apply B. split; [auto|reflexivity]. }
  assert (Eg : map snd outs = map (fun id => nth (N.to_nat id) sent []) (map fst outs)).
  { rewrite map_map. apply map_ext_in. intros [id m] Hin. rewrite Forall_forall in Hok.
    specialize (Hok _ Hin). cbn [fst snd] in *. unfold msg_at in Hok. symmetry. now apply nth_error_nth. }
  rewrite Eg. eapply Permutation_trans; [apply Permutation_map; exact Hperm|].
  rewrite map_nth_iota. apply Permutation_refl.
Qed.

(* Hostile or buggy sender only: a slice opens a reassembly for id 0 (3 slices reserved), then a
   small message with the same id is accepted and handed over.  The constructor and its reservation
   of 3 * SLICE_SIZE bytes stay in the channel for good: later slices for id 0 are ignored because
   0 < oldest.  rr_inv (the accounting equality) still holds, and drained_is_empty shows that this
   cannot happen with an honest sender. *)
Example hostile_reservation_leak :
  let pay := repeatN 7 (N.to_nat SLICE_SIZE) in
  let s i := {| sl_id := 0; sl_index := i; sl_num := 3; sl_payload := pay |} in
  (do r1 <- rr_process_slice (recv_rel_new 100000 true) (s 0);
   do r2 <- rr_process_message r1 [1] 0;
   do x <- rr_receive r2;
   do r4 <- rr_process_slice (fst x) (s 1);
   Ok (snd x, rr_oldest r4, rr_mem r4, map fst (rr_slices r4), rr_messages r4))
  = Ok (Some [1], 1, 3 * SLICE_SIZE, [0], []).
Proof. vm_compute. reflexivity. Qed.

(* Unordered mode: the cursor rr_oldest advances past id 1 although message 1 is still waiting
   in rr_messages (hence "id < rr_oldest" does not mean "handed to the application"). *)
Example unordered_cursor_passes_waiting_id :
  (do r1 <- rr_process_message (recv_rel_new 1000 false) [9] 1;
   do r2 <- rr_process_message r1 [8] 0;
   do x <- rr_receive r2;
   Ok (snd x, rr_oldest (fst x), map fst (rr_messages (fst x))))
  = Ok (Some [8], 2, [1]).
Proof. evaluates. Qed.

Print Assumptions rr_inv_init.
Print Assumptions rr_process_message_safe.
Print Assumptions rr_process_slice_safe.
Print Assumptions rr_receive_safe.
Print Assumptions ordered_prefix.
Print Assumptions unordered_exactly_once.
Print Assumptions honest_step_ok_or_memory.
Print Assumptions exec_stops_only_on_memory.
Print Assumptions unordered_eager.
Print Assumptions unordered_receive_available.
Print Assumptions ordered_complete_buffered.
Print Assumptions ordered_receive_available.
Print Assumptions drained_is_empty.

(* SMapSendP.v - what the send-channel proofs share: the [keys_ascending] ordering of SendSpec.v is
   [RecvSpec.asc] plus a lower bound ([keys_asc_asc], through which the send side uses SMapP.v); counting
   the acknowledgement flags of a sliced message; slice payload lengths and the rotation of the slice
   index; [seqs_from] and [payload_total] over an append. *)
From RenetV Require Export BaseP SMapP.
From RenetV Require Import Base Consts Varint Packet Channels RecvSpec SendSpec.
From RenetV Require SliceP.
Require Import Lia ZifyBool ZifyN ZifyNat.
Open Scope N_scope.

Lemma sum_one x : sum [x] = x.
Proof. rewrite sum_cons, sum_nil. lia. Qed.

Lemma nth_opt_none {A} (l : list A) i : (length l <= i)%nat -> nth_opt l i = None.
Proof. exact (BaseP.nth_opt_none l i). Qed.

Lemma nth_opt_repeatN {A} (x : A) n i : (i < n)%nat -> nth_opt (repeatN x n) i = Some x.
Proof.
  revert i; induction n; intros [|i] H; cbn [repeatN nth_opt]; try lia; auto. apply IHn. lia.
Qed.

(* the acknowledgement flags of a sliced message: [unacked_wf] counts the set ones as
   [len (filter (fun b => b) l)], and these are BaseP's facts about [len (filter p l)] at that p *)
Lemma count_true_upd l i :
  nth_opt l i = Some false -> len (filter (fun b => b) (upd l i true)) = len (filter (fun b => b) l) + 1.
Proof. intros H. exact (len_filter_upd (fun b => b) l i false true H eq_refl eq_refl). Qed.

Lemma count_true_not_full l :
  len (filter (fun b => b) l) < len l -> exists i, nth_opt l i = Some false.
Proof. intros E. destruct (len_filter_not_full _ l E) as (i & b & Hi & ->). now exists i. Qed.

(* flag i is about to be set: it is the last one iff the count is one short of the length *)
Lemma count_true_upd_full l i :
  nth_opt l i = Some false -> len (filter (fun b => b) l) + 1 = len l ->
  forall j, (j < length l)%nat -> j <> i -> nth_opt l j = Some true.
Proof.
  intros Hi Hc j Hj Hne. destruct (nth_opt_lt l j Hj) as (b & Hb). rewrite Hb.
  rewrite <- (nth_opt_upd_other l i j true) in Hb by auto. apply nth_opt_in in Hb.
  rewrite (len_filter_full (fun b => b) (upd l i true)) with (x := b); [reflexivity| |exact Hb].
  rewrite count_true_upd, len_upd by exact Hi. exact Hc.
Qed.

Lemma count_true_upd_not_full l i :
  nth_opt l i = Some false -> len (filter (fun b => b) l) + 1 <> len l ->
  exists j, j <> i /\ nth_opt l j = Some false.
Proof.
  intros Hi Hc. pose proof (len_filter_le (fun b => b) (upd l i true)) as Hle.
  destruct (count_true_not_full (upd l i true)) as (j & Hj).
  { rewrite count_true_upd, len_upd in * by exact Hi. lia. }
  exists j. destruct (Nat.eq_dec j i) as [->|Hne].
  - rewrite nth_opt_upd_same in Hj by (eapply nth_opt_some_lt; eauto). discriminate.
  - split; auto. now rewrite nth_opt_upd_other in Hj by auto.
Qed.

Lemma keys_asc_weaken lo lo' ks : lo' <= lo -> keys_ascending lo ks -> keys_ascending lo' ks.
Proof.
  destruct ks as [|k t]; cbn [keys_ascending]; auto. intros H [H1 H2]. split; [lia|auto].
Qed.

Lemma keys_asc_tail lo k ks : keys_ascending lo (k :: ks) -> keys_ascending lo ks.
Proof.
  cbn [keys_ascending]. intros [H1 H2]. eapply keys_asc_weaken; [|exact H2]. lia.
Qed.

Lemma keys_asc_asc lo ks : keys_ascending lo ks -> Forall (fun k => lo <= k) ks /\ asc ks.
Proof.
  revert lo. induction ks as [|k t IH]; intros lo; cbn [keys_ascending asc]; [auto|].
  intros [H1 H2]. destruct (IH _ H2) as [F A]. repeat split; [|  |exact A].
  - constructor; [exact H1|]. eapply Forall_impl; [|exact F]. cbv beta. intros; lia.
  - eapply Forall_impl; [|exact F]. cbv beta. intros; lia.
Qed.

Lemma keys_asc_lb lo ks : keys_ascending lo ks -> Forall (fun k => lo <= k) ks.
Proof. apply keys_asc_asc. Qed.

Lemma keys_asc_nodup lo ks : keys_ascending lo ks -> NoDup ks.
Proof. intros H. apply SMapP.asc_NoDup, (keys_asc_asc lo ks H). Qed.

Section SMapLemmas.
  Context {V : Type}.
  Implicit Types (m : list (N * V)) (k lo : N) (v : V).

  Lemma sm_remove_absent m k : sm_find k m = None -> sm_remove k m = m.
  Proof. apply SMapP.sm_remove_none. Qed.

  Lemma sm_insert_last m k v :
    Forall (fun kv => fst kv < k) m -> sm_insert k v m = m ++ [(k, v)].
  Proof.
    induction m as [|[k' v'] t IH]; intros H; cbn [sm_insert app]; auto.
    inversion H; subst. cbn [fst] in *.
    destruct (N.ltb_spec k k'); [lia|]. destruct (N.eqb_spec k k'); [lia|].
    now rewrite IH.
  Qed.

  Lemma keys_asc_app_last lo m k v :
    keys_ascending lo (map fst m) -> Forall (fun kv => fst kv < k) m -> lo <= k ->
    keys_ascending lo (map fst (m ++ [(k, v)])).
  Proof.
    revert lo; induction m as [|[k' v'] t IH]; intros lo H HF Hlo; cbn [app map fst keys_ascending].
    - split; [exact Hlo|exact I].
    - cbn in H. destruct H as [H1 H2]. inversion HF; subst. cbn [fst] in *.
      split; [exact H1|]. apply IH; auto. lia.
  Qed.

  Lemma keys_asc_remove lo m k :
    keys_ascending lo (map fst m) -> keys_ascending lo (map fst (sm_remove k m)).
  Proof.
    revert lo; induction m as [|[k' v'] t IH]; intros lo H; cbn [sm_remove]; auto.
    destruct (N.eqb_spec k k') as [->|Hne].
    - cbn [map fst] in H. eapply keys_asc_tail. exact H.
    - cbn in H. destruct H as [H1 H2]. cbn [map fst keys_ascending]. split; auto.
  Qed.

  Lemma sm_find_app_last m k v j :
    sm_find j (m ++ [(k, v)]) =
    match sm_find j m with Some x => Some x | None => if j =? k then Some v else None end.
  Proof.
    induction m as [|[k' v'] t IH]; cbn [app sm_find]; auto.
    destruct (N.eqb_spec j k'); auto.
  Qed.
End SMapLemmas.

Lemma SS_value : SLICE_SIZE = 1200.
Proof. reflexivity. Qed.

Local Opaque SLICE_SIZE.

Lemma varint_len_bounds v : 1 <= varint_len v <= 8.
Proof.
  unfold varint_len.
  destruct (v <=? 63); [lia|]. destruct (v <=? 16383); [lia|].
  destruct (v <=? 1073741823); lia.
Qed.

Definition plen (m : list N) (i : N) : N := len (slice_payload m i).

Lemma plen_bounds m i :
  0 < len m -> i < num_slices_of m -> 1 <= plen m i <= SLICE_SIZE.
Proof. apply SliceP.len_payload_bounds. Qed.

(* the range test of message.slice(start..end) never fires for a valid index *)
Lemma slice_range_test m i :
  0 < len m -> i < num_slices_of m ->
  let s := i * SLICE_SIZE in
  let e := if i =? num_slices_of m - 1 then len m else (i + 1) * SLICE_SIZE in
  (e <? s) || (len m <? e) = false.
Proof.
  intros HL Hi s e. destruct (SliceP.num_spec m HL) as (_ & B1 & _).
  assert (s <= e /\ e <= len m); [|lia].
  subst s e. destruct (N.eqb_spec i (num_slices_of m - 1)) as [->|Hne]; [lia|].
  pose proof (N.mul_le_mono_r (i + 1) (num_slices_of m - 1) SLICE_SIZE ltac:(lia)). lia.
Qed.

Lemma len_concat_map {A} (f : A -> list N) l : len (concat (map f l)) = sum (map (fun x => len (f x)) l).
Proof.
  induction l as [|x l IH]; [reflexivity|]. cbn [map concat]. rewrite len_app, sum_cons, IH. reflexivity.
Qed.

Lemma sum_plen_all m :
  0 < len m -> sum (map (plen m) (iota (num_slices_of m))) = len m.
Proof.
  intros HL. unfold plen. rewrite <- len_concat_map, SliceP.concat_payload_all by exact HL. reflexivity.
Qed.

Lemma sum_plen_sent m sent :
  0 < len m -> NoDup sent -> (forall i, In i sent -> i < num_slices_of m) ->
  sum (map (plen m) sent) <= len m.
Proof.
  intros HL ND Hlt. rewrite <- (sum_plen_all m HL).
  apply sum_nodup_le; [exact ND|]. intros i Hi. apply in_iota. auto.
Qed.

Lemma rot_inj num start j1 j2 :
  0 < num -> j1 < num -> j2 < num ->
  (start + j1) mod num = (start + j2) mod num -> j1 = j2.
Proof.
  intros Hn H1 H2 E. destruct (N.le_ge_cases j1 j2) as [L|L].
  - pose proof (mod_window num (start + j1) (start + j2) Hn E ltac:(lia) ltac:(lia)). lia.
  - pose proof (mod_window num (start + j2) (start + j1) Hn (eq_sym E) ltac:(lia) ltac:(lia)). lia.
Qed.

Lemma rot_surj num start i : 0 < num -> i < num -> exists j, j < num /\ (start + j) mod num = i.
Proof.
  intros Hn Hi. exists ((i + num - start mod num) mod num).
  pose proof (N.mod_lt start num ltac:(lia)) as Hs.
  split; [apply N.mod_lt; lia|].
  rewrite N.add_mod_idemp_r by lia. rewrite <- N.add_mod_idemp_l by lia.
  replace (start mod num + (i + num - start mod num)) with (i + 1 * num) by lia.
  rewrite N.mod_add by lia. apply N.mod_small. exact Hi.
Qed.

Lemma seqs_from_app s p q : seqs_from s (p ++ q) <-> seqs_from s p /\ seqs_from (s + len p) q.
Proof.
  revert s; induction p as [|x p IH]; intros s; cbn [app seqs_from].
  - rewrite len_nil, N.add_0_r. tauto.
  - rewrite IH, len_cons, N.add_assoc. tauto.
Qed.

Lemma payload_total_app p q : payload_total (p ++ q) = payload_total p + payload_total q.
Proof. unfold payload_total. now rewrite map_app, sum_app. Qed.

Lemma msgs_bytes_app p q : msgs_bytes (p ++ q) = msgs_bytes p + msgs_bytes q.
Proof. unfold msgs_bytes. now rewrite map_app, sum_app. Qed.


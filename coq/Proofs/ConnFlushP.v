(* ConnFlushP.v - get_packets_to_send: the loops gather, record_sent, serialize_all, and a
   case analysis of the whole call from which the flush theorems of ConnP.v are read off. *)
From RenetV Require Import Base Consts Varint Packet Channels Conn.
From RenetV Require Import CodecSpec RecvSpec SendSpec ConnSpec ConnInvSpec.
From RenetV Require Import SMapP ConnBaseP ConnProcP BaseP.
From RenetV Require AcksP VarintP PacketP SMapSendP SendRelP SendUnrelP ConnEncP.
Require Import Lia ZifyBool ZifyN ZifyNat.
Open Scope N_scope.

Local Opaque SLICE_SIZE MAX_ACK_RANGES SER_BUFFER NC_MAX_PAYLOAD_BYTES DISCARD_PACKET_SECS VARINT_MAX.

Lemma gather_rel_complete ord : forall c avail acc c1 av pk0,
  gather ord c avail acc = Ok (c1, av, pk0) -> exists pk, pk0 = acc ++ pk /\ gather_rel ord c avail c1 av pk.
Proof.
  induction ord as [|[[] ch] t IH]; intros c avail acc c1 av pk0 E; cbn [gather] in E.
  - injection E as <- <- <-. exists []. split; [now rewrite app_nil_r|constructor].
  - destruct (sm_find ch (c_sr c)) as [s|] eqn:Hs; [|discriminate].
    destruct (sr_get_packets s (c_seq c) avail (c_now c)) as [[[[s' pk] seq'] av1]|er|st] eqn:Eg;
      cbn [lift bind] in E; try discriminate.
    destruct (IH _ _ _ _ _ _ E) as (pk2 & -> & Hrel). exists (pk ++ pk2). split; [now rewrite app_assoc|].
    exact (GRel _ _ _ _ _ _ _ _ _ _ _ _ Hs Eg Hrel).
  - destruct (sm_find ch (c_su c)) as [s|] eqn:Hs; [|discriminate].
    destruct (su_get_packets s (c_seq c) avail) as [[[[s' pk] seq'] av1]|er|st] eqn:Eg;
      cbn [lift bind] in E; try discriminate.
    destruct (IH _ _ _ _ _ _ E) as (pk2 & -> & Hrel). exists (pk ++ pk2). split; [now rewrite app_assoc|].
    exact (GUnrel _ _ _ _ _ _ _ _ _ _ _ _ Hs Eg Hrel).
Qed.

Lemma gather_rel_sound ord c avail c1 av pk :
  gather_rel ord c avail c1 av pk -> forall acc, gather ord c avail acc = Ok (c1, av, acc ++ pk).
Proof.
  induction 1 as [c avail|ch t c avail s s' pk seq' av1 c2 av2 pk2 Hs Eg _ IH
                         |ch t c avail s s' pk seq' av1 c2 av2 pk2 Hs Eg _ IH]; intros acc; cbn [gather].
  - now rewrite app_nil_r.
  - rewrite Hs, Eg. cbn [lift bind]. rewrite IH, app_assoc. reflexivity.
  - rewrite Hs, Eg. cbn [lift bind]. rewrite IH, app_assoc. reflexivity.
Qed.

Lemma seqs_from_bounds pk : forall seq, seqs_from seq pk ->
  Forall (fun p => seq <= packet_seq p /\ packet_seq p < seq + len pk) pk.
Proof.
  induction pk as [|p t IH]; intros seq H; [constructor|].
  cbn [seqs_from] in H. destruct H as [H1 H2]. rewrite len_cons. constructor; [lia|].
  eapply Forall_impl; [|apply (IH _ H2)]. cbn beta. intros q. lia.
Qed.

Lemma seqs_from_nodup pk : forall seq, seqs_from seq pk -> NoDup (map packet_seq pk).
Proof.
  induction pk as [|p t IH]; intros seq H; cbn [map]; [constructor|].
  cbn [seqs_from] in H. destruct H as [H1 H2]. constructor; [|eauto].
  intros Hin. apply in_map_iff in Hin. destruct Hin as (q & Hq & Hin).
  pose proof (seqs_from_bounds _ _ H2) as HB. rewrite Forall_forall in HB. specialize (HB _ Hin). lia.
Qed.

(* sizes of the packets the channels build (C13) *)

Definition pkt_fits (p : packet) : Prop := len (PacketP.enc_packet p) <= NC_MAX_PAYLOAD_BYTES.

Lemma rel_msgs_size_entry ms : PacketP.rel_msgs_size ms = sum (map rel_entry_size ms).
Proof.
  unfold PacketP.rel_msgs_size. induction ms as [|im t IH]; [reflexivity|].
  cbn [map]. rewrite !sum_cons, IH. unfold rel_entry_size. lia.
Qed.

Lemma unrel_msgs_size_entry ms : PacketP.unrel_msgs_size ms = sum (map unrel_entry_size ms).
Proof.
  unfold PacketP.unrel_msgs_size. induction ms as [|m t IH]; [reflexivity|].
  cbn [map]. rewrite !sum_cons, IH. unfold unrel_entry_size. lia.
Qed.

Lemma rel_size_fits s' p : SendRelP.rel_size_ok s' p -> pkt_fits p.
Proof.
  unfold pkt_fits. destruct p as [sq ch ms|sq ch ms|sq ch sl|sq ch sl|sq rs];
    cbn [SendRelP.rel_size_ok]; try contradiction.
  - intros (_ & H & _). rewrite PacketP.enc_len_small_reliable, rel_msgs_size_entry.
    pose proof (VarintP.varint_len_le8 sq). pose proof small_reliable_fits. lia.
  - intros ((_ & H) & _). rewrite PacketP.enc_len_reliable_slice.
    pose proof (PacketP.enc_slice_len_le sl) as Hs. rewrite PacketP.enc_slice_len in Hs.
    pose proof (VarintP.varint_len_le8 sq). pose proof slice_fits. lia.
Qed.

Lemma unrel_size_fits p : SendUnrelP.unrel_size_ok p -> pkt_fits p.
Proof.
  unfold pkt_fits. destruct p as [sq ch ms|sq ch ms|sq ch sl|sq ch sl|sq rs];
    cbn [SendUnrelP.unrel_size_ok]; try contradiction.
  - intros (_ & H & _). rewrite PacketP.enc_len_small_unreliable, unrel_msgs_size_entry.
    pose proof (VarintP.varint_len_le8 sq). pose proof small_unreliable_fits. lia.
  - intros ((_ & H) & _). rewrite PacketP.enc_len_unreliable_slice.
    pose proof (PacketP.enc_slice_len_le sl) as Hs. rewrite PacketP.enc_slice_len in Hs.
    pose proof (VarintP.varint_len_le8 sq). pose proof slice_fits. lia.
Qed.

Lemma ack_pkt_fits sq rs : len rs <= MAX_ACK_RANGES -> pkt_fits (Ack sq rs).
Proof.
  intros H. unfold pkt_fits. pose proof (PacketP.enc_len_ack sq rs). pose proof ack_fits. lia.
Qed.

Lemma small_rel_count sq ch ms : pkt_fits (SmallReliable sq ch ms) -> len ms < 65536.
Proof.
  unfold pkt_fits. rewrite PacketP.enc_len_small_reliable, rel_msgs_size_entry.
  pose proof (SendRelP.entry_size_ge2 ms). pose proof NC_MAX_PAYLOAD_BYTES_value. lia.
Qed.

Lemma small_unrel_count sq ch ms : pkt_fits (SmallUnreliable sq ch ms) -> len ms < 65536.
Proof.
  unfold pkt_fits. rewrite PacketP.enc_len_small_unreliable, unrel_msgs_size_entry.
  pose proof (SendUnrelP.unrel_entry_ge1 ms). pose proof NC_MAX_PAYLOAD_BYTES_value. lia.
Qed.

Lemma unrel_size_not_ack p : SendUnrelP.unrel_size_ok p -> is_ack p = false /\ pkt_info p = SINone.
Proof. destruct p; cbn [SendUnrelP.unrel_size_ok]; try contradiction; auto. Qed.

Lemma rel_packet_info_ok now ch s' sr p :
  sr_inv now s' -> sm_find ch sr = Some s' -> rel_packet_ok ch s' p ->
  sent_info_ok sr (pkt_info p) /\ is_ack p = false.
Proof.
  intros Hinv Hf. destruct p as [sq c ms|sq c ms|sq c sl|sq c sl|sq rs];
    cbn [rel_packet_ok]; try contradiction.
  - intros [-> HF]. split; [|reflexivity]. cbn [pkt_info sent_info_ok].
    exists s'. split; [exact Hf|]. rewrite Forall_forall in *. intros id Hid.
    apply in_map_iff in Hid. destruct Hid as (im & <- & Him).
    destruct (HF _ Him) as (_ & l & Hl).
    destruct (SendRelP.sr_inv_find _ _ _ _ Hinv Hl) as (Hlt & _).
    split; [exact Hlt|]. right. unfold kind_of. rewrite Hl. reflexivity.
  - intros [-> (m & num & na & nx & ak & ls & Hl & _ & Hidx)]. split; [|reflexivity].
    cbn [pkt_info sent_info_ok]. exists s'. split; [exact Hf|].
    destruct (SendRelP.sr_inv_find _ _ _ _ Hinv Hl) as (Hlt & _).
    split; [exact Hlt|]. right. exists num. split; [|exact Hidx]. unfold kind_of. rewrite Hl. reflexivity.
Qed.

Definition gathered_ok (sr : list (N * send_rel)) (p : packet) : Prop :=
  sent_info_ok sr (pkt_info p) /\ is_ack p = false /\ pkt_fits p.

Definition sr_same_kinds (sr sr' : list (N * send_rel)) : Prop :=
  forall ch, match sm_find ch sr with
             | None => sm_find ch sr' = None
             | Some s => exists s', sm_find ch sr' = Some s' /\ sr_next_id s' = sr_next_id s /\
                                    forall id, kind_of s' id = kind_of s id
             end.

(* sr_same_kinds sr sr' is sm_rel same_kinds sr sr' *)
Definition same_kinds (_ : N) (s s' : send_rel) : Prop :=
  sr_next_id s' = sr_next_id s /\ forall id, kind_of s' id = kind_of s id.

Lemma sr_same_kinds_refl sr : sr_same_kinds sr sr.
Proof. apply (sm_rel_refl same_kinds). split; reflexivity. Qed.

Lemma sr_same_kinds_trans a b c : sr_same_kinds a b -> sr_same_kinds b c -> sr_same_kinds a c.
Proof.
  apply (sm_rel_trans same_kinds).
  intros _ s1 s2 s3 [N1 K1] [N2 K2]. split; [congruence|]. intros id. now rewrite K2, K1.
Qed.

Lemma sr_same_kinds_info sr sr' i : sr_same_kinds sr sr' -> sent_info_ok sr i -> sent_info_ok sr' i.
Proof.
  intros H. destruct i as [|ch ids|ch id idx|l]; cbn [sent_info_ok]; auto.
  - intros (s & Hs & Hids). specialize (H ch). rewrite Hs in H. destruct H as (s' & Hs' & Hn & Hk).
    exists s'. split; [exact Hs'|]. eapply Forall_impl; [|exact Hids].
    intros id [A B]. split; [lia|]. now rewrite Hk.
  - intros (s & Hs & A & B). specialize (H ch). rewrite Hs in H. destruct H as (s' & Hs' & Hn & Hk).
    exists s'. split; [exact Hs'|]. split; [lia|]. now rewrite Hk.
Qed.

Definition frame_gather (c c' : conn) : Prop :=
  c_now c' = c_now c /\ c_sent c' = c_sent c /\ c_acks c' = c_acks c /\ c_order c' = c_order c /\
  c_rr c' = c_rr c /\ c_ru c' = c_ru c /\ c_budget c' = c_budget c /\ c_status c' = c_status c.

Lemma frame_gather_trans a b c : frame_gather a b -> frame_gather b c -> frame_gather a c.
Proof.
  intros (A1 & A2 & A3 & A4 & A5 & A6 & A7 & A8) (B1 & B2 & B3 & B4 & B5 & B6 & B7 & B8).
  repeat split; congruence.
Qed.

(* what the loop, or one turn of it, has done when it has emitted pk and left avail' of the budget avail *)
Set Implicit Arguments.
Record gathered (c : conn) (avail : N) (c' : conn) (avail' : N) (pk : list packet) : Prop := {
  g_inv : conn_inv c';
  g_seq : c_seq c' = c_seq c + len pk;
  g_seqs : seqs_from (c_seq c) pk;
  g_avail : avail' + payload_total pk = avail;
  g_frame : frame_gather c c';
  g_kinds : sr_same_kinds (c_sr c) (c_sr c');
  g_pkts : Forall (gathered_ok (c_sr c')) pk }.
Unset Implicit Arguments.

Lemma gathered_nil c avail : conn_inv c -> gathered c avail c avail [].
Proof.
  intros Hi. constructor; [exact Hi|rewrite len_nil; lia|exact I| |repeat split|apply sr_same_kinds_refl|constructor].
  unfold payload_total. cbn [map]. rewrite sum_nil. lia.
Qed.

Lemma gathered_app c av c1 av1 pk1 c2 av2 pk2 :
  gathered c av c1 av1 pk1 -> gathered c1 av1 c2 av2 pk2 -> gathered c av c2 av2 (pk1 ++ pk2).
Proof.
  intros G1 G2. pose proof (g_seq G1) as Hseq. pose proof (g_avail G1) as Hav. constructor.
  - exact (g_inv G2).
  - rewrite len_app, (g_seq G2). lia.
  - apply SMapSendP.seqs_from_app. split; [exact (g_seqs G1)|]. rewrite <- Hseq. exact (g_seqs G2).
  - rewrite SMapSendP.payload_total_app. pose proof (g_avail G2). lia.
  - exact (frame_gather_trans _ _ _ (g_frame G1) (g_frame G2)).
  - exact (sr_same_kinds_trans _ _ _ (g_kinds G1) (g_kinds G2)).
  - apply Forall_app. split; [|exact (g_pkts G2)].
    eapply Forall_impl; [|exact (g_pkts G1)]. intros p (A & B & C). split; [|auto].
    exact (sr_same_kinds_info _ _ _ (g_kinds G2) A).
Qed.

Lemma rel_turn_facts ch c avail s s' pk seq' avail' :
  conn_inv c -> sm_find ch (c_sr c) = Some s ->
  sr_get_packets s (c_seq c) avail (c_now c) = Ok (s', pk, seq', avail') ->
  gathered c avail (with_seq (with_sr c (sm_insert ch s' (c_sr c))) seq') avail' pk.
Proof.
  intros Hi Hs Eg. destruct (inv_find_sr _ _ _ Hi Hs) as [Hsi Hch].
  destruct (SendRelP.sr_get_packets_safe (c_now c) s (c_seq c) avail Hsi)
    as (s1 & pk1 & av1 & E1 & Hs1 & _ & Hn1 & Hk1 & Hav & Hseqs & Hpk).
  rewrite Eg in E1. inversion E1; subst s1 pk1 seq' av1. clear E1. rewrite Hch in Hpk.
  pose proof (SendRelP.sr_get_packets_config _ _ _ _ _ _ _ _ Hsi Eg) as (Hch' & _).
  pose proof (SendRelP.sr_get_packets_sizes _ _ _ _ _ _ _ _ Hsi Eg) as Hsz.
  set (c' := with_seq (with_sr c (sm_insert ch s' (c_sr c))) (c_seq c + len pk)).
  assert (Hfind' : sm_find ch (c_sr c') = Some s') by apply sm_find_insert_same.
  constructor; [|reflexivity|exact Hseqs|exact Hav|repeat split| |].
  - apply inv_with_seq; [|cbn [with_sr c_seq]; lia].
    apply (inv_with_sr c ch s s'); auto; [congruence|]. split; [lia|]. intros id _. left. apply Hk1.
  - apply (sm_rel_insert same_kinds _ s); [split; reflexivity|exact Hs|split; auto].
  - rewrite Forall_forall in *. intros p Hp.
    destruct (rel_packet_info_ok (c_now c) ch s' (c_sr c') p Hs1 Hfind' (Hpk p Hp)) as [A B].
    split; [exact A|]. split; [exact B|]. eapply rel_size_fits. apply Hsz. exact Hp.
Qed.

Lemma unrel_turn_facts ch c avail s s' pk seq' avail' :
  conn_inv c -> sm_find ch (c_su c) = Some s ->
  su_get_packets s (c_seq c) avail = Ok (s', pk, seq', avail') ->
  gathered c avail (with_seq (with_su c (sm_insert ch s' (c_su c))) seq') avail' pk.
Proof.
  intros Hi Hs Eg. destruct (inv_find_su _ _ _ Hi Hs) as [Hsi Hch].
  destruct (SendUnrelP.su_get_packets_safe s (c_seq c) avail Hsi)
    as (s1 & pk1 & av1 & E1 & Hs1 & _ & _ & Hav & Hseqs).
  rewrite Eg in E1. inversion E1; subst s1 pk1 seq' av1. clear E1.
  assert (Hch' : su_ch s' = ch).
  { rewrite <- Hch. rewrite (SendUnrelP.su_get_packets_spec s (c_seq c) avail Hsi) in Eg.
    unfold SendUnrelP.su_spec in Eg. inversion Eg. reflexivity. }
  constructor; [|reflexivity|exact Hseqs|exact Hav|repeat split|apply sr_same_kinds_refl|].
  - apply inv_with_seq; [|cbn [with_su c_seq]; lia]. apply inv_with_su; auto.
  - eapply Forall_impl; [|exact (SendUnrelP.su_get_packets_sizes _ _ _ _ _ _ _ Hsi Eg)]. intros p Hp.
    destruct (unrel_size_not_ack p Hp) as [A B]. split; [rewrite B; exact I|].
    split; [exact A|]. now apply unrel_size_fits.
Qed.

(* gather_rel's own induction (GNil / GRel / GUnrel), with the connection invariant before the turn, the invariant
   and id of the channel served, and what its turn did *)
Lemma gather_rel_inv_ind (P : list (bool * N) -> conn -> N -> conn -> N -> list packet -> Prop) :
  (forall c av, conn_inv c -> P [] c av c av []) ->
  (forall ch t c av s s' pk seq' av1 c2 av2 pk2,
     sm_find ch (c_sr c) = Some s -> sr_inv (c_now c) s -> sr_ch s = ch ->
     sr_get_packets s (c_seq c) av (c_now c) = Ok (s', pk, seq', av1) ->
     gathered c av (with_seq (with_sr c (sm_insert ch s' (c_sr c))) seq') av1 pk ->
     P t (with_seq (with_sr c (sm_insert ch s' (c_sr c))) seq') av1 c2 av2 pk2 ->
     P ((true, ch) :: t) c av c2 av2 (pk ++ pk2)) ->
  (forall ch t c av s s' pk seq' av1 c2 av2 pk2,
     sm_find ch (c_su c) = Some s -> su_inv s -> su_ch s = ch ->
     su_get_packets s (c_seq c) av = Ok (s', pk, seq', av1) ->
     gathered c av (with_seq (with_su c (sm_insert ch s' (c_su c))) seq') av1 pk ->
     P t (with_seq (with_su c (sm_insert ch s' (c_su c))) seq') av1 c2 av2 pk2 ->
     P ((false, ch) :: t) c av c2 av2 (pk ++ pk2)) ->
  forall ord c av c2 av2 pk, gather_rel ord c av c2 av2 pk -> conn_inv c -> P ord c av c2 av2 pk.
Proof.
  intros Hnil Hrel Hunrel.
  induction 1 as [c av|ch t c av s s' pk seq' av1 c2 av2 pk2 Hs Eg _ IH
                      |ch t c av s s' pk seq' av1 c2 av2 pk2 Hs Eg _ IH]; intros Hi.
  - now apply Hnil.
  - pose proof (rel_turn_facts _ _ _ _ _ _ _ _ Hi Hs Eg) as G. destruct (inv_find_sr _ _ _ Hi Hs) as [Hsi Hch].
    exact (Hrel ch t c av s s' pk seq' av1 c2 av2 pk2 Hs Hsi Hch Eg G (IH (g_inv G))).
  - pose proof (unrel_turn_facts _ _ _ _ _ _ _ _ Hi Hs Eg) as G. destruct (inv_find_su _ _ _ Hi Hs) as [Hsi Hch].
    exact (Hunrel ch t c av s s' pk seq' av1 c2 av2 pk2 Hs Hsi Hch Eg G (IH (g_inv G))).
Qed.

Lemma gather_facts : forall ord c avail c1 av pk,
  gather_rel ord c avail c1 av pk -> conn_inv c -> gathered c avail c1 av pk.
Proof.
  apply gather_rel_inv_ind.
  - intros c av Hi. now apply gathered_nil.
  - intros ch t c av s s' pk seq' av1 c2 av2 pk2 _ _ _ _ G IH. exact (gathered_app _ _ _ _ _ _ _ _ G IH).
  - intros ch t c av s s' pk seq' av1 c2 av2 pk2 _ _ _ _ G IH. exact (gathered_app _ _ _ _ _ _ _ _ G IH).
Qed.

Lemma gather_total ord : forall c avail, conn_inv c -> Forall (order_ok (c_sr c) (c_su c)) ord ->
  exists c1 av pk, gather_rel ord c avail c1 av pk.
Proof.
  induction ord as [|[[] ch] t IH]; intros c avail Hi Hord.
  - exists c, avail, []. constructor.
  - inversion Hord as [|? ? Hhd Htl]; subst. destruct (sm_mem_find _ _ Hhd) as (s & Hs).
    destruct (inv_find_sr _ _ _ Hi Hs) as [Hsi _].
    destruct (SendRelP.sr_get_packets_safe (c_now c) s (c_seq c) avail Hsi) as (s' & pk & av1 & Eg & _).
    destruct (IH _ av1 (g_inv (rel_turn_facts _ _ _ _ _ _ _ _ Hi Hs Eg))) as (c1 & av & pk2 & Hrel).
    { eapply Forall_impl; [|exact Htl]. intros e'. apply order_ok_insert_sr. }
    exists c1, av, (pk ++ pk2). exact (GRel _ _ _ _ _ _ _ _ _ _ _ _ Hs Eg Hrel).
  - inversion Hord as [|? ? Hhd Htl]; subst. destruct (sm_mem_find _ _ Hhd) as (s & Hs).
    destruct (inv_find_su _ _ _ Hi Hs) as [Hsi _].
    destruct (SendUnrelP.su_get_packets_safe s (c_seq c) avail Hsi) as (s' & pk & av1 & Eg & _).
    destruct (IH _ av1 (g_inv (unrel_turn_facts _ _ _ _ _ _ _ _ Hi Hs Eg))) as (c1 & av & pk2 & Hrel).
    { eapply Forall_impl; [|exact Htl]. intros e'. apply order_ok_insert_su. }
    exists c1, av, (pk ++ pk2). exact (GUnrel _ _ _ _ _ _ _ _ _ _ _ _ Hs Eg Hrel).
Qed.

Definition rec_sent (now : N) (pk : list packet) (sent : list (N * (N * sent_info))) :=
  fold_left (fun acc p => sm_insert (packet_seq p) (now, pkt_info p) acc) pk sent.

Lemma info_of_data p : is_ack p = false -> info_of p = Ok (pkt_info p).
Proof. destruct p; cbn [is_ack]; try discriminate; reflexivity. Qed.

Lemma info_of_ack sq rs : rs <> [] -> ranges_wf 0 rs -> info_of (Ack sq rs) = Ok (pkt_info (Ack sq rs)).
Proof.
  intros Hne Hwf. destruct (AcksP.ranges_last_end_ex rs Hwf Hne) as (l0 & a & b & -> & _ & Hb & _).
  cbn [info_of pkt_info]. rewrite rev_app_distr. cbn [List.rev app]. rewrite last_last. cbn [snd].
  unfold sub_chk. destruct (N.leb_spec 1 b); [reflexivity|lia].
Qed.

Lemma record_sent_spec now pk : forall sent,
  Forall (fun p => info_of p = Ok (pkt_info p)) pk ->
  record_sent now pk sent = Ok (rec_sent now pk sent).
Proof.
  induction pk as [|p t IH]; intros sent H; cbn [record_sent rec_sent fold_left]; [reflexivity|].
  inversion H as [|? ? Hp Ht]; subst. rewrite Hp. cbn [bind]. now apply IH.
Qed.

Lemma rec_sent_sorted now pk : forall sent, sorted_keys sent -> sorted_keys (rec_sent now pk sent).
Proof.
  induction pk as [|p t IH]; intros sent H; cbn [rec_sent fold_left]; [exact H|].
  apply IH. apply asc_sm_insert. exact H.
Qed.

Lemma rec_sent_Forall (P : N * (N * sent_info) -> Prop) now pk : forall sent,
  Forall P sent -> Forall (fun p => P (packet_seq p, (now, pkt_info p))) pk ->
  Forall P (rec_sent now pk sent).
Proof.
  induction pk as [|p t IH]; intros sent H1 H2; cbn [rec_sent fold_left]; [exact H1|].
  inversion H2; subst. apply IH; [|assumption]. apply Forall_sm_insert; assumption.
Qed.

Lemma rec_sent_find_old now pk : forall sent k,
  ~ In k (map packet_seq pk) -> sm_find k (rec_sent now pk sent) = sm_find k sent.
Proof.
  induction pk as [|p t IH]; intros sent k Hk; cbn [rec_sent fold_left]; [reflexivity|].
  cbn [map In] in Hk. fold (rec_sent now t (sm_insert (packet_seq p) (now, pkt_info p) sent)).
  rewrite IH by tauto. apply sm_find_insert_other. intros ->. tauto.
Qed.

Lemma rec_sent_find_new now pk : forall sent, NoDup (map packet_seq pk) ->
  forall p, In p pk -> sm_find (packet_seq p) (rec_sent now pk sent) = Some (now, pkt_info p).
Proof.
  induction pk as [|q t IH]; intros sent Hnd p Hin; [inversion Hin|].
  cbn [map] in Hnd. inversion Hnd as [|? ? Hq Hnd']; subst.
  cbn [rec_sent fold_left]. fold (rec_sent now t (sm_insert (packet_seq q) (now, pkt_info q) sent)).
  destruct Hin as [->|Hin]; [|now apply IH].
  rewrite rec_sent_find_old by exact Hq. apply sm_find_insert_same.
Qed.

Lemma rec_sent_find_inv now pk : forall sent k v,
  sm_find k (rec_sent now pk sent) = Some v ->
  sm_find k sent = Some v \/ exists p, In p pk /\ packet_seq p = k /\ v = (now, pkt_info p).
Proof.
  induction pk as [|q t IH]; intros sent k v H; cbn [rec_sent fold_left] in H; [now left|].
  apply IH in H. destruct H as [H|(p & Hp & Hk & Hv)].
  - rewrite sm_find_insert in H. destruct (N.eqb_spec k (packet_seq q)) as [->|Hne]; [|now left].
    right. exists q. split; [now left|]. split; [reflexivity|]. congruence.
  - right. exists p. split; [now right|]. auto.
Qed.

Lemma serialize_all_cases pk : Forall ConnEncP.ack_ok pk ->
  match serialize_all pk with
  | Ok bs => Forall2 (fun p b => to_bytes SER_BUFFER p = Ok b) pk bs /\ Forall ConnEncP.varints_ok pk
  | Err e => e = BufferTooShort /\ exists p, In p pk /\ SER_BUFFER < len (PacketP.enc_packet p)
  | Panic s => s = SITE_VARINT_TOO_LARGE /\ ~ Forall ConnEncP.varints_ok pk
  end.
Proof.
  induction pk as [|p t IH]; intros Hack; cbn [serialize_all].
  - split; constructor.
  - inversion Hack as [|? ? Hp Ht]; subst. specialize (IH Ht).
    pose proof (ConnEncP.to_bytes_cases SER_BUFFER p Hp) as H.
    destruct (to_bytes SER_BUFFER p) as [b|e|s] eqn:Eb; cbn [bind].
    + destruct (serialize_all t) as [bs|e|s]; cbn [bind].
      * destruct IH as [I1 I2]. destruct H as (H1 & _). split; constructor; auto.
      * destruct IH as (-> & q & Hq & Hlen). split; [reflexivity|]. exists q. split; [now right|exact Hlen].
      * destruct IH as (-> & Hn). split; [reflexivity|]. intros HF. inversion HF; auto.
    + destruct H as (-> & Hlen). split; [reflexivity|]. exists p. split; [now left|exact Hlen].
    + destruct H as (-> & Hn). split; [reflexivity|]. intros HF. inversion HF; auto.
Qed.

Lemma serialize_all_ok_iff pk bs :
  serialize_all pk = Ok bs <-> Forall2 (fun p b => to_bytes SER_BUFFER p = Ok b) pk bs.
Proof.
  revert bs. induction pk as [|p t IH]; intros bs; cbn [serialize_all].
  - split; [intros E; inversion E; constructor|intros H; inversion H; reflexivity].
  - split.
    + intros E. destruct (to_bytes SER_BUFFER p) as [b| |] eqn:Eb; cbn [bind] in E; try discriminate.
      destruct (serialize_all t) as [bs'| |] eqn:Et; cbn [bind] in E; try discriminate.
      inversion E; subst. constructor; [exact Eb|]. now apply IH.
    + intros H. inversion H as [|? b ? bs' Hb Ht]; subst. rewrite Hb. cbn [bind].
      apply IH in Ht. rewrite Ht. reflexivity.
Qed.

Definition flush_pkts (c1 : conn) (pk : list packet) : list packet :=
  pk ++ ack_part (c_seq c1) (c_acks c1).
Definition flush_c2 (c1 : conn) : conn :=
  match c_acks c1 with [] => c1 | _ => with_seq c1 (c_seq c1 + 1) end.
Definition flushed (c c1 : conn) (pkts : list packet) : conn :=
  {| c_seq := c_seq c + len pkts; c_now := c_now c; c_sent := rec_sent (c_now c) pkts (c_sent c);
     c_acks := c_acks c; c_order := c_order c; c_su := c_su c1; c_ru := c_ru c; c_sr := c_sr c1;
     c_rr := c_rr c; c_budget := c_budget c; c_status := c_status c |}.

Lemma flush_unfold c c1 av pk :
  is_disconnected c = false -> gather (c_order c) c (c_budget c) [] = Ok (c1, av, pk) ->
  get_packets_to_send c =
  do sent <- record_sent (c_now c1) (flush_pkts c1 pk) (c_sent c1);
  let c3 := with_sent (flush_c2 c1) sent in
  match serialize_all (flush_pkts c1 pk) with
  | Ok bs => Ok (c3, bs)
  | Err e => Ok (disconnect_with c3 (RPacketSerialization e), [])
  | Panic s => Panic s
  end.
Proof.
  intros Hd E. unfold get_packets_to_send, flush_pkts, flush_c2. rewrite Hd, E. cbn [bind].
  destruct (c_acks c1); cbn [ack_part]; [rewrite app_nil_r|]; reflexivity.
Qed.

Lemma flush_c2_seq c1 : c_seq (flush_c2 c1) = c_seq c1 + len (ack_part (c_seq c1) (c_acks c1)).
Proof.
  unfold flush_c2. destruct (c_acks c1); cbn [ack_part with_seq c_seq].
  - rewrite len_nil. lia.
  - reflexivity.
Qed.

Lemma flush_c2_frame c1 : c_now (flush_c2 c1) = c_now c1 /\ c_sr (flush_c2 c1) = c_sr c1.
Proof. unfold flush_c2. destruct (c_acks c1); split; reflexivity. Qed.

Lemma inv_flush_c2 c1 : conn_inv c1 -> conn_inv (flush_c2 c1).
Proof.
  intros Hi. unfold flush_c2. destruct (c_acks c1); [exact Hi|]. apply inv_with_seq; [exact Hi|lia].
Qed.

Lemma ack_part_ok c1 : conn_inv c1 ->
  Forall ConnEncP.ack_ok (ack_part (c_seq c1) (c_acks c1)) /\
  Forall pkt_fits (ack_part (c_seq c1) (c_acks c1)) /\
  Forall (fun p => info_of p = Ok (pkt_info p)) (ack_part (c_seq c1) (c_acks c1)).
Proof.
  intros Hi. pose proof (ci_acks_wf c1 Hi) as H1. pose proof (ci_acks_len c1 Hi) as H2.
  pose proof (ci_acks_below c1 Hi) as H3.
  destruct (c_acks c1) as [|ab t] eqn:Ea; cbn [ack_part]; [repeat split; constructor|].
  assert (Hne : ab :: t <> []) by discriminate.
  repeat split; (constructor; [|constructor]).
  - cbn [ConnEncP.ack_ok]. auto.
  - now apply ack_pkt_fits.
  - now apply info_of_ack.
Qed.

Lemma flush_eqs c c1 av pk :
  conn_inv c -> gather_rel (c_order c) c (c_budget c) c1 av pk ->
  flush_pkts c1 pk = pk ++ ack_part (c_seq c + len pk) (c_acks c) /\
  with_sent (flush_c2 c1) (rec_sent (c_now c1) (flush_pkts c1 pk) (c_sent c1)) = flushed c c1 (flush_pkts c1 pk).
Proof.
  intros Hi Hrel. pose proof (gather_facts _ _ _ _ _ _ Hrel Hi) as G. pose proof (g_seq G) as Hseq.
  destruct (g_frame G) as (F1 & F2 & F3 & F4 & F5 & F6 & F7 & F8).
  split; [unfold flush_pkts; now rewrite Hseq, F3|].
  unfold flushed, flush_pkts, flush_c2.
  rewrite len_app, N.add_assoc, <- Hseq, <- F1, <- F2, <- F3, <- F4, <- F5, <- F6, <- F7, <- F8.
  destruct c1 as [q n st ak od su ru sr rr bd stt];
    cbn [c_seq c_now c_sent c_acks c_order c_su c_ru c_sr c_rr c_budget c_status].
  destruct ak; unfold with_sent, with_seq;
    cbn [ack_part c_seq c_now c_sent c_acks c_order c_su c_ru c_sr c_rr c_budget c_status];
    rewrite ?len_cons, len_nil; f_equal; lia.
Qed.

Lemma flush_cases c : conn_inv c -> is_disconnected c = false ->
  exists c1 av pk,
    gather_rel (c_order c) c (c_budget c) c1 av pk /\
    conn_inv (flushed c c1 (flush_pkts c1 pk)) /\
    Forall ConnEncP.ack_ok (flush_pkts c1 pk) /\
    Forall pkt_fits (flush_pkts c1 pk) /\
    get_packets_to_send c =
      match serialize_all (flush_pkts c1 pk) with
      | Ok bs => Ok (flushed c c1 (flush_pkts c1 pk), bs)
      | Err e => Ok (disconnect_with (flushed c c1 (flush_pkts c1 pk)) (RPacketSerialization e), [])
      | Panic s => Panic s
      end.
Proof.
  intros Hi Hd.
  destruct (gather_total (c_order c) c (c_budget c) Hi (ci_order c Hi)) as (c1 & av & pk & Hrel).
  exists c1, av, pk. split; [exact Hrel|]. destruct (flush_eqs c c1 av pk Hi Hrel) as [_ <-].
  destruct (gather_facts _ _ _ _ _ _ Hrel Hi) as [Hi1 Hseq Hseqs Hav Hfr Hsk Hpk].
  destruct (ack_part_ok c1 Hi1) as (Ha1 & Ha2 & Ha3).
  assert (Hinfo : Forall (fun p => info_of p = Ok (pkt_info p)) (flush_pkts c1 pk)).
  { apply Forall_app. split; [|exact Ha3]. eapply Forall_impl; [|exact Hpk].
    intros p (_ & B & _). now apply info_of_data. }
  assert (Hack : Forall ConnEncP.ack_ok (flush_pkts c1 pk)).
  { apply Forall_app. split; [|exact Ha1]. eapply Forall_impl; [|exact Hpk].
    intros p (_ & B & _). destruct p; try discriminate; exact I. }
  assert (Hfits : Forall pkt_fits (flush_pkts c1 pk)).
  { apply Forall_app. split; [|exact Ha2]. eapply Forall_impl; [|exact Hpk]. intros p (_ & _ & C). exact C. }
  split.
  { destruct (flush_c2_frame c1) as [F1 F5].
    pose proof (inv_flush_c2 c1 Hi1) as Hi2.
    apply inv_with_sent; [exact Hi2| |].
    - apply rec_sent_sorted. exact (ci_sent_sorted c1 Hi1).
    - rewrite F1, F5, flush_c2_seq. apply rec_sent_Forall.
      + eapply Forall_impl; [|exact (ci_sent c1 Hi1)]. intros e (A & B). split; [lia|exact B].
      + unfold flush_pkts. apply Forall_app. split.
        * pose proof (seqs_from_bounds _ _ Hseqs) as HB. rewrite Forall_forall in *.
          intros p Hp. cbn [fst snd]. destruct (HB p Hp) as [_ B]. destruct (Hpk p Hp) as (A & _).
          split; [lia|]. split; [lia|exact A].
        * destruct (c_acks c1); cbn [ack_part]; constructor; [|constructor].
          cbn [fst snd packet_seq pkt_info sent_info_ok]. rewrite len_cons, len_nil.
          split; [lia|]. split; [lia|exact I]. }
  split; [exact Hack|]. split; [exact Hfits|].
  rewrite (flush_unfold c c1 av pk Hd (gather_rel_sound _ _ _ _ _ _ Hrel [])).
  rewrite (record_sent_spec _ _ _ Hinfo). cbn [bind]. reflexivity.
Qed.

(* GlueP.v - the glue between the message layer (RenetServer / RenetClient) and the handshake layer
   (NetcodeServer / NetcodeClient), Glue/Transport.v:
   the connection objects of the message layer are exactly the clients whose netcode handshake completed
   and has not ended (lockstep), events are pushed up / disconnects pushed down within one update, the
   client transport mirrors the netcode status, and the message layers are only ever handed payloads the
   netcode layer surfaced. *)
From RenetV Require Import Base Consts Varint Packet Channels Conn Server.
From RenetV Require Import Aead NPacket Token NServer NClient Transport.
From RenetV Require Import Spec.ConnSpec Spec.NetSpec Spec.GlueSpec.
From RenetV.Proofs Require Import BaseP RunP SMapSrvP DisconnectP ServerP NSlotsP NServerP.
From RenetV.Proofs Require NClientP.
Require Import Lia.
Open Scope N_scope.

Lemma of_pres_ok {A} (r : pres A) a : of_pres r = Ok a -> r = Ok a.
Proof. destruct r; cbn [of_pres]; intros H; try discriminate. injection H as <-. reflexivity. Qed.

Lemma of_nres_ok {A} (r : nres A) a : of_nres r = Ok a -> r = Ok a.
Proof. destruct r; cbn [of_nres]; intros H; try discriminate. injection H as <-. reflexivity. Qed.

Lemma find_by_id_none_ids s id : find_by_id s id = None <-> ~ In id (NServer.clients_id s).
Proof. rewrite clients_id_connected. apply find_by_id_none_iff. Qed.

Lemma find_by_id_some_ids s id slot c : find_by_id s id = Some (slot, c) -> In id (NServer.clients_id s) /\ nc_id c = id.
Proof.
  intros H. destruct (lookup_nth _ _ _ _ H) as [_ Hf]. apply N.eqb_eq in Hf. split; [|exact Hf].
  destruct (in_dec N.eq_dec id (NServer.clients_id s)) as [Hin|Hn]; [exact Hin|].
  apply find_by_id_none_ids in Hn. congruence.
Qed.

(* NServerP.result_ok, as far as the set of ids goes *)
Theorem nsstep_ids_step s o s' r : table_inv s -> nsstep s o = Ok (s', NOResult r) -> ids_step s s' r.
Proof.
  intros T H. pose proof (nsstep_result _ _ _ _ H) as K.
  destruct r as [|a p|id p|id a u p|id a p]; cbn [result_ok ids_step] in *.
  - rewrite !clients_id_connected. exact K.
  - rewrite !clients_id_connected. exact K.
  - rewrite !clients_id_connected. exact (proj2 K).
  - destruct (K T) as [[Hn _] I]. split; [apply find_by_id_none_ids; exact Hn | exact I].
  - destruct (K T) as [[(slot & c & Hf & _) _] I]. split; [apply (find_by_id_some_ids _ _ _ _ Hf) | exact I].
Qed.

Lemma sm_mem_keys_in {V} k (m : list (N * V)) : sm_mem k m = true <-> In k (map fst m).
Proof. exact (SMapP.sm_mem_in k m). Qed.

Lemma handle_result_sstep r rs outs rs' outs' :
  handle_server_result r rs outs = Ok (rs', outs') ->
  outs' = outs ++ result_dgrams r /\
  match result_sops r with [] => rs' = rs | [o] => sstep rs o = Ok (rs', SONone) | _ => False end.
Proof.
  destruct r as [|a p|id p|id a u p|id a p]; cbn [handle_server_result result_dgrams result_sops sstep]; intros H.
  - injection H as <- <-. rewrite app_nil_r. auto.
  - injection H as <- <-. auto.
  - apply bind_ok in H. destruct H as [[rs1 b] [E H]]. apply of_pres_ok in E. injection H as <- <-.
    rewrite E, app_nil_r. auto.
  - apply bind_ok in H. destruct H as [rs1 [E H]]. apply of_pres_ok in E. injection H as <- <-.
    rewrite E. auto.
  - injection H as <- <-. split; [|reflexivity]. destruct p; [reflexivity | rewrite app_nil_r; reflexivity].
Qed.

Lemma result_events_disconnect rs id a p c :
  sm_find id (s_conns rs) = Some c ->
  result_events rs (SRDisconnected id a p) =
  [EvDisconnected id (match Conn.disconnect_reason c with Some x => x | None => RTransport end)].
Proof. intros E. cbn [result_events]. unfold srv_disconnect_reason. rewrite E. reflexivity. Qed.

(* Under lockstep the netcode result and the message layer agree on whether the id is there (absent for a
   connect, present for a disconnect), so the call appends what result_events says.  The events need lockstep
   for nothing else. *)
Lemma result_events_presence net net' r rs :
  lockstep_n net rs -> ids_step net net' r -> flat_map (presence_evs rs) (result_sops r) = result_events rs r.
Proof.
  intros L I. destruct r as [|a p|id p|id a u p|id a p]; cbn [ids_step] in I; cbn [result_sops flat_map presence_evs];
    try reflexivity.
  - destruct (sm_mem id (s_conns rs)) eqn:Em; [|reflexivity]. exfalso. apply (proj1 I). apply L. exact Em.
  - destruct (SMapP.sm_mem_find _ _ (proj2 (L id) (proj1 I))) as [c Ef].
    rewrite Ef, (result_events_disconnect _ _ _ _ _ Ef). reflexivity.
Qed.

Lemma handle_result_follows net net' r rs outs rs' outs' :
  conns_sorted rs -> lockstep_n net rs -> ids_step net net' r ->
  handle_server_result r rs outs = Ok (rs', outs') ->
  ev_rel rs rs' (result_events rs r) /\ conns_sorted rs' /\ outs' = outs ++ result_dgrams r.
Proof.
  intros Hs L I H. destruct (handle_result_sstep _ _ _ _ _ H) as [Eo S].
  rewrite <- (result_events_presence _ _ _ _ L I).
  destruct (result_sops r) as [|o [|o' l]]; cbn [flat_map]; [| |contradiction].
  - subst rs'. split; [apply (follows_quiet rs rs []); reflexivity | auto].
  - rewrite app_nil_r. split; [exact (sstep_presence _ _ _ _ Hs S)|].
    split; [exact (sstep_sorted _ _ _ _ Hs S) | exact Eo].
Qed.

Lemma ev_rel_lockstep net net' r rs rs' :
  lockstep_n net rs -> ids_step net net' r -> ev_rel rs rs' (result_events rs r) -> lockstep_n net' rs'.
Proof.
  intros L I [_ R] x. rewrite (proj2 (R x)). specialize (L x). clear R.
  destruct r as [|a p|id p|id a u p|id a p]; cbn [ids_step] in I;
    cbn [result_events last_is_connect ev_id ev_is_connect]; try (rewrite I; exact L).
  - destruct I as [_ I]. rewrite I, <- L. destruct (N.eqb_spec id x); intuition congruence.
  - destruct I as [_ I]. rewrite I, <- L. destruct (N.eqb_spec id x); intuition congruence.
Qed.

Theorem handle_result_lockstep net net' r rs outs rs' outs' :
  ids_step net net' r -> conns_sorted rs -> lockstep_n net rs ->
  handle_server_result r rs outs = Ok (rs', outs') ->
  lockstep_n net' rs' /\ conns_sorted rs' /\ new_events rs rs' (result_events rs r) /\
  outs' = outs ++ result_dgrams r.
Proof.
  intros I Hs L H. destruct (handle_result_follows net net' r rs outs rs' outs' Hs L I H) as (F & Hs' & Eo).
  split; [exact (ev_rel_lockstep _ _ _ _ _ L I F)|]. split; [exact Hs'|]. split; [exact (proj1 F) | exact Eo].
Qed.

Corollary handle_result_lockstep_step net o net' r rs outs rs' outs' :
  table_inv net -> nsstep net o = Ok (net', NOResult r) ->
  conns_sorted rs -> lockstep_n net rs ->
  handle_server_result r rs outs = Ok (rs', outs') ->
  table_inv net' /\ lockstep_n net' rs' /\ conns_sorted rs' /\ new_events rs rs' (result_events rs r) /\
  outs' = outs ++ result_dgrams r.
Proof.
  intros T S Hs L H. split; [apply (table_inv_step _ _ _ _ T S)|].
  apply (handle_result_lockstep net net' r rs outs rs' outs' (nsstep_ids_step _ _ _ _ T S) Hs L H).
Qed.

Lemma result_events_explained rs r e : In e (result_events rs r) -> ev_of_result r e.
Proof.
  destruct r; cbn [result_events In]; try tauto; intros [<-|[]]; reflexivity.
Qed.

Lemma nsrun_results_cons s o t s' rl :
  nsrun s (o :: t) = Ok (s', map NOResult rl) ->
  exists s1 r rl', rl = r :: rl' /\ nsstep s o = Ok (s1, NOResult r) /\ nsrun s1 t = Ok (s', map NOResult rl').
Proof.
  intros H. apply (run_cons_ok nsstep) in H as (s1 & out & outs & S & R & E).
  destruct rl as [|r rl']; cbn [map] in E; [discriminate|]. injection E as <- <-.
  exists s1, r, rl'. auto.
Qed.

Lemma handle_result_keeps_dead id c r rs outs rs' outs' :
  sm_find id (s_conns rs) = Some c -> Conn.is_disconnected c = true ->
  handle_server_result r rs outs = Ok (rs', outs') ->
  sm_find id (s_conns rs') = Some c \/ exists a p, r = SRDisconnected id a p.
Proof.
  intros Hf Hd H. destruct (handle_result_sstep _ _ _ _ _ H) as [_ S].
  destruct r as [|a p|x p|x a u p|x a p]; cbn [result_sops] in S.
  - subst rs'. left. exact Hf.
  - subst rs'. left. exact Hf.
  - left. destruct (conn_at_some _ _ _ _ _ (sstep_conns _ _ _ _ id S eq_refl) Hf) as (c' & P & K).
    cbn [local_step] in P.
    destruct (x =? id); [rewrite process_packet_disconnected_noop in P by exact Hd|]; injection P as <-; exact K.
  - left. cbn [sstep] in S. destruct (add_connection rs x) as [rs2| |] eqn:E; [|discriminate S ..]. injection S as <-.
    destruct (add_connection_cases _ _ _ E) as [[_ ->]|(c0 & Em & ->)]; [exact Hf|].
    cbn [s_conns with_events with_conns]. rewrite SMapP.sm_find_insert_other; [exact Hf|].
    intros ->. rewrite (SMapP.sm_find_some_mem _ _ _ Hf) in Em. discriminate.
  - injection S as <-. destruct (N.eq_dec x id) as [->|Hne]; [right; eauto | left].
    rewrite remove_connection_others by congruence. exact Hf.
Qed.

(* the invariant of all three loops of the server transport, over any sequence of netcode calls *)
Lemma chain_lockstep : forall ops net rl net' rs outs rs' outs',
  table_inv net -> conns_sorted rs -> lockstep_n net rs ->
  nsrun net ops = Ok (net', map NOResult rl) -> apply_results rs outs rl = Ok (rs', outs') ->
  table_inv net' /\ conns_sorted rs' /\ lockstep_n net' rs' /\
  exists evs, ev_rel rs rs' evs /\ (forall e, In e evs -> exists r, In r rl /\ ev_of_result r e) /\
              (forall r, In r rl -> result_reported r evs) /\
              (forall id c, sm_find id (s_conns rs) = Some c -> Conn.is_disconnected c = true ->
                            sm_find id (s_conns rs') = Some c \/ In (EvDisconnected id (reason_of c)) evs).
Proof.
  induction ops as [|o t IH]; intros net rl net' rs outs rs' outs' T Hs L N A.
  - cbn [nsrun] in N. injection N as <- N. destruct rl; [|discriminate].
    cbn [apply_results] in A. injection A as <- <-.
    split; [exact T|]. split; [exact Hs|]. split; [exact L|].
    exists []. split; [apply (follows_quiet rs rs []); reflexivity|]. split; [intros e [] |].
    split; [intros r [] | intros id c Hf _; left; exact Hf].
  - apply nsrun_results_cons in N. destruct N as (net1 & r & rl' & -> & S & N).
    cbn [apply_results] in A. apply bind_ok in A. destruct A as [[rs1 outs1] [H A]].
    pose proof (nsstep_ids_step _ _ _ _ T S) as I.
    destruct (handle_result_follows net net1 r rs outs rs1 outs1 Hs L I H) as (F & Hs1 & _).
    pose proof (ev_rel_lockstep _ _ _ _ _ L I F) as L1.
    destruct (IH _ _ _ _ _ _ _ (table_inv_step _ _ _ _ T S) Hs1 L1 N A) as (T' & Hs' & L' & evs & R & X & Y & Z).
    split; [exact T'|]. split; [exact Hs'|]. split; [exact L'|].
    exists (result_events rs r ++ evs). split; [|split; [|split]].
    + exact (follows_trans _ rs1 _ [] _ [] _ F R).
    + intros e He. apply in_app_or in He. destruct He as [He|He].
      * exists r. split; [left; reflexivity | apply (result_events_explained _ _ _ He)].
      * destruct (X e He) as [r' [Hr' Hx]]. exists r'. split; [right; exact Hr' | exact Hx].
    + intros r0 [<-|Hr0].
      * destruct r; cbn [result_reported result_events]; try exact Logic.I.
        -- left. reflexivity.
        -- eexists. left. reflexivity.
      * specialize (Y r0 Hr0). destruct r0; cbn [result_reported] in *; try exact Logic.I.
        -- apply in_or_app. right. exact Y.
        -- destruct Y as [x Y]. exists x. apply in_or_app. right. exact Y.
    + intros id c Hf Hd. destruct (handle_result_keeps_dead id c _ _ _ _ _ Hf Hd H) as [Hf1|(a & p & ->)].
      * destruct (Z id c Hf1 Hd) as [K|K]; [left; exact K | right; apply in_or_app; right; exact K].
      * right. rewrite (result_events_disconnect _ _ _ _ _ Hf). left. reflexivity.
Qed.

Lemma apply_results_srun : forall rl rs outs rs' outs',
  apply_results rs outs rl = Ok (rs', outs') ->
  exists souts, srun rs (flat_map result_sops rl) = Ok (rs', souts) /\ taken_events souts = [].
Proof.
  induction rl as [|r t IH]; intros rs outs rs' outs' A; cbn [apply_results] in A.
  - injection A as <- <-. exists []. split; reflexivity.
  - apply bind_ok in A. destruct A as [[rs1 outs1] [H A]]. destruct (IH _ _ _ _ A) as [souts [R Tk]].
    destruct (handle_result_sstep _ _ _ _ _ H) as [_ S]. cbn [flat_map].
    destruct (result_sops r) as [|o [|o' l]]; cbn [app]; [subst rs1; eauto | | contradiction].
    exists (SONone :: souts). split; [exact (run_cons_intro sstep S R) | exact Tk].
Qed.

Lemma process_ops_results rl : process_ops (flat_map result_sops rl) = payloads_of rl.
Proof.
  induction rl as [|r t IH]; [reflexivity|].
  unfold process_ops, payloads_of in *. cbn [flat_map]. rewrite flat_map_app, IH.
  destruct r; reflexivity.
Qed.

(* The three loops of NetcodeServerTransport::update have one shape: a netcode call per element, its result
   handed to handle_server_result.  Such a loop is a run of these calls and apply_results over their results. *)
Lemma result_loop_trace {X} (call : nserver -> X -> nres (nserver * sresult)) (op : X -> nsop)
      (loop : list X -> nserver -> server -> list dgram -> tres (nserver * server * list dgram)) :
  (forall net x, nsstep net (op x) = do r <- call net x; Ok (fst r, NOResult (snd r))) ->
  (forall net rs outs, loop [] net rs outs = Ok (net, rs, outs)) ->
  (forall x t net rs outs,
     loop (x :: t) net rs outs =
     do y <- of_nres (call net x); let (net', r) := y in
     do z <- handle_server_result r rs outs; let (rs', outs') := z in loop t net' rs' outs') ->
  forall l net rs outs net' rs' outs',
    loop l net rs outs = Ok (net', rs', outs') ->
    exists rl, nsrun net (map op l) = Ok (net', map NOResult rl) /\ apply_results rs outs rl = Ok (rs', outs').
Proof.
  intros Hop Hnil Hcons. induction l as [|x t IH]; intros net rs outs net' rs' outs' H.
  - rewrite Hnil in H. injection H as <- <- <-. exists []. split; reflexivity.
  - rewrite Hcons in H. apply bind_ok in H. destruct H as [[net1 r] [E H]]. apply of_nres_ok in E.
    apply bind_ok in H. destruct H as [[rs1 outs1] [Hh H]]. destruct (IH _ _ _ _ _ _ H) as [rl [N A]].
    exists (r :: rl). cbn [map nsrun]. rewrite Hop, E. cbn [bind fst snd apply_results].
    rewrite N. cbn [bind]. rewrite Hh. cbn [bind]. split; [reflexivity | exact A].
Qed.

Lemma server_results_run : forall q net net' rl,
  nsrun net (recv_ops q) = Ok (net', map NOResult rl) -> rl = server_results net q.
Proof.
  induction q as [|[a b] t IH]; intros net net' rl H.
  - injection H as _ H. destruct rl; [reflexivity | discriminate H].
  - apply nsrun_results_cons in H. destruct H as (net1 & r & rl' & -> & S & R).
    apply nsstep_process in S. cbn [fst snd] in S. cbn [server_results]. rewrite S. f_equal. exact (IH _ _ _ R).
Qed.

Theorem recv_loop_spec q net rs outs net' rs' outs' :
  recv_loop net rs q outs = Ok (net', rs', outs') ->
  nsrun net (recv_ops q) = Ok (net', map NOResult (server_results net q)) /\
  apply_results rs outs (server_results net q) = Ok (rs', outs').
Proof.
  intros H.
  destruct (result_loop_trace (fun net d => NServer.process_packet net (fst d) (recv_trunc (snd d)))
              (fun d => NSProcess (fst d) (recv_trunc (snd d))) (fun q net rs outs => recv_loop net rs q outs))
    with (4 := H) as [rl [N A]]; [reflexivity | reflexivity | intros [a b]; reflexivity |].
  rewrite <- (server_results_run _ _ _ _ N). auto.
Qed.

(* during the receive loop the message layer sees add / remove / process calls only, and the
   process_packet_from calls are exactly the (id, payload) pairs of the SRPayload results of
   NetcodeServer::process_packet on the queued datagrams, in order *)
Corollary recv_loop_surfaced q net rs outs net' rs' outs' :
  recv_loop net rs q outs = Ok (net', rs', outs') ->
  exists souts, srun rs (flat_map result_sops (server_results net q)) = Ok (rs', souts) /\
                process_ops (flat_map result_sops (server_results net q)) = server_surfaced net q.
Proof.
  intros H. destruct (recv_loop_spec _ _ _ _ _ _ _ H) as [_ A].
  destruct (apply_results_srun _ _ _ _ _ A) as [souts [R _]]. exists souts. split; [exact R|].
  apply process_ops_results.
Qed.

Lemma update_clients_trace : forall ids net rs outs net' rs' outs',
  update_clients ids net rs outs = Ok (net', rs', outs') ->
  exists rl, nsrun net (map NSUpdateClient ids) = Ok (net', map NOResult rl) /\
             apply_results rs outs rl = Ok (rs', outs').
Proof. apply (result_loop_trace update_client NSUpdateClient update_clients); reflexivity. Qed.

Lemma disconnect_clients_trace : forall ids net rs outs net' rs' outs',
  disconnect_clients ids net rs outs = Ok (net', rs', outs') ->
  exists rl, nsrun net (map NSDisconnect ids) = Ok (net', map NOResult rl) /\
             apply_results rs outs rl = Ok (rs', outs').
Proof. apply (result_loop_trace nserver_disconnect NSDisconnect disconnect_clients); reflexivity. Qed.

Lemma nsrun_results_app s a b s1 r1 s2 r2 :
  nsrun s a = Ok (s1, map NOResult r1) -> nsrun s1 b = Ok (s2, map NOResult r2) ->
  nsrun s (a ++ b) = Ok (s2, map NOResult (r1 ++ r2)).
Proof. intros N1 N2. rewrite map_app. exact (run_app_intro nsstep N1 N2). Qed.

Lemma apply_results_app : forall l1 l2 rs outs rs1 outs1 x,
  apply_results rs outs l1 = Ok (rs1, outs1) -> apply_results rs1 outs1 l2 = Ok x ->
  apply_results rs outs (l1 ++ l2) = Ok x.
Proof.
  induction l1 as [|r l1 IH]; intros l2 rs outs rs1 outs1 x H1 H2.
  - cbn [apply_results] in H1. injection H1 as <- <-. exact H2.
  - cbn [apply_results] in H1. apply bind_ok in H1. destruct H1 as [[rs0 outs0] [E H1]].
    cbn [app apply_results]. rewrite E. cbn [bind]. apply (IH _ _ _ _ _ _ H1 H2).
Qed.

Lemma disconnect_clients_spec : forall ids net rs outs net' rs' outs',
  table_inv net -> conns_sorted rs -> lockstep_n net rs ->
  disconnect_clients ids net rs outs = Ok (net', rs', outs') ->
  (forall x, In x (NServer.clients_id net') <-> In x (NServer.clients_id net) /\ ~ In x ids) /\
  (forall x c, sm_find x (s_conns rs') = Some c -> sm_find x (s_conns rs) = Some c).
Proof.
  induction ids as [|id t IH]; intros net rs outs net' rs' outs' T Hs L H; cbn [disconnect_clients] in H.
  - injection H as <- <- <-. split; [|auto]. intros x. cbn [In]. tauto.
  - apply bind_ok in H. destruct H as [[net1 r] [E H]]. apply of_nres_ok in E.
    apply bind_ok in H. destruct H as [[rs1 outs1] [Hh H]].
    assert (S : nsstep net (NSDisconnect id) = Ok (net1, NOResult r)) by (cbn [nsstep]; rewrite E; reflexivity).
    pose proof (nsstep_ids_step _ _ _ _ T S) as I.
    destruct (handle_result_lockstep_step _ _ _ _ _ _ _ _ T S Hs L Hh) as (T1 & L1 & Hs1 & _ & _).
    destruct (IH _ _ _ _ _ _ T1 Hs1 L1 H) as [A B].
    destruct (nserver_disconnect_result _ _ _ _ E) as [[-> Hn] | (a & p & ->)]; cbn [ids_step] in I.
    + injection Hh as <- <-. apply find_by_id_none_ids in Hn. split; [|exact B].
      intros x. rewrite A, I. cbn [In]. intuition congruence.
    + cbn [handle_server_result] in Hh. injection Hh as <- _. destruct I as [_ I]. split.
      * intros x. rewrite A, I. cbn [In]. intuition congruence.
      * intros x c0 Hx. apply B in Hx. unfold remove_connection in Hx.
        destruct (sm_find id (s_conns rs)) as [cx|] eqn:Ex; [|exact Hx].
        cbn [s_conns with_events with_conns] in Hx. rewrite SMapP.sm_find_remove in Hx by exact (sm_sorted_asc _ Hs).
        destruct (x =? id); [discriminate | exact Hx].
Qed.

Lemma disconnections_in rs x :
  In x (Server.disconnections_id rs) <-> exists c, In (x, c) (s_conns rs) /\ Conn.is_disconnected c = true.
Proof.
  unfold Server.disconnections_id. rewrite in_map_iff. split.
  - intros [[k c] [E Hin]]. cbn [fst] in E. subst k. apply filter_In in Hin. cbn [snd] in Hin. eauto.
  - intros [c [Hin Hd]]. exists (x, c). split; [reflexivity|]. apply filter_In. auto.
Qed.

Lemma nserver_update_ids s dt : NServer.clients_id (nserver_update s dt) = NServer.clients_id s.
Proof. reflexivity. Qed.

Lemma tserver_update_full t rs dt t' rs' outs :
  table_inv (ts_net t) -> conns_sorted rs -> lockstep t rs ->
  tserver_update t rs dt = Ok (t', rs', outs) ->
  (lockstep t' rs' /\ conns_sorted rs' /\ table_inv (ts_net t') /\ Server.disconnections_id rs' = []) /\
  exists ops rl evs,
    nsrun (ts_net t) (NSUpdate dt :: ops) = Ok (ts_net t', NONothing :: map NOResult rl) /\
    apply_results rs [] rl = Ok (rs', outs) /\
    ev_rel rs rs' evs /\ (forall e, In e evs -> exists r, In r rl /\ ev_of_result r e) /\
    (forall r, In r rl -> result_reported r evs) /\
    (forall id c, sm_find id (s_conns rs) = Some c -> Conn.is_disconnected c = true ->
                  sm_find id (s_conns rs') = Some c \/ In (EvDisconnected id (reason_of c)) evs).
Proof.
  intros T Hs L H. unfold tserver_update in H.
  apply bind_ok in H. destruct H as [[[net1 rs1] o1] [H1 H]].
  apply bind_ok in H. destruct H as [[[net2 rs2] o2] [H2 H]].
  apply bind_ok in H. destruct H as [[[net3 rs3] o3] [H3 H]]. injection H as <- <- <-. cbn [ts_net ts_in].
  pose proof (table_inv_update _ dt T) as T0.
  assert (L0 : lockstep_n (nserver_update (ts_net t) dt) rs) by exact L.
  destruct (recv_loop_spec _ _ _ _ _ _ _ H1) as [N1 A1].
  destruct (update_clients_trace _ _ _ _ _ _ _ H2) as [rl2 [N2 A2]].
  destruct (disconnect_clients_trace _ _ _ _ _ _ _ H3) as [rl3 [N3 A3]].
  pose proof (nsrun_results_app _ _ _ _ _ _ _ N1 N2) as N12.
  pose proof (apply_results_app _ _ _ _ _ _ _ A1 A2) as A12.
  destruct (chain_lockstep _ _ _ _ _ _ _ _ T0 Hs L0 N12 A12) as (T2 & Hs2 & L2 & _).
  pose proof (nsrun_results_app _ _ _ _ _ _ _ N12 N3) as N.
  pose proof (apply_results_app _ _ _ _ _ _ _ A12 A3) as A.
  destruct (chain_lockstep _ _ _ _ _ _ _ _ T0 Hs L0 N A) as (T3 & Hs3 & L3 & evs & R & X & YZ).
  split.
  - split; [exact L3|]. split; [exact Hs3|]. split; [exact T3|].
    (* a disconnected object left in rs3 was there, disconnected, in rs2, so its id was in the list the
       last loop removed from the netcode table; by lockstep it cannot be in rs3 *)
    destruct (disconnect_clients_spec _ _ _ _ _ _ _ T2 Hs2 L2 H3) as [D1 D2].
    apply no_members_nil. intros x Hx. apply disconnections_in in Hx. destruct Hx as [c [Hin Hd]].
    pose proof (SMapP.sm_in_find _ _ _ (sm_sorted_asc _ Hs3) Hin) as Hf.
    assert (Hm : In x (NServer.clients_id net3)) by (apply L3; apply (SMapP.sm_find_some_mem _ _ _ Hf)).
    apply D1 in Hm. destruct Hm as [_ Hm]. apply Hm. apply disconnections_in. exists c.
    split; [apply SMapP.sm_find_in; apply D2; exact Hf | exact Hd].
  - eexists _, _, evs. split; [|split; [exact A | split; [exact R | split; [exact X | exact YZ]]]].
    cbn [nsrun nsstep bind]. rewrite N. reflexivity.
Qed.

Theorem tserver_update_lockstep t rs dt t' rs' outs :
  table_inv (ts_net t) -> conns_sorted rs -> lockstep t rs ->
  tserver_update t rs dt = Ok (t', rs', outs) ->
  lockstep t' rs' /\ conns_sorted rs' /\ table_inv (ts_net t') /\ Server.disconnections_id rs' = [].
Proof.
  intros T Hs L H. exact (proj1 (tserver_update_full _ _ _ _ _ _ T Hs L H)).
Qed.

Lemma tserver_update_queue t rs dt t' rs' outs : tserver_update t rs dt = Ok (t', rs', outs) -> ts_in t' = [].
Proof.
  unfold tserver_update. intros H.
  apply bind_ok in H. destruct H as [[[net1 rs1] o1] [H1 H]].
  apply bind_ok in H. destruct H as [[[net2 rs2] o2] [H2 H]].
  apply bind_ok in H. destruct H as [[[net3 rs3] o3] [H3 H]]. injection H as <- <- <-. reflexivity.
Qed.

Definition step_taken (w : tserver * server) (o : wop) : list event :=
  match o with
  | WApp AGetEvent => match s_events (snd w) with e :: _ => [e] | [] => [] end
  | _ => []
  end.

Lemma app_step_sstep rs o rs' :
  app_step rs o = Ok rs' ->
  exists out, sstep rs (app_sop o) = Ok (rs', out) /\ forall t, taken_events [out] = step_taken (t, rs) (WApp o).
Proof.
  destruct o as [id ch m|ch m|id ch m|id ch|id| | |dt]; cbn [app_step app_sop sstep step_taken snd]; intros H.
  - rewrite H. cbn [bind]. eauto.
  - rewrite H. cbn [bind]. eauto.
  - rewrite H. cbn [bind]. eauto.
  - apply bind_ok in H. destruct H as [[rs1 m] [E H]]. injection H as <-. rewrite E. cbn [bind fst]. eauto.
  - injection H as <-. eauto.
  - injection H as <-. eauto.
  - injection H as <-. unfold get_event. destruct (s_events rs); cbn [fst]; eauto.
  - rewrite H. cbn [bind]. eauto.
Qed.

Lemma app_sop_presence o id : touches_presence (app_sop o) id = false.
Proof. destruct o; reflexivity. Qed.

(* application calls never add or remove connection objects *)
Theorem app_step_lockstep t rs o rs' :
  lockstep t rs -> conns_sorted rs -> app_step rs o = Ok rs' -> lockstep t rs' /\ conns_sorted rs'.
Proof.
  intros L Hs H. destruct (app_step_sstep _ _ _ H) as (out & S & _). split.
  - intros id. rewrite (sstep_mem_same _ _ _ _ S (app_sop_presence o) id). apply L.
  - apply (sstep_sorted _ _ _ _ Hs S).
Qed.

Lemma app_step_events rs o rs' :
  app_step rs o = Ok rs' ->
  match o with AGetEvent => s_events rs' = tl (s_events rs) | _ => s_events rs' = s_events rs end.
Proof.
  intros H. destruct (app_step_sstep _ _ _ H) as (out & S & _). pose proof (sstep_events_same _ _ _ _ S) as E.
  destruct o; cbn [app_sop] in E; try apply E.
  cbn [app_step] in H. injection H as <-. unfold get_event.
  destruct (s_events rs) eqn:E0; cbn [fst s_events with_events tl]; [exact E0 | reflexivity].
Qed.

Lemma seal_all_spec : forall pk net id outs net' outs',
  table_inv net -> seal_all net id pk outs = Ok (net', outs') ->
  table_inv net' /\ NServer.clients_id net' = NServer.clients_id net.
Proof.
  induction pk as [|p t IH]; intros net id outs net' outs' T H; cbn [seal_all] in H.
  - injection H as <- <-. split; [exact T | reflexivity].
  - destruct (generate_payload_packet net id p) as [net1 r] eqn:E.
    assert (S : nsstep net (NSPayload id p) = Ok (net1, NOPayloadPacket r)).
    { cbn [nsstep]. rewrite E. destruct r as [x|e|site]; [reflexivity | reflexivity | discriminate H]. }
    pose proof (table_inv_step _ _ _ _ T S) as T1.
    assert (I1 : NServer.clients_id net1 = NServer.clients_id net).
    { rewrite !clients_id_connected. exact (nsstep_result _ _ _ _ S). }
    destruct r as [[a d]|e|site]; [| |discriminate].
    + destruct (IH _ _ _ _ _ T1 H) as (T' & I'). split; [exact T' | congruence].
    + injection H as <- <-. split; [exact T1 | exact I1].
Qed.

Lemma send_clients_spec : forall ids net rs outs net' rs' outs',
  table_inv net -> conns_sorted rs -> send_clients ids net rs outs = Ok (net', rs', outs') ->
  table_inv net' /\ NServer.clients_id net' = NServer.clients_id net /\ conns_sorted rs' /\
  (forall x, sm_mem x (s_conns rs') = sm_mem x (s_conns rs)) /\ s_events rs' = s_events rs.
Proof.
  induction ids as [|id t IH]; intros net rs outs net' rs' outs' T Hs H; cbn [send_clients] in H.
  - injection H as <- <- <-. auto.
  - apply bind_ok in H. destruct H as [[rs1 pk] [E H]]. apply of_pres_ok in E.
    destruct pk as [pk|]; [|discriminate].
    apply bind_ok in H. destruct H as [[net1 outs1] [Hs1 H]].
    assert (S : sstep rs (SFlush id) = Ok (rs1, SOPkts (Some pk))) by (cbn [sstep]; rewrite E; reflexivity).
    destruct (seal_all_spec _ _ _ _ _ _ T Hs1) as (T1 & I1).
    destruct (IH _ _ _ _ _ _ T1 (sstep_sorted _ _ _ _ Hs S) H) as (T' & I' & Hs' & M' & Ev').
    split; [exact T'|]. split; [congruence|]. split; [exact Hs'|]. split.
    + intros x. rewrite M'. apply (sstep_mem_same _ _ _ _ S). intros y. reflexivity.
    + rewrite Ev'. apply (sstep_events_same _ _ _ _ S).
Qed.

Theorem tserver_send_lockstep t rs t' rs' outs :
  table_inv (ts_net t) -> conns_sorted rs -> lockstep t rs ->
  tserver_send t rs = Ok (t', rs', outs) ->
  lockstep t' rs' /\ conns_sorted rs' /\ table_inv (ts_net t') /\ ts_in t' = ts_in t /\ s_events rs' = s_events rs.
Proof.
  intros T Hs L H. unfold tserver_send in H. apply bind_ok in H. destruct H as [[[net1 rs1] o1] [H1 H]].
  injection H as <- <- <-. cbn [ts_net ts_in].
  destruct (send_clients_spec _ _ _ _ _ _ _ T Hs H1) as (T' & I' & Hs' & M' & Ev').
  split; [|auto]. intros id. unfold lockstep in L. cbn [ts_net]. rewrite M', I'. apply L.
Qed.

Theorem tserver_disconnect_all_lockstep t rs t' rs' outs :
  table_inv (ts_net t) -> conns_sorted rs -> lockstep t rs ->
  tserver_disconnect_all t rs = Ok (t', rs', outs) ->
  lockstep t' rs' /\ conns_sorted rs' /\ table_inv (ts_net t') /\
  NServer.clients_id (ts_net t') = [] /\ s_conns rs' = [] /\ ts_in t' = ts_in t /\
  exists evs, ev_rel rs rs' evs.
Proof.
  intros T Hs L H. unfold tserver_disconnect_all in H. apply bind_ok in H. destruct H as [[[net1 rs1] o1] [H1 H]].
  injection H as <- <- <-. cbn [ts_net ts_in].
  destruct (disconnect_clients_trace _ _ _ _ _ _ _ H1) as [rl [N A]].
  destruct (chain_lockstep _ _ _ _ _ _ _ _ T Hs L N A) as (T' & Hs' & L' & evs & R & _ & _).
  destruct (disconnect_clients_spec _ _ _ _ _ _ _ T Hs L H1) as [D _].
  assert (E1 : NServer.clients_id net1 = []).
  { apply no_members_nil. intros x Hx. apply D in Hx. tauto. }
  split; [exact L'|]. split; [exact Hs'|]. split; [exact T'|]. split; [exact E1|]. split; [|split; [reflexivity | eauto]].
  destruct (s_conns rs1) as [|[k c] l] eqn:Ec; [reflexivity|]. exfalso.
  assert (Hk : In k (NServer.clients_id net1)).
  { apply L'. rewrite Ec. unfold sm_mem. cbn [sm_find]. rewrite N.eqb_refl. reflexivity. }
  rewrite E1 in Hk. exact Hk.
Qed.

Lemma client_recv_loop_eq : forall q net rc,
  client_recv_loop net rc q =
  (do rc' <- of_pres (process_all rc (surfaced_payloads net q)); Ok (client_after net q, rc')).
Proof.
  induction q as [|[a b] t IH]; intros net rc; cbn [client_recv_loop surfaced_payloads client_after].
  - reflexivity.
  - destruct (negb (addr_eqb a (cl_server_addr net))); [apply IH|].
    destruct (nclient_process_packet net (recv_trunc b)) as [net1 o]. cbn [fst].
    destruct o as [p|]; [|apply IH].
    cbn [process_all]. destruct (Conn.process_packet rc p) as [rc1|e|site]; cbn [bind of_pres];
      [apply IH | reflexivity | reflexivity].
Qed.

Theorem client_recv_loop_spec q net rc net' rc' :
  client_recv_loop net rc q = Ok (net', rc') ->
  process_all rc (surfaced_payloads net q) = Ok rc' /\ net' = client_after net q.
Proof.
  rewrite client_recv_loop_eq. intros H. apply bind_ok in H. destruct H as [rc1 [E H]].
  apply of_pres_ok in E. injection H as <- <-. auto.
Qed.

Lemma process_all_crun : forall ps rc rc',
  process_all rc ps = Ok rc' -> exists outs, crun rc (map CProcess ps) = Ok (rc', outs).
Proof.
  induction ps as [|p t IH]; intros rc rc' H; cbn [process_all] in H.
  - injection H as <-. exists []. reflexivity.
  - apply bind_ok in H. destruct H as [rc1 [E H]]. destruct (IH _ _ H) as [outs R].
    exists (ONone :: outs). cbn [map crun cstep]. rewrite E. cbn [bind]. rewrite R. reflexivity.
Qed.

Lemma mirror_status_live net rc :
  NClient.disconnect_reason net = None ->
  mirror_status net rc = if NClient.is_connected net then set_connected rc else set_connecting rc.
Proof.
  unfold mirror_status, NClient.disconnect_reason, NClient.is_connected, NClient.is_connecting.
  destruct (cl_state net); intros H; try reflexivity. discriminate.
Qed.

Theorem tclient_update_mirrors t rc dt t' rc' outs e :
  tclient_update t rc dt = Ok (t', rc', outs, e) ->
  match NClient.disconnect_reason (tc_net t), Conn.disconnect_reason rc with
  | Some r, _ =>
      (* (a) the netcode client is dead: pushed up, nothing else happens *)
      e = Some (TENetcodeDisconnected r) /\ rc' = disconnect_transport rc /\ outs = [] /\ t' = t
  | None, Some x =>
      (* (b) the message layer is dead: pushed down, one disconnect datagram to the server *)
      e = Some (TERenet x) /\ rc' = rc /\ cl_state (tc_net t') = CDisconnected CRByClient /\ tc_in t' = tc_in t /\
      exists d, outs = [(cl_server_addr (tc_net t), d)] /\
                encode CL_CAP PDisconnect (protocol_of (tc_net t)) (Some (cl_seq (tc_net t), c2s_key (tc_net t))) = Ok d
  | None, None =>
      (* (c) both alive: the status is mirrored BEFORE the queue is processed *)
      e = None /\ tc_in t' = [] /\
      exists o,
        process_all (mirror_status (tc_net t) rc) (surfaced_payloads (tc_net t) (tc_in t)) = Ok rc' /\
        nclient_update (client_after (tc_net t) (tc_in t)) dt = Ok (tc_net t', o) /\
        outs = match o with Some (d, a) => [(a, d)] | None => [] end /\ (length outs <= 1)%nat
  end.
Proof.
  unfold tclient_update. destruct (NClient.disconnect_reason (tc_net t)) as [r|] eqn:Er.
  { intros H. injection H as <- <- <- <-. auto. }
  destruct (Conn.disconnect_reason rc) as [x|] eqn:Ex.
  { rewrite NClientP.disconnect_eq. intros H. injection H as <- <- <- <-.
    cbn [tc_net tc_in cl_state cl_set]. repeat (split; [reflexivity|]).
    eexists. split; [reflexivity | apply NClientP.disconnect_encodes]. }
  fold (mirror_status (tc_net t) rc). intros H.
  apply bind_ok in H. destruct H as [[net1 rc2] [H1 H]]. apply client_recv_loop_spec in H1. destruct H1 as [P ->].
  apply bind_ok in H. destruct H as [[net2 o] [H2 H]]. apply of_nres_ok in H2. injection H as <- <- <- <-.
  cbn [tc_net tc_in]. split; [reflexivity|]. split; [reflexivity|]. exists o.
  split; [exact P|]. split; [exact H2|]. split; [reflexivity|]. destruct o as [[d a]|]; cbn [length]; lia.
Qed.

(* no error returned: it was case (c); a netcode client that is not disconnected is connected or connecting, so
   the last branch of mirror_status (rc left as it is) is never taken *)
Corollary tclient_update_status t rc dt t' rc' outs :
  tclient_update t rc dt = Ok (t', rc', outs, None) ->
  NClient.disconnect_reason (tc_net t) = None /\ Conn.disconnect_reason rc = None /\
  mirror_status (tc_net t) rc = (if NClient.is_connected (tc_net t) then set_connected rc else set_connecting rc).
Proof.
  intros H. pose proof (tclient_update_mirrors _ _ _ _ _ _ _ H) as M.
  destruct (NClient.disconnect_reason (tc_net t)) as [r|] eqn:Er; [destruct M as [M _]; discriminate|].
  destruct (Conn.disconnect_reason rc) as [x|] eqn:Ex; [destruct M as [M _]; discriminate|].
  split; [reflexivity|]. split; [reflexivity|]. apply mirror_status_live. exact Er.
Qed.

Theorem tclient_disconnect_spec t t' outs :
  tclient_disconnect t = Ok (t', outs) ->
  if NClient.is_disconnected (tc_net t) then t' = t /\ outs = []
  else cl_state (tc_net t') = CDisconnected CRByClient /\ tc_in t' = tc_in t /\
       exists d, outs = [(cl_server_addr (tc_net t), d)] /\
                 encode CL_CAP PDisconnect (protocol_of (tc_net t)) (Some (cl_seq (tc_net t), c2s_key (tc_net t))) = Ok d.
Proof.
  unfold tclient_disconnect. destruct (NClient.is_disconnected (tc_net t)).
  - intros H. injection H as <- <-. auto.
  - rewrite NClientP.disconnect_eq. intros H. injection H as <- <-.
    cbn [tc_net tc_in cl_state cl_set]. repeat (split; [reflexivity|]).
    eexists. split; [reflexivity | apply NClientP.disconnect_encodes].
Qed.

Lemma client_seal_all_spec : forall pk net outs net' outs' e,
  client_seal_all net pk outs = Ok (net', outs', e) -> exists sent, outs' = outs ++ sent /\ (length sent <= length pk)%nat.
Proof.
  induction pk as [|p t IH]; intros net outs net' outs' e H; cbn [client_seal_all] in H.
  - injection H as <- <- <-. exists []. rewrite app_nil_r. auto.
  - destruct (nclient_generate_payload net p) as [net1 r]. destruct r as [[a d]|x|site]; [| |discriminate].
    + destruct (IH _ _ _ _ _ H) as [sent [-> Hl]]. exists ((a, d) :: sent). rewrite <- app_assoc.
      split; [reflexivity | cbn [length]; lia].
    + injection H as <- <- <-. exists []. rewrite app_nil_r. split; [reflexivity | cbn [length]; lia].
Qed.

Theorem tclient_send_spec t rc t' rc' outs e :
  tclient_send t rc = Ok (t', rc', outs, e) ->
  match NClient.disconnect_reason (tc_net t) with
  | Some r => e = Some (TENetcodeDisconnected r) /\ t' = t /\ rc' = rc /\ outs = []
  | None => tc_in t' = tc_in t /\ exists pk, get_packets_to_send rc = Ok (rc', pk) /\ (length outs <= length pk)%nat
  end.
Proof.
  unfold tclient_send. destruct (NClient.disconnect_reason (tc_net t)) as [r|].
  - intros H. injection H as <- <- <- <-. auto.
  - intros H. apply bind_ok in H. destruct H as [[rc1 pk] [E H]]. apply of_pres_ok in E.
    apply bind_ok in H. destruct H as [[[net1 o1] e1] [S H]]. injection H as <- <- <- <-.
    cbn [tc_in]. split; [reflexivity|]. exists pk. split; [exact E|].
    destruct (client_seal_all_spec _ _ _ _ _ _ S) as [sent [-> Hl]]. exact Hl.
Qed.

Lemma last_is_connect_change id : forall evs cur b,
  last_is_connect id evs cur = b -> cur <> b -> exists e, In e evs /\ ev_id e = id /\ ev_is_connect e = b.
Proof.
  induction evs as [|a t IH]; intros cur b; cbn [last_is_connect].
  - intros -> H. contradiction.
  - intros H Hne. destruct (ev_id a =? id) eqn:E.
    + destruct (bool_dec (ev_is_connect a) b) as [Eb|Eb].
      * exists a. split; [left; reflexivity|]. split; [apply N.eqb_eq; exact E | exact Eb].
      * destruct (IH _ _ H Eb) as [e [Hin He]]. exists e. split; [right; exact Hin | exact He].
    + destruct (IH _ _ H Hne) as [e [Hin He]]. exists e. split; [right; exact Hin | exact He].
Qed.

(* #Connected and #Disconnected about one id differ by at most one, as the presence changes *)
Lemma alternates_counts id : forall evs p,
  alternates id (negb p) evs ->
  (count_connects id evs + Nat.b2n p = count_disconnects id evs + Nat.b2n (last_is_connect id evs p))%nat.
Proof.
  unfold count_connects, count_disconnects.
  induction evs as [|a t IH]; intros p; cbn [alternates last_is_connect filter length].
  - reflexivity.
  - destruct (ev_id a =? id) eqn:E; cbn [andb].
    + intros [Ec A]. rewrite negb_involutive in A.
      assert (A' : alternates id (negb (ev_is_connect a)) t) by (rewrite Ec, negb_involutive; exact A).
      specialize (IH _ A').
      destruct (ev_is_connect a), p; cbn [negb] in *; try discriminate; cbn [length Nat.b2n] in *; lia.
    + intros A. apply (IH _ A).
Qed.

Lemma result_sops_shape rl :
  Forall (fun o => match o with SAdd _ | SRemove _ | SProcess _ _ => True | _ => False end) (flat_map result_sops rl).
Proof.
  induction rl as [|r t IH]; cbn [flat_map]; [constructor|].
  apply Forall_app. split; [|exact IH]. destruct r; cbn [result_sops]; repeat constructor.
Qed.

Theorem tserver_update_events t rs dt t' rs' outs :
  table_inv (ts_net t) -> conns_sorted rs -> lockstep t rs ->
  tserver_update t rs dt = Ok (t', rs', outs) ->
  exists evs ops rl,
    new_events rs rs' evs /\
    (* the netcode results of this very update explain every event *)
    nsrun (ts_net t) (NSUpdate dt :: ops) = Ok (ts_net t', NONothing :: map NOResult rl) /\
    (forall e, In e evs -> exists r, In r rl /\ ev_of_result r e) /\
    (* and every connect / disconnect the netcode layer reported is pushed up as an event *)
    (forall r, In r rl -> result_reported r evs) /\
    (* the message layer saw add_connection / remove_connection / process_packet_from calls only *)
    (exists souts, srun rs (flat_map result_sops rl) = Ok (rs', souts) /\ taken_events souts = []) /\
    forall id,
      let before := sm_mem id (s_conns rs) in
      let after := sm_mem id (s_conns rs') in
      alternates id (negb before) evs /\ after = last_is_connect id evs before /\
      (count_connects id evs + Nat.b2n before = count_disconnects id evs + Nat.b2n after)%nat /\
      (before = false -> after = true -> In (EvConnected id) evs) /\
      (before = true -> after = false -> exists r, In (EvDisconnected id r) evs).
Proof.
  intros T Hs L H. destruct (tserver_update_full _ _ _ _ _ _ T Hs L H) as [_ (ops & rl & evs & N & A & R & X & Y & _)].
  exists evs, ops, rl. split; [apply R|]. split; [exact N|]. split; [exact X|]. split; [exact Y|].
  split; [apply (apply_results_srun _ _ _ _ _ A)|].
  intros id before after. destruct R as [E R0]. destruct (R0 id) as [Al M]. fold before after in Al, M.
  split; [exact Al|]. split; [exact M|]. split; [rewrite M; apply alternates_counts; exact Al|].
  pose proof (last_is_connect_change id evs before after (eq_sym M)) as Ch.
  split; intros Hb Ha; rewrite Hb, Ha in Ch; destruct Ch as ([x|x r] & Hin & Hid & Hc); try discriminate.
  - cbn [ev_id] in Hid. subst x. exact Hin.
  - cbn [ev_id] in Hid. subst x. eauto.
Qed.

(* a disconnect decided by the message layer (application call or a bad packet) is reported within the next
   update, with the message layer's reason.  The statement has the event only; that a netcode disconnect result
   stands behind it is what tserver_update_events says of every event. *)
Theorem tserver_update_pushes_down t rs dt t' rs' outs id c x :
  table_inv (ts_net t) -> conns_sorted rs -> lockstep t rs ->
  sm_find id (s_conns rs) = Some c -> Conn.disconnect_reason c = Some x ->
  tserver_update t rs dt = Ok (t', rs', outs) ->
  exists evs, new_events rs rs' evs /\ In (EvDisconnected id x) evs.
Proof.
  intros T Hs L Hf Hx H.
  destruct (tserver_update_full _ _ _ _ _ _ T Hs L H) as [(_ & _ & _ & D) (ops & rl & evs & _ & _ & R & _ & _ & Z)].
  assert (Hd : Conn.is_disconnected c = true).
  { unfold Conn.disconnect_reason in Hx. unfold Conn.is_disconnected. destruct (c_status c); try discriminate. reflexivity. }
  exists evs. split; [apply R|]. destruct (Z id c Hf Hd) as [K|K].
  - exfalso. assert (Hin : In id (Server.disconnections_id rs')).
    { apply disconnections_in. exists c. split; [apply SMapP.sm_find_in; exact K | exact Hd]. }
    rewrite D in Hin. exact Hin.
  - unfold reason_of in K. rewrite Hx in K. exact K.
Qed.

(* a payload result names a connected client, so under lockstep the message layer always has the connection
   object: process_packet_from never answers "client not found", and the payload is processed by that client's
   connection *)
Theorem payload_finds_connection net o net' id p rs rs' ok :
  lockstep_n net rs -> nsstep net o = Ok (net', NOResult (SRPayload id p)) ->
  process_packet_from rs p id = Ok (rs', ok) ->
  ok = true /\ exists c c', sm_find id (s_conns rs) = Some c /\ Conn.process_packet c p = Ok c' /\
                             sm_find id (s_conns rs') = Some c'.
Proof.
  intros L S H. destruct (nsstep_result _ _ _ _ S) as [Hin _]. apply L in Hin.
  destruct (SMapP.sm_mem_find _ _ Hin) as [c Hf].
  destruct (process_packet_from_self _ _ _ _ _ H) as [_ K]. rewrite Hf in K. destruct K as [-> [c' [P K]]].
  split; [reflexivity|]. exists c, c'. auto.
Qed.

Definition glue_key : list N := repeatN 7 32.
Definition glue_chal : list N := repeatN 9 32.
Definition glue_addr : addr := AddrV4 [10; 0; 0; 1] 5000.
Definition glue_cfg : list chan_config := [ {| cc_id := 0; cc_max := 10000; cc_type := TReliableOrdered 300 |} ].
Definition glue_rs : server := server_new 60000 glue_cfg glue_cfg.

Definition glue_net : nserver := ltac:(evaluated (nserver_new 0 2 7 [glue_addr] (Some glue_key) glue_chal)).
Lemma glue_net_new : nserver_new 0 2 7 [glue_addr] (Some glue_key) glue_chal = Ok glue_net.
Proof. evaluates. Qed.

Definition glue_inv (w : tserver * server) : Prop :=
  table_inv (ts_net (fst w)) /\ conns_sorted (snd w) /\ lockstep (fst w) (snd w).

Theorem wstep_inv w o t' rs' out : glue_inv w -> wstep w o = Ok (t', rs', out) -> glue_inv (t', rs').
Proof.
  destruct w as [t rs]. unfold glue_inv. cbn [fst snd]. intros (T & Hs & L) H.
  destruct o as [a|dt| | |d|m]; cbn [wstep] in H.
  - apply bind_ok in H. destruct H as [rs1 [E H]]. apply of_pres_ok in E. injection H as <- <- <-.
    destruct (app_step_lockstep _ _ _ _ L Hs E) as [L' Hs']. auto.
  - destruct (tserver_update_lockstep _ _ _ _ _ _ T Hs L H) as (L' & Hs' & T' & _). auto.
  - destruct (tserver_send_lockstep _ _ _ _ _ T Hs L H) as (L' & Hs' & T' & _). auto.
  - destruct (tserver_disconnect_all_lockstep _ _ _ _ _ T Hs L H) as (L' & Hs' & T' & _). auto.
  - injection H as <- <- <-. cbn [ts_net]. auto.
  - injection H as <- <- <-. cbn [ts_net]. split; [apply table_inv_set_max; exact T|]. split; [exact Hs|].
    intros id. unfold lockstep in L. cbn [ts_net].
    rewrite clients_id_connected, set_max_connected, <- clients_id_connected. apply L.
Qed.

(* [wrun] keeps its state as a pair and returns a triple: it is [run wstep] pointwise, not by conversion *)
Lemma wrun_is_run ops : forall w, wrun w ops = run wstep w ops.
Proof.
  induction ops as [|o t IH]; intros w; cbn [wrun run]; [destruct w; reflexivity|].
  destruct (wstep w o) as [[[t1 rs1] out]|e|p]; cbn [bind]; [|reflexivity..]. rewrite IH.
  destruct (run wstep (t1, rs1) t) as [[[t2 rs2] outs]|e|p]; reflexivity.
Qed.

Lemma wrun_cons w o rest t' rs' outs :
  wrun w (o :: rest) = Ok (t', rs', outs) ->
  exists t1 rs1 out outs1, wstep w o = Ok (t1, rs1, out) /\ wrun (t1, rs1) rest = Ok (t', rs', outs1) /\ outs = out :: outs1.
Proof.
  rewrite wrun_is_run. intros H. apply run_cons_ok in H as ([t1 rs1] & out & outs1 & S & R & ->).
  rewrite <- wrun_is_run in R. exists t1, rs1, out, outs1. auto.
Qed.

Theorem wrun_inv : forall ops w t' rs' outs, glue_inv w -> wrun w ops = Ok (t', rs', outs) -> glue_inv (t', rs').
Proof.
  intros ops w t' rs' outs G H. rewrite wrun_is_run in H. apply (run_inv wstep glue_inv) with (3 := H); [|exact G].
  intros w0 o [t1 rs1] out G0 S. exact (wstep_inv _ _ _ _ _ G0 S).
Qed.

Lemma wstep_ev_inv T w o t' rs' out :
  glue_inv w -> ev_inv T (snd w) -> wstep w o = Ok (t', rs', out) -> ev_inv (T ++ step_taken w o) rs'.
Proof.
  destruct w as [t rs]. unfold glue_inv. cbn [fst snd]. intros (Tb & Hs & L) Hi H.
  destruct o as [a|dt| | |d|m]; cbn [wstep] in H.
  - apply bind_ok in H. destruct H as [rs1 [E H]]. apply of_pres_ok in E. injection H as <- <- <-.
    destruct (app_step_sstep _ _ _ E) as (so & S & Tk). rewrite <- (Tk t). apply (sstep_ev_inv T _ _ _ _ Hs Hi S).
  - destruct (tserver_update_full _ _ _ _ _ _ Tb Hs L H) as [_ (ops & rl & evs & _ & _ & R & _)].
    exact (follows_ev_inv T _ _ [] _ Hi R).
  - unfold tserver_send in H. apply bind_ok in H. destruct H as [[[net1 rs1] o1] [H1 H]]. injection H as <- <- <-.
    destruct (send_clients_spec _ _ _ _ _ _ _ Tb Hs H1) as (_ & _ & _ & M' & Ev').
    exact (follows_ev_inv T _ _ _ _ Hi (follows_quiet rs rs1 [] Ev' M')).
  - destruct (tserver_disconnect_all_lockstep _ _ _ _ _ Tb Hs L H) as (_ & _ & _ & _ & _ & _ & evs & R).
    exact (follows_ev_inv T _ _ [] _ Hi R).
  - injection H as <- <- <-. cbn [step_taken]. rewrite app_nil_r. exact Hi.
  - injection H as <- <- <-. cbn [step_taken]. rewrite app_nil_r. exact Hi.
Qed.

Lemma wtaken_cons w o rest t1 rs1 out :
  wstep w o = Ok (t1, rs1, out) -> wtaken w (o :: rest) = step_taken w o ++ wtaken (t1, rs1) rest.
Proof. intros S. cbn [wtaken]. rewrite S. reflexivity. Qed.

Lemma wrun_app : forall a b w t rs o1 t' rs' o2,
  wrun w a = Ok (t, rs, o1) -> wrun (t, rs) b = Ok (t', rs', o2) -> wrun w (a ++ b) = Ok (t', rs', o1 ++ o2).
Proof. intros a b w t rs o1 t' rs' o2. rewrite !wrun_is_run. apply (run_app_intro wstep). Qed.

Lemma wtaken_app : forall a b w t rs o,
  wrun w a = Ok (t, rs, o) -> wtaken w (a ++ b) = wtaken w a ++ wtaken (t, rs) b.
Proof.
  induction a as [|x a IH]; intros b w t rs o H.
  - cbn [wrun] in H. injection H as <- <- _. destruct w. reflexivity.
  - apply wrun_cons in H. destruct H as (t1 & rs1 & out & outs1 & S & R & _).
    cbn [app]. rewrite !(wtaken_cons _ _ _ _ _ _ S), (IH _ _ _ _ _ R), app_assoc. reflexivity.
Qed.

Lemma wtaken_quiet : forall ops w, Forall (fun o => o <> WApp AGetEvent) ops -> wtaken w ops = [].
Proof.
  induction ops as [|o ops IH]; intros w F; [reflexivity|]. inversion F as [|? ? Ho Fo]; subst. cbn [wtaken].
  destruct (wstep w o) as [[[t1 rs1] out]| |]; [|reflexivity ..]. rewrite (IH _ Fo), app_nil_r.
  destruct o as [[]| | | | |]; try reflexivity. contradiction Ho; reflexivity.
Qed.

Lemma wrun_ev_inv : forall ops T w t' rs' outs,
  glue_inv w -> ev_inv T (snd w) -> wrun w ops = Ok (t', rs', outs) -> ev_inv (T ++ wtaken w ops) rs'.
Proof.
  induction ops as [|o rest IH]; intros T w t' rs' outs G Hi H.
  - cbn [wrun] in H. injection H as _ <- _. cbn [wtaken]. rewrite app_nil_r. exact Hi.
  - apply wrun_cons in H. destruct H as (t1 & rs1 & out & outs1 & S & R & _).
    rewrite (wtaken_cons _ _ _ _ _ _ S), app_assoc.
    apply (IH _ (t1, rs1) t' rs' outs1 (wstep_inv _ _ _ _ _ G S)); [|exact R].
    cbn [snd]. apply (wstep_ev_inv _ _ _ _ _ _ G Hi S).
Qed.

Lemma glue_inv_init now max protocol addrs key chal net budget scfg ccfg :
  nserver_new now max protocol addrs key chal = Ok net ->
  glue_inv ({| ts_net := net; ts_in := [] |}, server_new budget scfg ccfg).
Proof.
  intros E. unfold glue_inv. cbn [fst snd ts_net]. split; [exact (table_inv_new _ _ _ _ _ _ _ E)|]. split; [exact I|].
  intros id. cbn [ts_net server_new s_conns]. rewrite clients_id_connected, (connected_new _ _ _ _ _ _ _ E).
  split; [discriminate | intros []].
Qed.

(* end to end: after any interleaving of application calls and transport calls, the message layer holds
   exactly the clients the netcode layer has connected, the events reported so far (taken out or still
   queued) alternate Connected / Disconnected per client, starting with Connected, and a client is connected
   at the netcode layer iff the last event reported about it is Connected *)
Theorem world_events_alternate now max protocol addrs key chal net budget scfg ccfg ops t' rs' outs :
  nserver_new now max protocol addrs key chal = Ok net ->
  let w0 := ({| ts_net := net; ts_in := [] |}, server_new budget scfg ccfg) in
  wrun w0 ops = Ok (t', rs', outs) ->
  let reported := wtaken w0 ops ++ s_events rs' in
  lockstep t' rs' /\ table_inv (ts_net t') /\ conns_sorted rs' /\
  forall id, alternates id true reported /\
             (In id (NServer.clients_id (ts_net t')) <-> last_is_connect id reported false = true).
Proof.
  intros E w0 H reported.
  pose proof (glue_inv_init _ _ _ _ _ _ _ budget scfg ccfg E) as G. fold w0 in G.
  destruct (wrun_inv _ _ _ _ _ G H) as (T' & Hs' & L'). cbn [fst snd] in T', Hs', L'.
  pose proof (wrun_ev_inv _ [] _ _ _ _ G (ev_inv_new budget scfg ccfg) H) as K. cbn [app] in K.
  split; [exact L'|]. split; [exact T'|]. split; [exact Hs'|]. intros id. destruct (K id) as [A M].
  split; [exact A|]. fold reported in M. rewrite <- M. symmetry. apply L'.
Qed.

Example glue_initial :
  exists net, nserver_new 0 2 7 [glue_addr] (Some glue_key) glue_chal = Ok net /\
    let t := {| ts_net := net; ts_in := [] |} in
    table_inv net /\ conns_sorted glue_rs /\ lockstep t glue_rs /\
    exists t', tserver_update t glue_rs 16000000 = Ok (t', glue_rs, []) /\ lockstep t' glue_rs /\
    (* a runt datagram from a stranger is dropped without an answer *)
    exists t'', tserver_update {| ts_net := net; ts_in := [(AddrV4 [10; 0; 0; 9] 4000, [1; 2; 3])] |} glue_rs 16000000
                = Ok (t'', glue_rs, []) /\ lockstep t'' glue_rs.
Proof.
  exists glue_net. split; [exact glue_net_new|]. cbv zeta.
  destruct (glue_inv_init _ _ _ _ _ _ _ 60000 glue_cfg glue_cfg glue_net_new) as (T & Hs & L). cbn [fst snd] in T, Hs, L.
  split; [exact T|]. split; [exact Hs|]. split; [exact L|].
  eassert (E1 : tserver_update {| ts_net := glue_net; ts_in := [] |} glue_rs 16000000 = Ok (_, glue_rs, []))
    by (vm_compute; reflexivity).
  eassert (E2 : tserver_update {| ts_net := glue_net; ts_in := [(AddrV4 [10; 0; 0; 9] 4000, [1; 2; 3])] |} glue_rs 16000000
                = Ok (_, glue_rs, [])) by (vm_compute; reflexivity).
  eexists. split; [exact E1|]. split; [exact (proj1 (tserver_update_lockstep {| ts_in := [] |} _ _ _ _ _ T Hs L E1))|].
  (* T and L do not look at the queue *)
  eexists. split; [exact E2 | exact (proj1 (tserver_update_lockstep {| ts_in := [_] |} _ _ _ _ _ T Hs L E2))].
Qed.

Definition hs_caddr : addr := AddrV4 [10; 0; 0; 7] 4000.
Definition hs_token : nres connect_token :=
  token_generate 0 7 300 42 15%Z [glue_addr] (zeros NC_USER_DATA_BYTES) glue_key (repeatN 3 24) (repeatN 1 32) (repeatN 2 32).

(* both ends, and the log of what happened to the server side as a wop list *)
Record hworld := { hw_ts : tserver; hw_rs : server; hw_tc : tclient; hw_rc : conn; hw_log : list wop;
                   hw_err : list (option terr) }.

Definition hs_w0 (net : nserver) : tserver * server := ({| ts_net := net; ts_in := [] |}, glue_rs).

Definition hs_init : option hworld :=
  match nserver_new 0 2 7 [glue_addr] (Some glue_key) glue_chal, hs_token with
  | Ok net, Ok tok =>
      match nclient_new 0 tok, conn_new 60000 glue_cfg glue_cfg with
      | Ok nc, Ok rc => Some {| hw_ts := fst (hs_w0 net); hw_rs := glue_rs; hw_tc := {| tc_net := nc; tc_in := [] |};
                                hw_rc := rc; hw_log := []; hw_err := [] |}
      | _, _ => None
      end
  | _, _ => None
  end.

(* NetcodeClientTransport::update; what it sends reaches the server's socket *)
Definition hs_client (dt : N) (w : hworld) : option hworld :=
  match tclient_update (hw_tc w) (hw_rc w) dt with
  | Ok (tc', rc', outs, e) =>
      let arr := map (fun d : dgram => (hs_caddr, snd d)) outs in
      Some {| hw_ts := {| ts_net := ts_net (hw_ts w); ts_in := ts_in (hw_ts w) ++ arr |}; hw_rs := hw_rs w;
              hw_tc := tc'; hw_rc := rc'; hw_log := hw_log w ++ map WArrive arr; hw_err := hw_err w ++ [e] |}
  | _ => None
  end.

(* a server-side call; what it sends reaches the client's socket *)
Definition hs_server (o : wop) (w : hworld) : option hworld :=
  match wstep (hw_ts w, hw_rs w) o with
  | Ok (ts', rs', outs) =>
      Some {| hw_ts := ts'; hw_rs := rs';
              hw_tc := {| tc_net := tc_net (hw_tc w); tc_in := tc_in (hw_tc w) ++ map (fun d : dgram => (glue_addr, snd d)) outs |};
              hw_rc := hw_rc w; hw_log := hw_log w ++ [o]; hw_err := hw_err w |}
  | _ => None
  end.

Fixpoint hs_script (l : list (hworld -> option hworld)) (w : hworld) : option hworld :=
  match l with [] => Some w | f :: t => match f w with Some w' => hs_script t w' | None => None end end.

Definition hs_go (l : list (hworld -> option hworld)) : option hworld :=
  match hs_init with Some w => hs_script l w | None => None end.

Definition MS : N := 1000000.
(* request -> challenge -> response -> connected + keep-alive -> the client sees it *)
Definition hs_connect : list (hworld -> option hworld) :=
  [hs_client MS; hs_server (WUpdate MS); hs_client MS; hs_server (WUpdate MS); hs_client MS; hs_client MS].
(* then: a message to the client, the application disconnects the client, the transports carry it through *)
Definition hs_rest : list (hworld -> option hworld) :=
  [hs_server (WApp (ASend 42 0 [1; 2; 3])); hs_server WSend; hs_client MS;
   hs_server (WApp AGetEvent); hs_server (WApp (ADisconnect 42)); hs_server (WUpdate MS);
   hs_client MS; hs_client MS].

Definition hs_view (o : option hworld) :=
  match o with
  | Some w => Some (NServer.clients_id (ts_net (hw_ts w)), map fst (s_conns (hw_rs w)), s_events (hw_rs w),
                    cl_state (tc_net (hw_tc w)), c_status (hw_rc w), hw_err w)
  | None => None
  end.

Lemma hs_go_app l1 l2 : hs_go (l1 ++ l2) = match hs_go l1 with Some w => hs_script l2 w | None => None end.
Proof.
  unfold hs_go. destruct hs_init as [w|]; [|reflexivity].
  revert w. induction l1 as [|f l1 IH]; intros w; cbn [app hs_script]; [reflexivity|].
  destruct (f w); [apply IH | reflexivity].
Qed.

Definition hs_w5 : hworld := ltac:(evaluated (hs_go (firstn 5 hs_connect))).
Lemma hs_w5_eq : hs_go (firstn 5 hs_connect) = Some hs_w5.
Proof. evaluates. Qed.

Definition hs_w6 : hworld := ltac:(evaluated (hs_script (skipn 5 hs_connect) hs_w5)).
Lemma hs_w6_eq : hs_go hs_connect = Some hs_w6.
Proof.
  change hs_connect with (firstn 5 hs_connect ++ skipn 5 hs_connect). rewrite hs_go_app, hs_w5_eq.
  vm_compute. reflexivity.
Qed.

Definition hs_w9 : hworld := ltac:(evaluated (hs_script (firstn 3 hs_rest) hs_w6)).
Lemma hs_w9_eq : hs_go (hs_connect ++ firstn 3 hs_rest) = Some hs_w9.
Proof. rewrite hs_go_app, hs_w6_eq. vm_compute. reflexivity. Qed.

Definition hs_w14 : hworld := ltac:(evaluated (hs_script (skipn 3 hs_rest) hs_w9)).
Lemma hs_w14_eq : hs_go (hs_connect ++ hs_rest) = Some hs_w14.
Proof.
  change hs_rest with (firstn 3 hs_rest ++ skipn 3 hs_rest). rewrite app_assoc, hs_go_app, hs_w9_eq.
  vm_compute. reflexivity.
Qed.

(* after the handshake both layers of the server hold client 42; the client's message layer follows its
   netcode client one update late (the status is mirrored before the queue is read) *)
Example handshake_connects :
  hs_view (hs_go (firstn 5 hs_connect)) =
    Some ([42], [42], [EvConnected 42], CConnected, Connecting, [None; None; None]) /\
  hs_view (hs_go hs_connect) =
    Some ([42], [42], [EvConnected 42], CConnected, Connected, [None; None; None; None]).
Proof. rewrite hs_w5_eq, hs_w6_eq. split; reflexivity. Qed.

(* a message goes down, then the application disconnects 42: the disconnect is pushed down to the netcode
   layer within the next update (which removes the connection object and reports the event), the client's
   netcode layer learns it from the datagram, and its message layer one update later *)
Example handshake_then_disconnect :
  (match hs_go (hs_connect ++ firstn 3 hs_rest) with
   | Some w => match receive_message (hw_rc w) 0 with Ok (_, m) => m | _ => None end
   | None => None
   end = Some [1; 2; 3]) /\
  hs_view (hs_go (hs_connect ++ hs_rest)) =
    Some ([], [], [EvDisconnected 42 RDisconnectedByServer], CDisconnected CRByServer, Disconnected RTransport,
          [None; None; None; None; None; None; Some (TENetcodeDisconnected CRByServer)]).
Proof. rewrite hs_w9_eq, hs_w14_eq. split; vm_compute; reflexivity. Qed.

(* The server side of any script of hs_client / hs_server steps is a run of the log it keeps: what a client
   update sends arrives (WArrive), a server call is that call (wstep). *)
Definition replays (w0 : tserver * server) (w : hworld) : Prop :=
  exists outs, wrun w0 (hw_log w) = Ok (hw_ts w, hw_rs w, outs).

Lemma wrun_arrive : forall arr t rs,
  wrun (t, rs) (map WArrive arr) = Ok ({| ts_net := ts_net t; ts_in := ts_in t ++ arr |}, rs, map (fun _ => []) arr).
Proof.
  induction arr as [|d arr IH]; intros t rs; cbn [map wrun wstep fst snd bind].
  - rewrite app_nil_r. destruct t; reflexivity.
  - rewrite IH. cbn [bind ts_net ts_in]. rewrite <- app_assoc. reflexivity.
Qed.

Lemma hs_client_replays w0 dt w w' : replays w0 w -> hs_client dt w = Some w' -> replays w0 w'.
Proof.
  intros [outs R] H. unfold hs_client in H.
  destruct (tclient_update (hw_tc w) (hw_rc w) dt) as [[[[tc' rc'] o] e]| |]; [|discriminate H ..].
  injection H as <-. eexists. cbn [hw_log hw_ts hw_rs]. eapply wrun_app; [exact R | apply wrun_arrive].
Qed.

Lemma hs_server_replays w0 o w w' : replays w0 w -> hs_server o w = Some w' -> replays w0 w'.
Proof.
  intros [outs R] H. unfold hs_server in H.
  destruct (wstep (hw_ts w, hw_rs w) o) as [[[ts' rs'] out]| |] eqn:S; [|discriminate H ..].
  injection H as <-. eexists. cbn [hw_log hw_ts hw_rs]. eapply wrun_app; [exact R|].
  cbn [wrun]. rewrite S. reflexivity.
Qed.

Definition keeps (P : hworld -> Prop) (f : hworld -> option hworld) : Prop := forall w w', P w -> f w = Some w' -> P w'.

Lemma hs_script_keeps P l : Forall (keeps P) l -> keeps P (hs_script l).
Proof.
  induction 1 as [|f l Hf _ IH]; intros w w' Hw H; cbn [hs_script] in H.
  - injection H as <-. exact Hw.
  - destruct (f w) as [w1|] eqn:E; [|discriminate H]. exact (IH _ _ (Hf _ _ Hw E) H).
Qed.

Lemma hs_go_replays l w : Forall (keeps (replays (hs_w0 glue_net))) l -> hs_go l = Some w -> replays (hs_w0 glue_net) w.
Proof.
  intros F. unfold hs_go, hs_init. rewrite glue_net_new. cbv beta iota.
  destruct hs_token as [tok| |]; [|discriminate ..].
  destruct (nclient_new 0 tok) as [nc| |]; [|discriminate ..].
  destruct (conn_new 60000 glue_cfg glue_cfg) as [rc| |]; [|discriminate ..].
  apply (hs_script_keeps _ _ F). exists []. reflexivity.
Qed.

Lemma hs_steps_replay : Forall (keeps (replays (hs_w0 glue_net))) ((hs_connect ++ firstn 3 hs_rest) ++ skipn 3 hs_rest).
Proof.
  cbn [hs_connect hs_rest app firstn skipn].
  repeat first [apply Forall_nil | apply Forall_cons; [first [exact (hs_client_replays _ _) | exact (hs_server_replays _ _)]|]].
Qed.

(* the only get_event of the run comes after hs_w9: the events taken are those of the last leg *)
Definition hs_tail : list wop := ltac:(let v := eval vm_compute in (skipn (length (hw_log hs_w9)) (hw_log hs_w14)) in exact v).

Lemma hs_w14_reported :
  wtaken (hs_w0 glue_net) (hw_log hs_w14) ++ s_events (hw_rs hs_w14) = [EvConnected 42; EvDisconnected 42 RDisconnectedByServer].
Proof.
  destruct (hs_go_replays _ _ (proj1 (proj1 (Forall_app _ _ _) hs_steps_replay)) hs_w9_eq) as [o9 R9].
  change (hw_log hs_w14) with (hw_log hs_w9 ++ hs_tail).
  assert (Q9 : Forall (fun o => o <> WApp AGetEvent) (hw_log hs_w9))
    by (repeat first [apply Forall_nil | apply Forall_cons; [discriminate|]]).
  rewrite (wtaken_app (hw_log hs_w9) hs_tail (hs_w0 glue_net) (hw_ts hs_w9) (hw_rs hs_w9) o9 R9).
  rewrite (wtaken_quiet (hw_log hs_w9) (hs_w0 glue_net) Q9). vm_compute. reflexivity.
Qed.

Example handshake_is_a_world_run :
  exists net w t' rs' outs,
    nserver_new 0 2 7 [glue_addr] (Some glue_key) glue_chal = Ok net /\
    hs_go (hs_connect ++ hs_rest) = Some w /\
    wrun (hs_w0 net) (hw_log w) = Ok (t', rs', outs) /\ t' = hw_ts w /\ rs' = hw_rs w /\
    wtaken (hs_w0 net) (hw_log w) ++ s_events rs' = [EvConnected 42; EvDisconnected 42 RDisconnectedByServer] /\
    lockstep t' rs' /\ alternates 42 true (wtaken (hs_w0 net) (hw_log w) ++ s_events rs') /\
    ~ In 42 (NServer.clients_id (ts_net t')).
Proof.
  destruct (hs_go_replays _ _ hs_steps_replay hs_w14_eq) as [outs R].
  exists glue_net, hs_w14, (hw_ts hs_w14), (hw_rs hs_w14), outs.
  destruct (world_events_alternate _ _ _ _ _ _ _ _ _ _ _ _ _ _ glue_net_new R) as (L & _ & _ & A).
  fold glue_rs in A. fold (hs_w0 glue_net) in A. rewrite hs_w14_reported in A. destruct (A 42) as [A1 A2].
  rewrite hs_w14_reported.
  split; [exact glue_net_new|]. split; [exact hs_w14_eq|]. split; [exact R|].
  split; [reflexivity|]. split; [reflexivity|]. split; [reflexivity|]. split; [exact L|]. split; [exact A1|].
  rewrite A2. discriminate.
Qed.

Definition mk_conn (id : N) (a : addr) : nconn :=
  {| nc_confirmed := true; nc_id := id; nc_send_key := glue_key; nc_recv_key := glue_key; nc_user := [];
     nc_addr := a; nc_last_recv := 0; nc_last_send := 0; nc_timeout := 15%Z; nc_seq := 0; nc_expire := 100;
     nc_replay := replay_new; nc_chal_floor := 0 |}.
Definition mk_net (cl : list (option nconn)) : nserver :=
  {| ns_clients := cl; ns_pending := []; ns_entries := []; ns_protocol := 7; ns_connect_key := glue_key;
     ns_max := 2; ns_chal_seq := 0; ns_chal_key := glue_chal; ns_addrs := [glue_addr]; ns_now := 0;
     ns_global_seq := NC_GLOBAL_SEQUENCE_INIT; ns_secure := true |}.

Definition weak_rs : server := ltac:(evaluated (add_connection glue_rs 5)).
Lemma weak_rs_eq : add_connection glue_rs 5 = Ok weak_rs.
Proof. evaluates. Qed.

Definition weak_rs' : server * list dgram :=
  ltac:(evaluated (handle_server_result (SRConnected 7 (AddrV4 [10; 0; 0; 7] 4000) [] []) weak_rs [])).
Lemma weak_rs'_eq : handle_server_result (SRConnected 7 (AddrV4 [10; 0; 0; 7] 4000) [] []) weak_rs [] = Ok weak_rs'.
Proof. evaluates. Qed.

(* the conclusion of NServerP.events_matched alone does not give lockstep: for a connect / disconnect result it
   is silent about the other ids.  Two states related by that conclusion for SRConnected 7, a message
   layer in lockstep with the first, and lockstep lost after handle_server_result.  (Real netcode steps
   satisfy the stronger ids_step: nsstep_ids_step.) *)
Example events_matched_conclusion_too_weak :
  let a5 := AddrV4 [10; 0; 0; 5] 4000 in
  let a7 := AddrV4 [10; 0; 0; 7] 4000 in
  let net := mk_net [Some (mk_conn 5 a5); None] in
  let net' := mk_net [Some (mk_conn 7 a7); None] in
  (find_by_id net 7 = None /\ find_by_addr net a7 = None /\
   exists slot c, find_by_id net' 7 = Some (slot, c) /\ nc_addr c = a7) /\
  exists rs rs' outs', add_connection glue_rs 5 = Ok rs /\ conns_sorted rs /\ lockstep_n net rs /\
    handle_server_result (SRConnected 7 a7 [] []) rs [] = Ok (rs', outs') /\ ~ lockstep_n net' rs'.
Proof.
  cbv zeta. split.
  - split; [reflexivity|]. split; [reflexivity|]. eexists _, _. split; reflexivity.
  - exists weak_rs, (fst weak_rs'), (snd weak_rs'). split; [exact weak_rs_eq|]. split; [|split; [|split]].
    + pose proof (sstep_sorted glue_rs (SAdd 5) weak_rs SONone (conns_sorted_new _ _ _)) as K. cbn [sstep] in K.
      rewrite weak_rs_eq in K. apply K. reflexivity.
    + intros id. unfold sm_mem, weak_rs. cbn [s_conns sm_find]. change (NServer.clients_id _) with [5].
      destruct (N.eqb_spec id 5) as [->|Hne].
      * split; [intros _; left; reflexivity | reflexivity].
      * split; [discriminate | intros [H5|[]]; congruence].
    + exact weak_rs'_eq.
    + intros L. destruct (proj1 (L 5) eq_refl) as [M|[]]. discriminate M.
Qed.

(* lockstep is a real hypothesis: RenetServer::new_local_client creates a connection object the netcode
   layer knows nothing about.  Then send_packets takes that client's packets out of the message layer and
   drops them (generate_payload_packet: ClientNotFound), and a disconnected local client object is never
   removed by update. *)
Definition glue_cfg_u : list chan_config := [ {| cc_id := 0; cc_max := 10000; cc_type := TUnreliable |} ].
Definition pk_count (r : pres (server * option (list (list N)))) : option nat :=
  match r with Ok (_, Some l) => Some (length l) | _ => None end.

Example local_client_breaks_lockstep :
  match nserver_new 0 2 7 [glue_addr] (Some glue_key) glue_chal, new_local_client (server_new 60000 glue_cfg_u glue_cfg_u) 5 with
  | Ok net, Ok (rs1, _) =>
      let t := {| ts_net := net; ts_in := [] |} in
      ~ lockstep t rs1 /\
      match srv_send_message rs1 5 0 [1; 2; 3] with
      | Ok rs2 =>
          match tserver_send t rs2 with
          | Ok (_, rs3, outs) =>
              pk_count (srv_get_packets_to_send rs2 5) = Some 1%nat /\      (* one packet was waiting *)
              outs = [] /\ pk_count (srv_get_packets_to_send rs3 5) = Some 0%nat /\   (* gone, nothing sent *)
              match tserver_update t (srv_disconnect rs3 5) MS with
              | Ok (_, rs4, _) => Server.disconnections_id rs4 = [5] /\ s_events rs4 = [EvConnected 5]
              | _ => False
              end
          | _ => False
          end
      | _ => False
      end
  | _, _ => False
  end.
Proof.
  vm_compute. split; [|repeat split; reflexivity].
  intros L. specialize (L 5). destruct L as [L _]. destruct (L eq_refl).
Qed.

Print Assumptions nsstep_ids_step.
Print Assumptions handle_result_lockstep.
Print Assumptions handle_result_lockstep_step.
Print Assumptions chain_lockstep.
Print Assumptions recv_loop_spec.
Print Assumptions recv_loop_surfaced.
Print Assumptions update_clients_trace.
Print Assumptions disconnect_clients_trace.
Print Assumptions disconnect_clients_spec.
Print Assumptions tserver_update_full.
Print Assumptions tserver_update_lockstep.
Print Assumptions tserver_update_events.
Print Assumptions tserver_update_pushes_down.
Print Assumptions payload_finds_connection.
Print Assumptions app_step_lockstep.
Print Assumptions seal_all_spec.
Print Assumptions send_clients_spec.
Print Assumptions tserver_send_lockstep.
Print Assumptions tserver_disconnect_all_lockstep.
Print Assumptions client_recv_loop_eq.
Print Assumptions client_recv_loop_spec.
Print Assumptions client_seal_all_spec.
Print Assumptions tclient_update_mirrors.
Print Assumptions tclient_update_status.
Print Assumptions tclient_disconnect_spec.
Print Assumptions tclient_send_spec.
Print Assumptions wstep_inv.
Print Assumptions wrun_inv.
Print Assumptions world_events_alternate.
Print Assumptions glue_initial.
Print Assumptions handshake_connects.
Print Assumptions handshake_then_disconnect.
Print Assumptions handshake_is_a_world_run.
Print Assumptions events_matched_conclusion_too_weak.
Print Assumptions local_client_breaks_lockstep.

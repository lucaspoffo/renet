(* ConnEncP.v - to_bytes on packets that need not be packet_wf (the library can build packets
   whose slice count or counters are outside what the decoder accepts; the channel id, a u8 in
   packet.rs, is an unbounded N in the model), in the form
   the connection proofs use: the only panic is the varint unreachable!(), the only error is
   BufferTooShort, and the length written is always len (enc_packet p), so that the closed forms
   of PacketP apply.  The encoder itself is walked in PacketP (to_bytes_wr). *)
From RenetV Require Import Base Consts Varint Packet.
From RenetV Require Import Spec.CodecSpec Proofs.VarintP Proofs.PacketP Proofs.BaseP.
Require Import Lia ZifyBool ZifyN.
Open Scope N_scope.

Definition rel_msg_vok (im : N * list N) : Prop := fst im <= VARINT_MAX /\ len (snd im) <= VARINT_MAX.
Definition unrel_msg_vok (m : list N) : Prop := len m <= VARINT_MAX.

Definition slice_vok (s : slice) : Prop :=
  sl_id s <= VARINT_MAX /\ sl_index s <= VARINT_MAX /\ sl_num s <= VARINT_MAX /\
  len (sl_payload s) <= VARINT_MAX.

Definition varints_ok (p : packet) : Prop :=
  match p with
  | SmallReliable seq _ ms => seq <= VARINT_MAX /\ Forall rel_msg_vok ms
  | SmallUnreliable seq _ ms => seq <= VARINT_MAX /\ Forall unrel_msg_vok ms
  | ReliableSlice seq _ s | UnreliableSlice seq _ s => seq <= VARINT_MAX /\ slice_vok s
  | Ack seq _ => seq <= VARINT_MAX
  end.

(* the ranges of an Ack packet built from pending_acks *)
Definition ack_ok (p : packet) : Prop :=
  match p with
  | Ack _ rs => rs <> [] /\ ranges_wf 0 rs /\ ranges_below (VARINT_MAX + 1) rs
  | _ => True
  end.

(* ack_ok and varints_ok are PacketP.packet_a and packet_v up to unfolding, so that to_bytes_wr
   applies as it is; only the length of what it says was written is kept *)
Theorem to_bytes_cases : forall cap p, ack_ok p ->
  match to_bytes cap p with
  | Ok b => varints_ok p /\ len b = len (enc_packet p) /\ len b <= cap
  | Err e => e = BufferTooShort /\ cap < len (enc_packet p)
  | Panic s => s = SITE_VARINT_TOO_LARGE /\ ~ varints_ok p
  end.
Proof.
  intros cap p Hack. pose proof (to_bytes_wr cap p Hack) as H.
  destruct (to_bytes cap p) as [b|e|s].
  - destruct H as (A & -> & C). rewrite enc_on_wire_len in C. rewrite enc_on_wire_len. auto.
  - exact H.
  - exact H.
Qed.

Corollary to_bytes_no_panic_when_small : forall cap p,
  ack_ok p -> varints_ok p -> is_panic (to_bytes cap p) = false.
Proof.
  intros cap p Hack Hv. pose proof (to_bytes_cases cap p Hack) as H.
  destruct (to_bytes cap p); try reflexivity. destruct H as [_ H]. contradiction.
Qed.

(* a slice packet that announces more slices than the decoder admits is encoded but does not decode *)
Lemma big_slice_undecodable cap (rel : bool) sq ch s b :
  sq <= VARINT_MAX -> ch < 256 -> slice_vok s -> MAX_NUM_SLICES < sl_num s ->
  to_bytes cap (if rel then ReliableSlice sq ch s else UnreliableSlice sq ch s) = Ok b ->
  exists e, from_bytes b = Err e.
Proof.
  intros H1 H2 H3 Hbig E. pose proof H3 as (V1 & V2 & V3 & V4).
  rewrite (slice_to_bytes_enc cap rel sq ch s b H2 E).
  exists InvalidNumSlices. unfold from_bytes, from_bytes_rest.
  assert (Hg : forall r, get_slice r (enc_slice s) = Err InvalidNumSlices).
  { intros r. unfold get_slice, enc_slice.
    rewrite varint_roundtrip by exact V1. cbn [bind].
    rewrite varint_roundtrip by exact V2. cbn [bind].
    rewrite varint_roundtrip by exact V3. cbn [bind].
    destruct (N.ltb_spec MAX_NUM_SLICES (sl_num s)); [|lia]. rewrite orb_true_r. reflexivity. }
  destruct rel; cbn [get_u8 bind].
  - rewrite varint_roundtrip by exact H1. cbn [bind app get_u8]. rewrite Hg. reflexivity.
  - rewrite varint_roundtrip by exact H1. cbn [bind app get_u8]. rewrite Hg. reflexivity.
Qed.

Print Assumptions to_bytes_cases.

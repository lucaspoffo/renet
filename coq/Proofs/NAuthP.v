(* NAuthP.v - authenticity of the renetcode server model (Netcode/NServer.v):
   what does not authenticate changes nothing, replays change nothing, payloads and connections only
   surface from the session they belong to, connections trace back to a validated request, requests
   are rejected for the stated causes, connect tokens are bound to an address (as long as the table
   remembers them), every valid request is answered with a challenge.
   The cipher is used only through Proofs/AeadP.v. *)
From RenetV Require Import Base Consts Aead NPacket Token NServer.
From RenetV Require Import Spec.NetSpec.
From RenetV Require Import Proofs.AeadP Proofs.ReplayP Proofs.NPacketP Proofs.TokenP.
From RenetV Require Import Proofs.NSlotsP Proofs.NCodecP Proofs.NServerP Proofs.BaseP Proofs.RunP.
Require Import Lia ZifyBool ZifyN ZifyNat.
Open Scope N_scope.

Lemma authentic_for_tag s a buf : authentic_for s a buf -> tag_authentic_for s a buf.
Proof.
  intros [[slot [c [H1 H2]]]|[H0 [pc [H1 H2]]]]; [left | right].
  - exists slot, c. split; [exact H1 | apply opens_sealed_tag; exact H2].
  - split; [exact H0|]. exists pc. split; [exact H1 | apply opens_sealed_tag; exact H2].
Qed.

Definition quiet (s : nserver) (x : nserver * nres sresult) : Prop :=
  fst x = s /\ (snd x = Ok SRNone \/ exists e, snd x = Err e).

Lemma quiet_noop s a buf s' r :
  quiet s (process_packet_internal s a buf) -> process_packet s a buf = Ok (s', r) -> s' = s /\ r = SRNone.
Proof.
  unfold process_packet, quiet. destruct (process_packet_internal s a buf) as [s1 r0]. cbn [fst snd].
  intros [-> [-> | [e ->]]] H; injection H as <- <-; auto.
Qed.

(* every call returns (process_packet_total), so a theorem that says it changed nothing is an equation *)
Lemma noop_eq s a buf :
  (forall s' r, process_packet s a buf = Ok (s', r) -> s' = s /\ r = SRNone) -> process_packet s a buf = Ok (s, SRNone).
Proof. intros H. destruct (process_packet_total s a buf) as (s' & r & E). destruct (H _ _ E) as [-> ->]. exact E. Qed.

Lemma quiet_ok s : quiet s (s, Ok SRNone).
Proof. split; [reflexivity | left; reflexivity]. Qed.
Lemma quiet_err s e : quiet s (s, Err e).
Proof. split; [reflexivity | right; eexists; reflexivity]. Qed.

Lemma handle_request_unvalidated s a buf v pr ex xn data :
  dgram_type buf = 0 -> request_result buf = Ok (0, PRequest v pr ex xn data) ->
  (forall t ex', ~ request_validates s buf t ex') ->
  quiet s (handle_request s a v pr ex xn data).
Proof.
  intros E Hd Hn. destruct (handle_request_cases s a v pr ex xn data) as [[e [-> _]]|[t [Hc _]]].
  - apply quiet_err.
  - exfalso. apply (Hn t ex). apply request_validates_iff. exists v, pr, xn, data.
    rewrite (decode_request _ _ _ _ E). auto.
Qed.

(* at a connected address even a connection request is ignored; so is whatever opens under the key of the
   session to a number its window refuses *)
Lemma ppi_connected_quiet s a buf slot c :
  find_by_addr s a = Some (slot, c) ->
  (forall plain, opens_to (nc_recv_key c) (ns_protocol s) buf plain ->
     rp_dup (Some (nc_replay c)) (dgram_type buf) (dgram_seq buf) = true) ->
  quiet s (process_packet_internal s a buf).
Proof.
  intros Ea Hn. rewrite (ppi_connected _ _ _ _ _ Ea).
  destruct (decode_spec buf (ns_protocol s) (Some (nc_recv_key c)) (Some (nc_replay c)))
    as [_|e _ _|k plain K Ho Hd].
  3:{ injection K as <-. rewrite (Hn plain Ho) in Hd. discriminate Hd. }
  all: unfold conn_step; cbn [fst snd opt_replay]; rewrite nc_with_replay_id, (set_slot_same _ _ _ _ Ea).
  - destruct (request_result_cases buf) as [[e ->]|(v & pr & ex & xn & data & ->)]; [apply quiet_err | apply quiet_ok].
  - apply quiet_err.
Qed.

(* at a pending address the request is looked at, and must not validate *)
Lemma ppi_pending_quiet s a buf pc :
  table_inv s -> find_by_addr s a = None -> pend_find a (ns_pending s) = Some pc ->
  (forall plain, opens_to (nc_recv_key pc) (ns_protocol s) buf plain ->
     rp_dup (Some (nc_replay pc)) (dgram_type buf) (dgram_seq buf) = true) ->
  (forall t ex, ~ request_validates s buf t ex) ->
  quiet s (process_packet_internal s a buf).
Proof.
  intros T Ea Ep Hn Hnv. rewrite (ppi_pending _ _ _ _ T Ea Ep).
  destruct (decode_spec buf (ns_protocol s) (Some (nc_recv_key pc)) (Some (nc_replay pc)))
    as [E|e _ _|k plain K Ho Hd].
  3:{ injection K as <-. rewrite (Hn plain Ho) in Hd. discriminate Hd. }
  all: unfold pend_step; cbn [fst snd opt_replay]; rewrite (pending_put_back _ _ _ T Ep).
  - destruct (request_result_cases buf) as [[e ->]|(v & pr & ex & xn & data & Hd)]; [apply quiet_err|].
    rewrite Hd. cbv iota. apply (handle_request_unvalidated _ _ _ _ _ _ _ _ E Hd Hnv).
  - apply quiet_err.
Qed.

Lemma ppi_unknown_quiet s a buf :
  find_by_addr s a = None -> pend_find a (ns_pending s) = None ->
  (forall t ex, ~ request_validates s buf t ex) ->
  quiet s (process_packet_internal s a buf).
Proof.
  intros Ea Ep Hnv. rewrite (ppi_unknown _ _ _ Ea Ep).
  destruct (decode_spec buf (ns_protocol s) None None) as [E|e _ _|k plain K _ _]; cbn [snd].
  - destruct (request_result_cases buf) as [[e ->]|(v & pr & ex & xn & data & Hd)]; [apply quiet_err|].
    rewrite Hd. cbn [unknown_step]. apply (handle_request_unvalidated _ _ _ _ _ _ _ _ E Hd Hnv).
  - apply quiet_err.
  - discriminate K.
Qed.

Theorem inauthentic_is_noop s a buf s' r :
  table_inv s -> process_packet s a buf = Ok (s', r) ->
  ~ tag_authentic_for s a buf -> (forall t ex, ~ request_validates s buf t ex) ->
  s' = s /\ r = SRNone.
Proof.
  intros T H Hna Hnv. apply (quiet_noop _ _ _ _ _) in H; [exact H|].
  destruct (find_by_addr s a) as [[slot c]|] eqn:Ea.
  { apply (ppi_connected_quiet _ _ _ _ _ Ea). intros plain Ho. destruct Hna. left. exists slot, c.
    split; [exact Ea | apply tag_verifies_iff; eauto]. }
  destruct (pend_find a (ns_pending s)) as [pc|] eqn:Ep.
  - apply (ppi_pending_quiet _ _ _ _ T Ea Ep); [|exact Hnv].
    intros plain Ho. destruct Hna. right. split; [exact Ea|]. exists pc.
    split; [exact Ep | apply tag_verifies_iff; eauto].
  - apply (ppi_unknown_quiet _ _ _ Ea Ep Hnv).
Qed.

Lemma request_typed_not_authentic s a buf : dgram_type buf = 0 -> ~ tag_authentic_for s a buf.
Proof.
  intros Hty [[slot [c [_ Hv]]]|[_ [pc [_ Hv]]]]; apply tag_verifies_iff in Hv; destruct Hv as [plain Ho];
    exact (opens_to_type _ _ _ _ Ho Hty).
Qed.

Theorem unvalidated_request_is_noop s a buf s' r :
  table_inv s -> dgram_type buf = 0 -> (forall t ex, ~ request_validates s buf t ex) ->
  process_packet s a buf = Ok (s', r) -> s' = s /\ r = SRNone.
Proof.
  intros T Hty Hnv H. apply (inauthentic_is_noop _ _ _ _ _ T H (request_typed_not_authentic _ _ _ Hty) Hnv).
Qed.

(* from a connected address a connection request is ignored outright, validated or not *)
Theorem request_from_connected_ignored s a buf slot c s' r :
  find_by_addr s a = Some (slot, c) -> dgram_type buf = 0 ->
  process_packet s a buf = Ok (s', r) -> s' = s /\ r = SRNone.
Proof.
  intros Ea Hty H. apply (quiet_noop _ _ _ _ _) in H; [exact H|].
  apply (ppi_connected_quiet _ _ _ _ _ Ea). intros plain Ho. destruct (opens_to_type _ _ _ _ Ho Hty).
Qed.

Lemma request_validates_type s buf t ex : request_validates s buf t ex -> dgram_type buf = 0.
Proof.
  intros (v & pr & xn & data & Hd & _). exact (decode_ok_type _ _ _ _ _ _ Hd).
Qed.

Theorem replayed_is_noop s a buf slot c s' r :
  find_by_addr s a = Some (slot, c) -> applies_replay (dgram_type buf) = true ->
  already_received (nc_replay c) (dgram_seq buf) = true ->
  process_packet s a buf = Ok (s', r) -> s' = s /\ r = SRNone.
Proof.
  intros Ea Ha Hr H. apply (quiet_noop _ _ _ _ _) in H; [exact H|].
  apply (ppi_connected_quiet _ _ _ _ _ Ea). intros _ _. cbn [rp_dup]. rewrite Ha, Hr. reflexivity.
Qed.

(* the same for an address that is still pending (there every replay protected kind is ignored anyway) *)
Theorem replayed_is_noop_pending s a buf pc s' r :
  table_inv s -> find_by_addr s a = None -> pend_find a (ns_pending s) = Some pc ->
  applies_replay (dgram_type buf) = true -> already_received (nc_replay pc) (dgram_seq buf) = true ->
  process_packet s a buf = Ok (s', r) -> s' = s /\ r = SRNone.
Proof.
  intros T Ea Ep Ha Hr H. apply (quiet_noop _ _ _ _ _) in H; [exact H|].
  apply (ppi_pending_quiet _ _ _ _ T Ea Ep).
  - intros _ _. cbn [rp_dup]. rewrite Ha, Hr. reflexivity.
  - intros t ex Hv. apply request_validates_type in Hv. rewrite Hv in Ha. discriminate Ha.
Qed.

(* the statement with the Spec's authentic_for (opens_sealed) is FALSE: a tag that verifies moves the
   window before parsing *)
Definition ce_conn (k : list N) (a : addr) : nconn :=
  {| nc_confirmed := true; nc_id := 1; nc_send_key := k; nc_recv_key := k; nc_user := []; nc_addr := a;
     nc_last_recv := 0; nc_last_send := 0; nc_timeout := 15%Z; nc_seq := 0; nc_expire := 100;
     nc_replay := replay_new; nc_chal_floor := 1 |}.
Definition ce_state (k : list N) (a : addr) (proto : N) : nserver :=
  {| ns_clients := [Some (ce_conn k a)]; ns_pending := []; ns_entries := []; ns_protocol := proto;
     ns_connect_key := []; ns_max := 1; ns_chal_seq := 1; ns_chal_key := []; ns_addrs := [];
     ns_now := 0; ns_global_seq := NC_GLOBAL_SEQUENCE_INIT; ns_secure := false |}.

Lemma ce_state_inv k a proto : table_inv (ce_state k a proto).
Proof.
  unfold table_inv, ce_state, connected. nsimpl. cbn [some_list map fst distinct_by In ce_conn nc_id nc_addr].
  repeat split; try tauto; repeat constructor.
Qed.

Lemma ce_state_find k a proto : find_by_addr (ce_state k a proto) a = Some (0, ce_conn k a).
Proof. unfold find_by_addr. cbn [ce_state ns_clients find_slot_by ce_conn nc_addr]. rewrite addr_eqb_refl. reflexivity. Qed.

(* a keep-alive with an empty plaintext sealed under the session key: it does not open (so it is not
   authentic_for), it is no request, the call returns nothing - and the replay window has moved *)
Theorem inauthentic_opens_refuted k a proto :
  let s := ce_state k a proto in
  let buf := [20; 5] ++ aead_seal k (nonce_of 5) (packet_aad 20 proto) [] in
  table_inv s /\ ~ authentic_for s a buf /\ (forall t ex, ~ request_validates s buf t ex) /\
  exists s', process_packet s a buf = Ok (s', SRNone) /\ s' <> s /\
             exists c', find_by_addr s' a = Some (0, c') /\ already_received (nc_replay c') 5 = true.
Proof.
  intros s buf. destruct (decode_advances_before_parsing k proto) as [D1 D2]. cbv zeta in D1, D2. fold buf in D1, D2.
  pose proof (ce_state_find k a proto) as Ea. fold s in Ea.
  split; [apply ce_state_inv|]. split; [|split].
  - intros [[slot [c [H1 H2]]]|[H0 _]]; [|congruence].
    rewrite Ea in H1. injection H1 as <- <-. apply D2. exact H2.
  - intros t ex Hv. apply request_validates_type in Hv. discriminate Hv.
  - eexists. split; [|split].
    + unfold process_packet. rewrite (ppi_connected _ _ _ _ _ Ea).
      change (ns_protocol s) with proto. change (nc_recv_key (ce_conn k a)) with k.
      change (nc_replay (ce_conn k a)) with replay_new. rewrite D1. cbn [fst snd conn_step]. reflexivity.
    + intros E. apply (f_equal ns_clients) in E.
      cbn [ns_clients set_slot set_clients ce_state upd N.to_nat] in E. injection E as E. discriminate E.
    + eexists. split.
      * apply (find_slot_by_slot_update _ _ _ _ _ Ea). reflexivity.
      * cbn [nc_replay nc_with_replay opt_replay]. apply advance_then_received; [apply replay_new_wf | discriminate].
Qed.

Theorem payload_only_authentic s a buf s' id p :
  table_inv s -> process_packet s a buf = Ok (s', SRPayload id p) ->
  exists slot c, find_by_addr s a = Some (slot, c) /\ nc_id c = id /\ dgram_type buf = 5 /\
    already_received (nc_replay c) (dgram_seq buf) = false /\
    (exists prefix seqbytes,
       buf = prefix :: seqbytes ++ aead_seal (nc_recv_key c) (nonce_of (dgram_seq buf))
                                             (packet_aad prefix (ns_protocol s)) p /\
       len seqbytes = prefix / 16) /\
    exists c', find_by_addr s' a = Some (slot, c') /\ nc_id c' = id /\
      nc_replay c' = advance_sequence (nc_replay c) (dgram_seq buf) /\ nc_last_recv c' = ns_now s /\
      (dgram_seq buf < U64MAX -> already_received (nc_replay c') (dgram_seq buf) = true).
Proof.
  intros T H. apply process_step in H.
  remember (NSProcess a buf) as o0 eqn:Eo. remember (NOResult (SRPayload id p)) as out0 eqn:Er.
  (* one move reports a payload *)
  destruct H as [ | | | | | a1 b1 k c q p1 Ea Ed | | | | | | | | | | ]; try discriminate Er.
  injection Eo as -> ->. injection Er as <- <-. exists k, c. split; [exact Ea|].
  destruct (opened_sealed _ _ _ _ _ Ed) as (Hty & Hq & Hdup & Hs & prefix & sb & plain & Hb & Hlen & Hrd);
    [discriminate|].
  cbn [packet_id read_packet] in *. injection Hrd as ->. rewrite Hq.
  split; [reflexivity|]. split; [exact Hty|]. split; [exact (Hdup eq_refl)|]. split; [exists prefix, sb; auto|].
  eexists. split; [apply (find_slot_by_slot_update _ _ _ _ _ Ea); reflexivity|]. rewrite Hs. nsimpl.
  split; [reflexivity|]. split; [reflexivity|]. split; [reflexivity|].
  intros Hlt. apply advance_then_received; [|lia]. apply (table_inv_connected_wf _ _ _ _ T Ea).
Qed.

Theorem disconnected_only_authentic s a buf s' id a' pl :
  table_inv s -> process_packet s a buf = Ok (s', SRDisconnected id a' pl) ->
  a' = a /\ pl = None /\
  exists slot c, find_by_addr s a = Some (slot, c) /\ nc_id c = id /\ dgram_type buf = 6 /\
    already_received (nc_replay c) (dgram_seq buf) = false /\
    (exists prefix seqbytes plain,
       buf = prefix :: seqbytes ++ aead_seal (nc_recv_key c) (nonce_of (dgram_seq buf))
                                             (packet_aad prefix (ns_protocol s)) plain /\
       len seqbytes = prefix / 16) /\
    s' = set_slot s slot None /\ find_by_id s' id = None.
Proof.
  intros T H. apply process_step in H.
  remember (NSProcess a buf) as o0 eqn:Eo. remember (NOResult (SRDisconnected id a' pl)) as out0 eqn:Er.
  (* of the three moves that report a disconnection one is made by process_packet *)
  destruct H as [ | | | | | | | | a1 b1 k c q Ea Ed | | | | | | | ]; try discriminate Er; try discriminate Eo.
  injection Eo as -> ->. injection Er as <- <- <-. split; [reflexivity|]. split; [reflexivity|].
  exists k, c. split; [exact Ea|].
  destruct (opened_sealed _ _ _ _ _ Ed) as (Hty & Hq & Hdup & _ & prefix & sb & plain & Hb & Hlen & _); [discriminate|].
  cbn [packet_id] in *. rewrite Hq.
  split; [reflexivity|]. split; [exact Hty|]. split; [exact (Hdup eq_refl)|]. split; [exists prefix, sb, plain; auto|].
  split; [reflexivity|]. destruct (find_by_addr_id _ _ _ _ T Ea) as [_ Hfi].
  apply (find_by_id_after_clear _ _ _ _ T Hfi).
Qed.

(* a client is reported connected only by a Response datagram from an address with a pending entry,
   sealed under that entry's receive key, echoing a challenge token that opens under THIS server's
   challenge key for exactly that entry's client id and user data, with a challenge sequence not below
   the first challenge issued for the attempt *)
Theorem connected_implies_pending_match s a buf s' id a' user p :
  table_inv s -> process_packet s a buf = Ok (s', SRConnected id a' user p) ->
  a' = a /\ find_by_addr s a = None /\ find_by_id s id = None /\
  exists pc tseq tdata,
    pend_find a (ns_pending s) = Some pc /\ nc_id pc = id /\ nc_user pc = user /\ nc_addr pc = a /\
    nc_chal_floor pc <= tseq /\ challenge_decode tdata tseq (ns_chal_key s) = Ok (id, user) /\
    dgram_type buf = 3 /\
    (exists prefix seqbytes plain,
       buf = prefix :: seqbytes ++ aead_seal (nc_recv_key pc) (nonce_of (dgram_seq buf))
                                             (packet_aad prefix (ns_protocol s)) plain /\
       len seqbytes = prefix / 16 /\ read_packet 3 plain = Ok (PResponse tseq tdata)) /\
    pend_find a (ns_pending s') = None /\
    exists slot, first_free (ns_clients s) 0 = Some slot /\
                 find_by_addr s' a = Some (slot, promote pc user (ns_now s)) /\
                 find_by_id s' id = Some (slot, promote pc user (ns_now s)).
Proof.
  intros T H. pose proof (process_packet_table_inv _ _ _ _ _ T H) as T'. apply process_step in H.
  remember (NSProcess a buf) as o0 eqn:Eo. remember (NOResult (SRConnected id a' user p)) as out0 eqn:Er.
  (* one move reports a connection *)
  destruct H as [ | | | | | | | | | | | | | | | a1 b1 pc q ts td k d Ea Ep Ed Ec Hfl Ei Ef _]; try discriminate Er.
  injection Eo as -> ->. injection Er as <- <- <- <-.
  destruct (opened_sealed _ _ _ _ _ Ed) as (Hty & Hq & _ & Hs & prefix & sb & plain & Hb & Hlen & Hrd); [discriminate|].
  cbn [packet_id] in *.
  (* a response does not move the window: the entry is promoted as it is *)
  change (seen s pc buf = nc_with_replay pc (nc_replay pc)) in Hs. rewrite nc_with_replay_id in Hs.
  pose proof (pending_seen_same _ _ _ _ T Ep Hs) as Eps. rewrite Hs, Eps in *.
  destruct (table_inv_pending_wf _ _ _ T Ep) as [Hpa _].
  split; [reflexivity|]. split; [exact Ea|]. split; [exact Ei|]. exists pc, ts, td. rewrite Hq.
  repeat split; auto.
  - exists prefix, sb, plain. auto.
  - nsimpl. apply pend_find_none, pend_remove_keys, (table_inv_pending_nodup _ T).
  - exists k. split; [exact Ef|].
    pose proof (find_by_id_after_insert (set_pending s (pend_remove a (ns_pending s))) (nc_id pc) k
                  (promote pc (nc_user pc) (ns_now s)) Ei Ef eq_refl) as Hfi.
    split; [|exact Hfi]. destruct (find_by_id_addr _ _ _ _ T' Hfi) as [_ K]. cbn [promote nc_addr] in K.
    rewrite Hpa in K. exact K.
Qed.

Theorem request_rejects s buf v pr ex xn data :
  snd (decode buf (ns_protocol s) None None) = Ok (0, PRequest v pr ex xn data) ->
  v <> NC_VERSION_INFO \/ pr <> ns_protocol s \/ ex <= as_secs (ns_now s) \/
  (forall t, private_decode data (ns_protocol s) ex xn (ns_connect_key s) <> Ok t) \/
  (ns_secure s = true /\ exists t, private_decode data (ns_protocol s) ex xn (ns_connect_key s) = Ok t /\
                                   in_host_list s t = false) ->
  forall t ex', ~ request_validates s buf t ex'.
Proof.
  intros Hd Hc t ex' (v' & pr' & xn' & data' & Hd' & Hv & Hp & He & Hpd & Hh).
  rewrite Hd in Hd'. injection Hd' as <- <- <- <- <-.
  destruct Hc as [Hc|[Hc|[Hc|[Hc|[Hs [t' [Hc1 Hc2]]]]]]].
  - congruence.
  - congruence.
  - lia.
  - apply (Hc t). exact Hpd.
  - rewrite Hpd in Hc1. injection Hc1 as <-. rewrite (Hh Hs) in Hc2. discriminate.
Qed.

Corollary request_rejects_noop s a buf v pr ex xn data s' r :
  table_inv s ->
  snd (decode buf (ns_protocol s) None None) = Ok (0, PRequest v pr ex xn data) ->
  v <> NC_VERSION_INFO \/ pr <> ns_protocol s \/ ex <= as_secs (ns_now s) \/
  (forall t, private_decode data (ns_protocol s) ex xn (ns_connect_key s) <> Ok t) \/
  (ns_secure s = true /\ exists t, private_decode data (ns_protocol s) ex xn (ns_connect_key s) = Ok t /\
                                   in_host_list s t = false) ->
  process_packet s a buf = Ok (s', r) -> s' = s /\ r = SRNone.
Proof.
  intros T Hd Hc H.
  apply (unvalidated_request_is_noop s a buf s' r T); [|apply (request_rejects _ _ _ _ _ _ _ Hd Hc) | exact H].
  exact (decode_ok_type _ _ _ _ _ _ Hd).
Qed.

(* a request validates only if its private part is the seal, under the server's connect key and the
   nonce of the request, with the server's protocol id and the request's expiry as associated data,
   of a plaintext that reads as the token *)
Theorem request_validates_sealed s buf t ex :
  request_validates s buf t ex ->
  exists prefix v xn plain rest,
    buf = prefix :: rest /\ prefix mod 16 = 0 /\
    read_packet 0 rest = Ok (PRequest v (ns_protocol s) ex xn
              (xaead_seal (ns_connect_key s) xn (token_aad (ns_protocol s) ex) plain)) /\
    v = NC_VERSION_INFO /\ as_secs (ns_now s) < ex /\ private_read plain = Ok t /\
    (ns_secure s = true -> in_host_list s t = true).
Proof.
  intros (v & pr & xn & data & Hd & Hv & Hp & He & Hpd & Hh). subst pr.
  destruct (private_decode_sound _ _ _ _ _ _ Hpd) as [plain [-> Hr]].
  assert (Hty : dgram_type buf = 0) by exact (decode_ok_type _ _ _ _ _ _ Hd).
  destruct (decode_request_form _ _ _ _ _ _ Hd Hty) as (_ & _ & _ & prefix & rest & -> & Hrd).
  exists prefix, v, xn, plain, rest. cbn [dgram_type] in Hty. repeat split; auto.
Qed.

Lemma ppi_request s a buf v pr ex xn data :
  table_inv s -> find_by_addr s a = None ->
  snd (decode buf (ns_protocol s) None None) = Ok (0, PRequest v pr ex xn data) ->
  process_packet_internal s a buf = handle_request s a v pr ex xn data.
Proof.
  intros T Ea Hd. assert (Hty : dgram_type buf = 0) by exact (decode_ok_type _ _ _ _ _ _ Hd).
  destruct (pend_find a (ns_pending s)) as [pc|] eqn:Ep.
  - rewrite (ppi_pending _ _ _ _ T Ea Ep). rewrite decode_request in Hd |- * by exact Hty. cbn [fst snd] in *.
    rewrite Hd. unfold pend_step. cbn [opt_replay]. rewrite (pending_put_back _ _ _ T Ep). reflexivity.
  - rewrite (ppi_unknown _ _ _ Ea Ep), Hd. reflexivity.
Qed.

Lemma request_data_decode buf proto v pr ex xn data :
  snd (decode buf proto None None) = Ok (0, PRequest v pr ex xn data) -> request_data buf = data.
Proof.
  intros Hd. assert (Hty : dgram_type buf = 0) by exact (decode_ok_type _ _ _ _ _ _ Hd).
  destruct (decode_ok_request _ _ _ _ _ _ Hd Hty) as (_ & _ & Er & _).
  unfold request_data. rewrite Er. reflexivity.
Qed.

Definition request_entry (s : nserver) (a : addr) (buf : list N) : token_entry :=
  {| te_time := ns_now s; te_addr := a; te_mac := mac_of buf |}.

Definition challenged (s : nserver) (a : addr) (buf : list N) (t : private_token) (ex : N) : nserver :=
  set_pending (set_seqs (set_entries s (fst (find_or_add_entry (ns_entries s) (request_entry s a buf))))
                        (ns_global_seq s + 1) (ns_chal_seq s + 1))
              (pend_put a (pending_entry s a t ex (ns_chal_seq s + 1)) (ns_pending s)).

Lemma hr_body_challenge s a buf ex t out :
  find_by_addr s a = None -> find_by_id s (pt_client_id t) = None ->
  (pend_find a (ns_pending s) <> None \/ len (ns_pending s) < NC_MAX_CLIENTS * NC_MAX_PENDING_FACTOR) ->
  snd (find_or_add_entry (ns_entries s) (request_entry s a buf)) = true ->
  connected_count s < ns_max s ->
  encode OUT_CAP (generate_challenge (pt_client_id t) (pt_user t) (ns_chal_seq s + 1) (ns_chal_key s))
         (ns_protocol s) (Some (ns_global_seq s, pt_s2c t)) = Ok out ->
  hr_body s a ex (request_data buf) t = (challenged s a buf t ex, Ok (SRPacketToSend a out)).
Proof.
  intros Ea Ei Hp Hfe Hc Henc. unfold hr_body, challenged. rewrite Ea, Ei.
  assert (E1 : negb (match pend_find a (ns_pending s) with Some _ => true | None => false end) &&
               (NC_MAX_CLIENTS * NC_MAX_PENDING_FACTOR <=? len (ns_pending s)) = false).
  { destruct (pend_find a (ns_pending s)); [reflexivity|]. cbn [negb andb]. destruct Hp as [Hp|Hp]; [congruence | lia]. }
  rewrite E1. cbv zeta. fold (mac_of buf). fold (request_entry s a buf).
  destruct (find_or_add_entry (ns_entries s) (request_entry s a buf)) as [es allowed]. cbn [fst snd] in *.
  rewrite Hfe. cbn [negb]. nsimpl.
  change (connected_count (set_entries s es)) with (connected_count s).
  destruct (ns_max s <=? connected_count s) eqn:E2; [lia|].
  rewrite Henc. reflexivity.
Qed.

Lemma conn_of_token_fresh t a now ex cseq : conn_of_token (fresh_conn t a now ex cseq) a t ex.
Proof. unfold conn_of_token, fresh_conn. nsimpl. repeat split; reflexivity. Qed.

Theorem request_gets_challenge s a buf t ex :
  table_inv s -> request_validates s buf t ex ->
  find_by_addr s a = None -> find_by_id s (pt_client_id t) = None ->
  connected_count s < ns_max s ->
  (pend_find a (ns_pending s) <> None \/ len (ns_pending s) < NC_MAX_CLIENTS * NC_MAX_PENDING_FACTOR) ->
  snd (find_or_add_entry (ns_entries s) (request_entry s a buf)) = true ->
  exists d,
    process_packet s a buf = Ok (challenged s a buf t ex, SRPacketToSend a d) /\
    encode OUT_CAP (generate_challenge (pt_client_id t) (pt_user t) (ns_chal_seq s + 1) (ns_chal_key s))
           (ns_protocol s) (Some (ns_global_seq s, pt_s2c t)) = Ok d /\
    table_inv (challenged s a buf t ex) /\
    exists pc, pend_find a (ns_pending (challenged s a buf t ex)) = Some pc /\
      (pend_find a (ns_pending s) = None ->
         conn_of_token pc a t ex /\ nc_chal_floor pc = ns_chal_seq s + 1 /\ nc_replay pc = replay_new /\
         nc_seq pc = 0 /\ nc_last_recv pc = ns_now s) /\
      (forall old, pend_find a (ns_pending s) = Some old -> pc = refresh_conn old (ns_now s)).
Proof.
  intros T Hv Ea Ei Hc Hp Hfe.
  pose proof Hv as Hv0. apply request_validates_iff in Hv0. destruct Hv0 as (v & pr & xn & data & Hd & Hck).
  assert (Hppi := ppi_request _ _ _ _ _ _ _ _ T Ea Hd).
  destruct (handle_request_cases s a v pr ex xn data) as [[e [_ Hn]]|[t' [Hck' Hhr]]]; [exfalso; apply (Hn t); exact Hck|].
  assert (t' = t).
  { destruct Hck as (_ & _ & _ & H1 & _). destruct Hck' as (_ & _ & _ & H2 & _). congruence. }
  subst t'. clear Hck'.
  pose proof Hck as (_ & _ & _ & Hpd & _).
  pose proof (private_decode_user_len _ _ _ _ _ _ Hpd) as Hu.
  destruct (challenge_encodes (pt_client_id t) (pt_user t) (ns_chal_seq s + 1) (ns_chal_key s)
              (ns_protocol s) (ns_global_seq s) (pt_s2c t) Hu) as [out Eo].
  pose proof (request_data_decode _ _ _ _ _ _ _ Hd) as <-.
  rewrite (hr_body_challenge s a buf ex t out Ea Ei Hp Hfe Hc Eo) in Hhr.
  assert (Hpp : process_packet s a buf = Ok (challenged s a buf t ex, SRPacketToSend a out)).
  { unfold process_packet. rewrite Hppi, Hhr. reflexivity. }
  exists out. split; [exact Hpp|]. split; [exact Eo|]. split.
  { apply (process_packet_table_inv _ _ _ _ _ T Hpp). }
  exists (pending_entry s a t ex (ns_chal_seq s + 1)). split.
  { unfold challenged. nsimpl. apply pend_put_find. }
  unfold pending_entry. split.
  - intros ->. split; [apply conn_of_token_fresh | repeat split; reflexivity].
  - intros old ->. reflexivity.
Qed.

(* the two server steps of the handshake: a valid request from an unknown address, then the response
   that echoes the challenge, sealed under the client-to-server key of the token *)
Corollary handshake_connects s a buf t ex q resp idx :
  table_inv s -> request_validates s buf t ex ->
  find_by_addr s a = None -> pend_find a (ns_pending s) = None -> find_by_id s (pt_client_id t) = None ->
  connected_count s < ns_max s -> len (ns_pending s) < NC_MAX_CLIENTS * NC_MAX_PENDING_FACTOR ->
  snd (find_or_add_entry (ns_entries s) (request_entry s a buf)) = true ->
  first_free (ns_clients s) 0 = Some idx ->
  pt_client_id t < U64 -> len (pt_user t) = NC_USER_DATA_BYTES -> ns_chal_seq s + 1 < U64 -> q < U64 ->
  encode OUT_CAP (PResponse (ns_chal_seq s + 1)
                    (aead_seal (ns_chal_key s) (nonce_of (ns_chal_seq s + 1)) [] (challenge_plain (pt_client_id t) (pt_user t))))
         (ns_protocol s) (Some (q, pt_c2s t)) = Ok resp ->
  exists s1 d s2 ka,
    process_packet s a buf = Ok (s1, SRPacketToSend a d) /\
    encode OUT_CAP (generate_challenge (pt_client_id t) (pt_user t) (ns_chal_seq s + 1) (ns_chal_key s))
           (ns_protocol s) (Some (ns_global_seq s, pt_s2c t)) = Ok d /\
    process_packet s1 a resp = Ok (s2, SRConnected (pt_client_id t) a (pt_user t) ka) /\
    connected_count s2 = connected_count s + 1.
Proof.
  intros T Hv Ea Ep Ei Hc Hpl Hfe Hff Hid Hul Hts Hq Henc.
  destruct (request_gets_challenge s a buf t ex T Hv Ea Ei Hc (or_intror Hpl) Hfe)
    as (d & Hpp & Hd & T1 & pc & Hpf & Hnew & _).
  destruct (Hnew Ep) as ((Hi & Hu & Hrk & Hsk & _) & Hfl & _).
  set (s1 := challenged s a buf t ex) in *.
  assert (Ecl : ns_clients s1 = ns_clients s) by reflexivity.
  destruct (response_connects s1 a pc (ns_chal_seq s + 1) q resp idx) as (s2 & ka & H2 & Hcnt & _).
  - unfold find_by_addr. rewrite Ecl. exact Ea.
  - exact Hpf.
  - unfold find_by_id. rewrite Ecl, Hi. exact Ei.
  - rewrite Ecl. exact Hff.
  - rewrite Hi. exact Hid.
  - rewrite Hu. exact Hul.
  - exact Hts.
  - exact Hq.
  - lia.
  - rewrite Hi, Hu, Hrk. exact Henc.
  - exists s1, d, s2, ka. rewrite Hi, Hu in H2. repeat split; auto.
Qed.

(* ODDITY.  While an address is pending, a request with ANOTHER token from that address is answered with
   a challenge for the new token (sealed under the new token's server-to-client key), but the pending
   entry keeps the credentials of the first token: the only client that can be connected from that
   address is the first token's, with a response sealed under the first token's key.  The answer to the
   new challenge is useless until the old entry is dropped (at the expiry of the OLD token, see
   pending_expires: pending entries have no time-out of their own). *)
Corollary pending_address_locked s a buf t ex old :
  table_inv s -> request_validates s buf t ex ->
  find_by_addr s a = None -> find_by_id s (pt_client_id t) = None -> connected_count s < ns_max s ->
  snd (find_or_add_entry (ns_entries s) (request_entry s a buf)) = true ->
  pend_find a (ns_pending s) = Some old ->
  exists d,
    process_packet s a buf = Ok (challenged s a buf t ex, SRPacketToSend a d) /\
    encode OUT_CAP (generate_challenge (pt_client_id t) (pt_user t) (ns_chal_seq s + 1) (ns_chal_key s))
           (ns_protocol s) (Some (ns_global_seq s, pt_s2c t)) = Ok d /\
    forall resp s2 id a' user p,
      process_packet (challenged s a buf t ex) a resp = Ok (s2, SRConnected id a' user p) ->
      id = nc_id old /\ user = nc_user old /\
      exists prefix seqbytes plain,
        resp = prefix :: seqbytes ++ aead_seal (nc_recv_key old) (nonce_of (dgram_seq resp))
                                               (packet_aad prefix (ns_protocol s)) plain.
Proof.
  intros T Hv Ea Ei Hc Hfe Ep.
  assert (Hp : pend_find a (ns_pending s) <> None \/ len (ns_pending s) < NC_MAX_CLIENTS * NC_MAX_PENDING_FACTOR)
    by (left; congruence).
  destruct (request_gets_challenge s a buf t ex T Hv Ea Ei Hc Hp Hfe) as (d & H1 & Hd & T1 & pc & Hpf & _ & Hold).
  exists d. split; [exact H1|]. split; [exact Hd|].
  intros resp s2 id a' user p H2.
  destruct (connected_implies_pending_match _ _ _ _ _ _ _ _ T1 H2)
    as (_ & _ & _ & pc' & ts & td & Ep' & Hi & Hu & _ & _ & _ & _ & (prefix & sb & plain & Hb & _) & _).
  rewrite Hpf in Ep'. injection Ep' as <-. rewrite (Hold _ Ep) in *.
  cbn [refresh_conn nc_id nc_user nc_recv_key] in *.
  split; [congruence|]. split; [congruence|]. exists prefix, sb, plain. exact Hb.
Qed.

Lemma nsrun_nth_event ops s0 s outs k r :
  nsrun s0 ops = Ok (s, outs) -> nth_error outs k = Some (NOResult r) ->
  (exists id p, r = SRPayload id p) \/ (exists id a u p, r = SRConnected id a u p) ->
  exists s2 o2 a buf s3, nsrun s0 (firstn k ops) = Ok (s2, o2) /\ nth_error ops k = Some (NSProcess a buf) /\
                         process_packet s2 a buf = Ok (s3, r).
Proof.
  intros H Hn Hr. destruct (run_nth nsstep H Hn) as (s2 & o2 & op & s3 & H2 & Hop & E).
  destruct op as [a buf|dt|id0|id0|id0 pl|m].
  { apply nsstep_process in E. exists s2, o2, a, buf, s3. auto. }
  (* no other call makes a move with such a result *)
  all: exfalso; apply nsstep_move in E; destruct Hr as [(id & p & ->)|(id & a & u & p & ->)]; inversion E.
Qed.

Lemma call_at_lt s0 l k s1 a buf : call_at s0 l k s1 a buf -> (k < length l)%nat.
Proof. intros [Hn _]. apply nth_error_Some. congruence. Qed.

Lemma call_at_app s0 l l2 k s1 a buf : call_at s0 l k s1 a buf -> call_at s0 (l ++ l2) k s1 a buf.
Proof.
  intros H. pose proof (call_at_lt _ _ _ _ _ _ H) as Hk. destruct H as [Hn [o1 Hr]].
  split.
  - rewrite nth_error_app1 by exact Hk. exact Hn.
  - exists o1. rewrite firstn_app. replace (k - length l)%nat with 0%nat by lia.
    cbn [firstn]. rewrite app_nil_r. exact Hr.
Qed.

Definition origin (s0 : nserver) (ops : list nsop) (a : addr) (c : nconn) : Prop :=
  exists k s1 buf t ex, call_at s0 ops k s1 a buf /\ request_validates s1 buf t ex /\ conn_of_token c a t ex.

Lemma origin_app s0 l l2 a c : origin s0 l a c -> origin s0 (l ++ l2) a c.
Proof.
  intros (k & s1 & buf & t & ex & Hca & Hv & Hc). exists k, s1, buf, t, ex.
  split; [apply call_at_app; exact Hca | auto].
Qed.

Lemma origin_same_cred s0 ops a c c' : same_cred c c' -> origin s0 ops a c -> origin s0 ops a c'.
Proof.
  intros Hs (k & s1 & buf & t & ex & Hca & Hv & Hc). exists k, s1, buf, t, ex.
  split; [exact Hca|]. split; [exact Hv | apply (same_cred_token _ _ _ _ _ Hs Hc)].
Qed.

Lemma origin_last s0 l s1 o1 a buf t ex c :
  nsrun s0 l = Ok (s1, o1) -> request_validates s1 buf t ex -> conn_of_token c a t ex ->
  origin s0 (l ++ [NSProcess a buf]) a c.
Proof.
  intros H1 Hv Hc. exists (length l), s1, buf, t, ex. split; [|auto]. split.
  - rewrite nth_error_app2 by lia. rewrite Nat.sub_diag. reflexivity.
  - exists o1. rewrite firstn_app, firstn_all, Nat.sub_diag. cbn [firstn]. rewrite app_nil_r. exact H1.
Qed.

Lemma pending_valid_step s0 l s1 o1 o s out :
  nsrun s0 l = Ok (s1, o1) -> nsstep s1 o = Ok (s, out) ->
  pending_valid s0 l s1 -> pending_valid s0 (l ++ [o]) s.
Proof.
  intros H1 E IH a pc' Hin. change (origin s0 (l ++ [o]) a pc').
  destruct (nsstep_pending_origin _ _ _ _ _ _ E Hin) as [(pc & Ho & Hc & _)|(buf & t & ex & -> & Hv & ->)].
  - apply (origin_same_cred _ _ _ _ _ Hc), origin_app, (IH _ _ Ho).
  - apply (origin_last _ _ _ _ _ _ _ _ _ H1 Hv (conn_of_token_fresh _ _ _ _ _)).
Qed.

(* the ghost invariant: along any run from a state without pending entries, every pending entry was
   created by a connection request from its own address that validated in the state it arrived in, and
   carries the client id, user data, keys, expiry and time-out of that request's private token *)
Theorem pending_implies_valid_request ops : forall s0 s outs,
  table_inv s0 -> ns_pending s0 = [] -> nsrun s0 ops = Ok (s, outs) -> pending_valid s0 ops s.
Proof.
  intros s0 s outs T0 Hp. apply (run_snoc_ind nsstep s0 (fun l s _ => pending_valid s0 l s)).
  - intros a pc Hin. rewrite Hp in Hin. destruct Hin.
  - intros l o s1 o1 s2 out H1 IH E. exact (pending_valid_step _ _ _ _ _ _ _ H1 E IH).
Qed.

(* a client reported connected at step k2 (from address a, as client id, with this user data) traces
   back to an earlier call k1 < k2: a connection request from the same address a that validated, for a
   private token with that client id and that user data; the session keys of the new connection are
   the token's *)
Theorem connected_implies_valid_request ops s0 s outs k2 id a user p :
  table_inv s0 -> ns_pending s0 = [] -> nsrun s0 ops = Ok (s, outs) ->
  nth_error outs k2 = Some (NOResult (SRConnected id a user p)) ->
  exists k1 s1 buf0 t ex,
    (k1 < k2)%nat /\ call_at s0 ops k1 s1 a buf0 /\ request_validates s1 buf0 t ex /\
    pt_client_id t = id /\ pt_user t = user /\
    exists s2 o2 resp s3 slot c,
      nsrun s0 (firstn k2 ops) = Ok (s2, o2) /\ nth_error ops k2 = Some (NSProcess a resp) /\
      process_packet s2 a resp = Ok (s3, SRConnected id a user p) /\
      find_by_id s3 id = Some (slot, c) /\ find_by_addr s3 a = Some (slot, c) /\
      nc_recv_key c = pt_c2s t /\ nc_send_key c = pt_s2c t /\ nc_expire c = ex /\ nc_timeout c = pt_timeout t.
Proof.
  intros T0 Hp H Hn.
  destruct (nsrun_nth_event _ _ _ _ _ _ H Hn) as (s2 & o2 & a0 & resp & s3 & H2 & Hop & E1);
    [right; eexists _, _, _, _; reflexivity|].
  pose proof (table_inv_run _ _ _ _ T0 H2) as T2.
  destruct (connected_implies_pending_match _ _ _ _ _ _ _ _ T2 E1)
    as (-> & Ea & Eid & pc & ts & td & Ep & Hi & Hu & Hpa & _ & _ & _ & _ & _ & slot & _ & Hfa & Hfi).
  pose proof (pending_implies_valid_request _ _ _ _ T0 Hp H2) as PV.
  destruct (PV _ _ (pend_find_In _ _ _ Ep)) as (k1 & s1 & buf0 & t & ex & Hca & Hv & Hct).
  destruct Hct as (Ci & Cu & Crk & Csk & Cex & _ & Cto).
  exists k1, s1, buf0, t, ex.
  split. { apply call_at_lt in Hca. rewrite firstn_length in Hca. lia. }
  split. { rewrite <- (firstn_skipn k2 ops). apply call_at_app. exact Hca. }
  split; [exact Hv|]. split; [congruence|]. split; [congruence|].
  exists s2, o2, resp, s3, slot, (promote pc user (ns_now s2)).
  repeat split; auto.
Qed.

Definition scan0 : scan := {| sn_min := None; sn_oldest := 0; sn_empty := false; sn_match := None |}.

Lemma scan_entries_match es : forall i mac acc,
  sn_match (scan_entries es i mac acc) =
  match last_match es mac with Some m => Some m | None => sn_match acc end.
Proof.
  induction es as [|[e|] t IH]; intros i mac acc; cbn [scan_entries last_match]; [reflexivity| |].
  - destruct (negb (sn_empty acc) && _); rewrite IH; cbn [sn_match];
      destruct (last_match t mac); try reflexivity; destruct (bytes_eqb (te_mac e) mac); reflexivity.
  - destruct (negb (sn_empty acc)); rewrite IH; reflexivity.
Qed.

Lemma find_or_add_entry_eq es e :
  find_or_add_entry es e =
  match last_match es (te_mac e) with
  | Some m => (es, addr_eqb (te_addr m) (te_addr e))
  | None => (upd es (N.to_nat (sn_oldest (scan_entries es 0 (te_mac e) scan0))) (Some e), true)
  end.
Proof.
  unfold find_or_add_entry. fold scan0. rewrite scan_entries_match. cbn [scan0 sn_match].
  destruct (last_match es (te_mac e)); reflexivity.
Qed.

Lemma last_match_some es mac m : last_match es mac = Some m -> In (Some m) es /\ te_mac m = mac.
Proof.
  induction es as [|[e|] t IH]; cbn [last_match]; [discriminate| |].
  - destruct (last_match t mac) as [m'|].
    + intros H. injection H as ->. destruct (IH eq_refl) as [H1 H2]. split; [right; exact H1 | exact H2].
    + destruct (bytes_eqb (te_mac e) mac) eqn:E; [|discriminate]. intros H. injection H as ->.
      apply bytes_eqb_eq in E. split; [left; reflexivity | exact E].
  - intros H. destruct (IH H) as [H1 H2]. split; [right; exact H1 | exact H2].
Qed.

Lemma last_match_none es mac : last_match es mac = None <-> forall m, In (Some m) es -> te_mac m <> mac.
Proof.
  induction es as [|[e|] t IH]; cbn [last_match].
  - split; [intros _ m [] | reflexivity].
  - destruct (last_match t mac) as [m'|] eqn:El.
    + split; [discriminate|]. intros H. destruct (last_match_some _ _ _ El) as [H1 H2].
      exfalso. apply (H m'); [right; exact H1 | exact H2].
    + destruct (bytes_eqb (te_mac e) mac) eqn:E.
      * split; [discriminate|]. intros H. apply bytes_eqb_eq in E. exfalso. apply (H e); [left; reflexivity | exact E].
      * split; [|reflexivity]. intros _ m [Hm|Hm].
        -- injection Hm as <-. intros Hx. apply bytes_eqb_eq in Hx. congruence.
        -- destruct IH as [IH _]. apply (IH eq_refl m Hm).
  - rewrite IH. split; intros H m Hm; [destruct Hm as [Hm|Hm]; [discriminate|]|]; apply (H m); auto. right. exact Hm.
Qed.

Lemma last_match_upd_new es i e mac m :
  last_match es mac = None -> last_match (upd es i (Some e)) mac = Some m -> m = e.
Proof.
  intros Hn Hm. destruct (last_match_some _ _ _ Hm) as [Hin Hmac].
  apply In_upd in Hin. destruct Hin as [Hin|Hin]; [congruence|].
  exfalso. rewrite last_match_none in Hn. apply (Hn m Hin Hmac).
Qed.

(* the tag is known, bound (by the last entry that carries it) to another address: refused, the table
   is returned as it is *)
Theorem token_bound_to_address es e m :
  last_match es (te_mac e) = Some m -> te_addr m <> te_addr e ->
  find_or_add_entry es e = (es, false).
Proof.
  intros Hm Hne. rewrite find_or_add_entry_eq, Hm. apply addr_eqb_neq in Hne. rewrite Hne. reflexivity.
Qed.

(* bound to the same address: allowed again (this is how a retransmitted request passes), table unchanged *)
Theorem token_same_address es e m :
  last_match es (te_mac e) = Some m -> te_addr m = te_addr e ->
  find_or_add_entry es e = (es, true).
Proof.
  intros Hm He. rewrite find_or_add_entry_eq, Hm, He, addr_eqb_refl. reflexivity.
Qed.

(* lifted to the server: a request that validates but whose tag the table binds to another address is
   dropped without a trace - no reply, no pending entry, no table entry *)
Theorem token_bound_request_dropped s a buf t ex m s' r :
  table_inv s -> request_validates s buf t ex ->
  last_match (ns_entries s) (mac_of buf) = Some m -> te_addr m <> a ->
  process_packet s a buf = Ok (s', r) -> s' = s /\ r = SRNone.
Proof.
  intros T Hv Hm Hne H.
  pose proof (request_validates_type _ _ _ _ Hv) as Hty.
  destruct (find_by_addr s a) as [[slot c]|] eqn:Ea.
  { apply (request_from_connected_ignored _ _ _ _ _ _ _ Ea Hty H). }
  apply (quiet_noop _ _ _ _ _) in H; [exact H|].
  apply request_validates_iff in Hv. destruct Hv as (v & pr & xn & data & Hd & Hck).
  rewrite (ppi_request _ _ _ _ _ _ _ _ T Ea Hd).
  destruct (handle_request_cases s a v pr ex xn data) as [[e [-> _]]|[t' [_ ->]]]; [apply quiet_err|].
  unfold hr_body. rewrite Ea.
  destruct (find_by_id s (pt_client_id t')); [apply quiet_ok|].
  match goal with |- quiet s (if ?c then _ else _) => destruct c; [apply quiet_ok|] end.
  cbv zeta.
  assert (Hfe : find_or_add_entry (ns_entries s)
                  {| te_time := ns_now s; te_addr := a; te_mac := dropN (NC_PRIVATE_BYTES - NC_MAC_BYTES) data |}
                = (ns_entries s, false)).
  { apply (token_bound_to_address _ _ m); cbn [te_mac te_addr]; [|exact Hne].
    unfold mac_of in Hm. rewrite (request_data_decode _ _ _ _ _ _ _ Hd) in Hm. exact Hm. }
  rewrite Hfe. cbn [negb]. rewrite set_entries_id. apply quiet_ok.
Qed.

Definition is_some {A} (o : option A) : Prop := match o with Some _ => True | None => False end.

(* on a table without free entries the scan ends on the FIRST entry with the least time *)
Lemma scan_entries_full es : forall i mac acc,
  Forall is_some es -> sn_empty acc = false ->
  let r := scan_entries es i mac acc in
  sn_empty r = false /\
  ((sn_min r = sn_min acc /\ sn_oldest r = sn_oldest acc /\
    forall e, In (Some e) es -> match sn_min acc with Some mn => mn <= te_time e | None => False end) \/
   (exists j e0, nth_opt es j = Some (Some e0) /\ sn_oldest r = i + N.of_nat j /\ sn_min r = Some (te_time e0) /\
      (forall e, In (Some e) es -> te_time e0 <= te_time e) /\
      match sn_min acc with Some mn => te_time e0 < mn | None => True end)).
Proof.
  induction es as [|[e|] t IH]; intros i mac acc Hf He; cbv zeta; cbn [scan_entries].
  - split; [exact He|]. left. repeat split; auto. intros e [].
  - inversion Hf as [|x l _ Hf']; subst. rewrite He. cbn [negb andb].
    destruct (match sn_min acc with Some mn => te_time e <? mn | None => true end) eqn:Ey.
    + (* e becomes the oldest so far *)
      match goal with |- context [scan_entries t (i + 1) mac ?acc'] => specialize (IH (i + 1) mac acc' Hf' eq_refl) end.
      cbv zeta in IH. cbn [sn_min sn_oldest sn_empty] in IH. destruct IH as [IH1 IH2]. split; [exact IH1|]. right.
      destruct IH2 as [(M1 & M2 & M3)|(j & e0 & N1 & N2 & N3 & N4 & N5)].
      * exists 0%nat, e. cbn [nth_opt]. split; [reflexivity|]. split; [rewrite M2; lia|]. split; [exact M1|]. split.
        -- intros e' [Hx|Hx]; [injection Hx as <-; lia | apply (M3 e' Hx)].
        -- destruct (sn_min acc); [lia | exact I].
      * exists (S j), e0. cbn [nth_opt]. split; [exact N1|]. split; [rewrite N2; lia|]. split; [exact N3|]. split.
        -- intros e' [Hx|Hx]; [injection Hx as <-; lia | apply (N4 e' Hx)].
        -- destruct (sn_min acc); [lia | exact I].
    + destruct (sn_min acc) as [mn|] eqn:Em; [|discriminate].
      match goal with |- context [scan_entries t (i + 1) mac ?acc'] => specialize (IH (i + 1) mac acc' Hf' eq_refl) end.
      cbv zeta in IH. cbn [sn_min sn_oldest sn_empty] in IH. destruct IH as [IH1 IH2]. split; [exact IH1|].
      destruct IH2 as [(M1 & M2 & M3)|(j & e0 & N1 & N2 & N3 & N4 & N5)].
      * left. split; [exact M1|]. split; [exact M2|].
        intros e' [Hx|Hx]; [injection Hx as <-; lia | apply (M3 e' Hx)].
      * right. exists (S j), e0. cbn [nth_opt]. split; [exact N1|]. split; [rewrite N2; lia|]. split; [exact N3|]. split.
        -- intros e' [Hx|Hx]; [injection Hx as <-; lia | apply (N4 e' Hx)].
        -- exact N5.
  - inversion Hf as [|x l Hx _]; subst. destruct Hx.
Qed.

(* a full table of other tags: the new tag evicts the (first) oldest entry - and is allowed *)
Theorem token_rebinding_refuted es e :
  Forall is_some es -> es <> [] -> last_match es (te_mac e) = None ->
  exists i old, nth_opt es i = Some (Some old) /\
    (forall e', In (Some e') es -> te_time old <= te_time e') /\
    find_or_add_entry es e = (upd es i (Some e), true).
Proof.
  intros Hf Hne Hm. rewrite find_or_add_entry_eq, Hm.
  destruct (scan_entries_full es 0 (te_mac e) scan0 Hf eq_refl) as [_ [(_ & _ & M3)|(j & e0 & N1 & N2 & _ & N4 & _)]].
  - exfalso. destruct es as [|[x|] t]; [congruence | apply (M3 x); left; reflexivity |].
    inversion Hf as [|y l Hy _]; subst. destruct Hy.
  - exists j, e0. split; [exact N1|]. split; [exact N4|]. rewrite N2. replace (N.to_nat (0 + N.of_nat j)) with j by lia.
    reflexivity.
Qed.

(* hence the binding is forgotten: once the entry of a tag has been evicted, the same tag is accepted
   from ANY address.  Two entries, three tags, two addresses: mac1 is bound to addr1; mac3 arrives and
   evicts it (oldest); mac1 presented from addr2 is now allowed and bound to addr2. *)
Definition rb_a1 : addr := AddrV4 [10; 0; 0; 1] 4000.
Definition rb_a2 : addr := AddrV4 [10; 0; 0; 2] 4000.
Definition rb_table : list (option token_entry) :=
  [Some {| te_time := 1; te_addr := rb_a1; te_mac := [1] |}; Some {| te_time := 2; te_addr := rb_a1; te_mac := [2] |}].

Example token_rebinding_example :
  (* while remembered, mac1 from addr2 is refused *)
  find_or_add_entry rb_table {| te_time := 3; te_addr := rb_a2; te_mac := [1] |} = (rb_table, false) /\
  (* a third tag evicts the entry of mac1 *)
  let es1 := fst (find_or_add_entry rb_table {| te_time := 3; te_addr := rb_a1; te_mac := [3] |}) in
  es1 = [Some {| te_time := 3; te_addr := rb_a1; te_mac := [3] |}; Some {| te_time := 2; te_addr := rb_a1; te_mac := [2] |}] /\
  (* now mac1 from addr2 is allowed, and bound to addr2 *)
  find_or_add_entry es1 {| te_time := 4; te_addr := rb_a2; te_mac := [1] |} =
    ([Some {| te_time := 3; te_addr := rb_a1; te_mac := [3] |}; Some {| te_time := 4; te_addr := rb_a2; te_mac := [1] |}], true).
Proof. repeat split. Qed.

(* non-vacuity: the positive side, symbolically through the cipher *)

Lemma lt_u64max_u64 q : q < U64MAX -> q < U64.
Proof. unfold U64, U64MAX. lia. Qed.

Definition delivered (s : nserver) (slot : N) (c : nconn) (q : N) : nserver :=
  set_slot s slot (Some (nc_received (nc_with_replay c (advance_sequence (nc_replay c) q)) (ns_now s))).

Theorem payload_delivered s a slot c q p buf :
  find_by_addr s a = Some (slot, c) -> q < U64 -> 1 <= sequence_bytes_required q + len p ->
  already_received (nc_replay c) q = false ->
  encode OUT_CAP (PPayload p) (ns_protocol s) (Some (q, nc_recv_key c)) = Ok buf ->
  process_packet s a buf = Ok (delivered s slot c q, SRPayload (nc_id c) p) /\
  find_by_addr (delivered s slot c q) a =
    Some (slot, nc_received (nc_with_replay c (advance_sequence (nc_replay c) q)) (ns_now s)) /\
  dgram_type buf = 5 /\ dgram_seq buf = q.
Proof.
  intros Ea Hq Hlen Hnr Henc.
  assert (Hid : packet_id (PPayload p) <> 0) by (cbn [packet_id]; lia).
  assert (Hdec : decode buf (ns_protocol s) (Some (nc_recv_key c)) (Some (nc_replay c)) =
                 (Some (advance_sequence (nc_replay c) q), Ok (q, PPayload p))).
  { rewrite (decode_encode OUT_CAP (PPayload p) (ns_protocol s) q (nc_recv_key c) buf (Some (nc_replay c))); try assumption.
    - reflexivity.
    - exact I.
    - intros r Hr. injection Hr as <-. rewrite Hnr. apply andb_false_r. }
  split; [|split; [|split]].
  - unfold process_packet. rewrite (ppi_connected _ _ _ _ _ Ea), Hdec. cbn [fst snd conn_step opt_replay].
    rewrite set_slot_twice. reflexivity.
  - apply (find_slot_by_slot_update _ _ _ _ _ Ea). reflexivity.
  - apply (encode_dgram_type _ _ _ _ _ _ Hid Henc).
  - apply (encode_dgram_seq _ _ _ _ _ _ Hid Hq Henc).
Qed.

Corollary payload_delivered_once s a slot c q p buf s' r :
  table_inv s -> find_by_addr s a = Some (slot, c) -> q < U64MAX -> 1 <= sequence_bytes_required q + len p ->
  already_received (nc_replay c) q = false ->
  encode OUT_CAP (PPayload p) (ns_protocol s) (Some (q, nc_recv_key c)) = Ok buf ->
  process_packet (delivered s slot c q) a buf = Ok (s', r) -> s' = delivered s slot c q /\ r = SRNone.
Proof.
  intros T Ea Hq Hlen Hnr Henc H.
  pose proof (lt_u64max_u64 q Hq) as Hq'.
  destruct (payload_delivered _ _ _ _ _ _ _ Ea Hq' Hlen Hnr Henc) as (_ & Hf & Hty & Hsq).
  apply (replayed_is_noop (delivered s slot c q) a buf slot _ s' r Hf); [rewrite Hty; reflexivity | | exact H].
  rewrite Hsq. nsimpl. apply advance_then_received; [|lia]. apply (table_inv_connected_wf _ _ _ _ T Ea).
Qed.

(* the bound q < U64MAX is needed: sequence number u64::MAX is the EMPTY marker of the window, it never
   counts as received, and the very same datagram is delivered twice (see replay_sentinel_refuted) *)
Theorem payload_sentinel_replayed s a slot c p buf :
  table_inv s -> find_by_addr s a = Some (slot, c) -> already_received (nc_replay c) U64MAX = false ->
  encode OUT_CAP (PPayload p) (ns_protocol s) (Some (U64MAX, nc_recv_key c)) = Ok buf ->
  exists s1 s2, process_packet s a buf = Ok (s1, SRPayload (nc_id c) p) /\
                process_packet s1 a buf = Ok (s2, SRPayload (nc_id c) p).
Proof.
  intros T Ea Hnr Henc.
  assert (Hq : U64MAX < U64) by reflexivity.
  assert (Hlen : forall p0 : list N, 1 <= sequence_bytes_required U64MAX + len p0).
  { intros p0. change (sequence_bytes_required U64MAX) with 8. lia. }
  destruct (payload_delivered _ _ _ _ _ _ _ Ea Hq (Hlen p) Hnr Henc) as (H1 & Hf & _).
  set (c1 := nc_received (nc_with_replay c (advance_sequence (nc_replay c) U64MAX)) (ns_now s)) in *.
  assert (Hnr1 : already_received (nc_replay c1) U64MAX = false).
  { unfold c1. nsimpl. apply advance_sentinel_not_received; [apply (table_inv_connected_wf _ _ _ _ T Ea) | exact Hnr]. }
  destruct (payload_delivered (delivered s slot c U64MAX) a slot c1 U64MAX p buf Hf Hq (Hlen p) Hnr1 Henc) as (H2 & _).
  eexists _, _. split; [exact H1 | exact H2].
Qed.

Definition request_dgram (proto ex : N) (xn key : list N) (t : private_token) : list N :=
  0 :: NC_VERSION_INFO ++ le64 proto ++ le64 ex ++ xn ++ private_encode t proto ex xn key.

Lemma request_dgram_decode proto ex xn key t proto' :
  private_wf t -> proto < U64 -> ex < U64 -> len xn = NC_XNONCE_BYTES ->
  snd (decode (request_dgram proto ex xn key t) proto' None None) =
    Ok (0, PRequest NC_VERSION_INFO proto ex xn (private_encode t proto ex xn key)).
Proof.
  intros W Hp He Hx.
  change (request_dgram proto ex xn key t)
    with (0 :: packet_body (PRequest NC_VERSION_INFO proto ex xn (private_encode t proto ex xn key))).
  rewrite decode_request_body; [reflexivity | | reflexivity].
  cbn [npacket_wf]. repeat split; auto. apply private_encode_length, W.
Qed.

Lemma request_dgram_validates s t ex xn :
  private_wf t -> ns_protocol s < U64 -> ex < U64 -> len xn = NC_XNONCE_BYTES -> as_secs (ns_now s) < ex ->
  (ns_secure s = true -> in_host_list s t = true) ->
  request_validates s (request_dgram (ns_protocol s) ex xn (ns_connect_key s) t) t ex.
Proof.
  intros W Hp He Hx Hnow Hh.
  exists NC_VERSION_INFO, (ns_protocol s), xn, (private_encode t (ns_protocol s) ex xn (ns_connect_key s)).
  split; [apply request_dgram_decode; assumption|].
  repeat split; auto. apply private_roundtrip. exact W.
Qed.

Lemma last_match_repeat_none n mac : last_match (repeatN None n) mac = None.
Proof. induction n as [|n IH]; cbn [repeatN last_match]; [reflexivity | exact IH]. Qed.

Theorem full_session s a t ex xn q1 resp idx q2 p pay :
  table_inv s -> private_wf t -> ns_protocol s < U64 -> ex < U64 -> len xn = NC_XNONCE_BYTES ->
  as_secs (ns_now s) < ex -> (ns_secure s = true -> in_host_list s t = true) ->
  find_by_addr s a = None -> pend_find a (ns_pending s) = None -> find_by_id s (pt_client_id t) = None ->
  connected_count s < ns_max s -> len (ns_pending s) < NC_MAX_CLIENTS * NC_MAX_PENDING_FACTOR ->
  last_match (ns_entries s) (mac_of (request_dgram (ns_protocol s) ex xn (ns_connect_key s) t)) = None ->
  first_free (ns_clients s) 0 = Some idx -> ns_chal_seq s + 1 < U64 -> q1 < U64 -> q2 < U64MAX ->
  encode OUT_CAP (PResponse (ns_chal_seq s + 1)
                    (aead_seal (ns_chal_key s) (nonce_of (ns_chal_seq s + 1)) [] (challenge_plain (pt_client_id t) (pt_user t))))
         (ns_protocol s) (Some (q1, pt_c2s t)) = Ok resp ->
  1 <= sequence_bytes_required q2 + len p ->
  encode OUT_CAP (PPayload p) (ns_protocol s) (Some (q2, pt_c2s t)) = Ok pay ->
  let req := request_dgram (ns_protocol s) ex xn (ns_connect_key s) t in
  exists s1 chal s2 ka s3,
    process_packet s a req = Ok (s1, SRPacketToSend a chal) /\
    process_packet s1 a resp = Ok (s2, SRConnected (pt_client_id t) a (pt_user t) ka) /\
    process_packet s2 a pay = Ok (s3, SRPayload (pt_client_id t) p) /\
    process_packet s3 a pay = Ok (s3, SRNone) /\
    process_packet s3 a req = Ok (s3, SRNone).
Proof.
  intros T W Hp He Hx Hnow Hh Ea Ep Ei Hc Hpl Hlm Hff Hts Hq1 Hq2 Hresp Hplen Hpay req.
  pose proof (request_dgram_validates s t ex xn W Hp He Hx Hnow Hh) as Hv. fold req in Hv, Hlm.
  destruct W as (Hid & _ & _ & _ & _ & Hul).
  assert (Hfe : snd (find_or_add_entry (ns_entries s) (request_entry s a req)) = true).
  { rewrite find_or_add_entry_eq. cbn [request_entry te_mac]. rewrite Hlm. reflexivity. }
  destruct (handshake_connects s a req t ex q1 resp idx T Hv Ea Ep Ei Hc Hpl Hfe Hff Hid Hul Hts Hq1 Hresp)
    as (s1 & chal & s2 & ka & H1 & _ & H2 & _).
  assert (T1 : table_inv s1).
  { apply (process_packet_table_inv _ _ _ _ _ T H1). }
  assert (T2 : table_inv s2).
  { apply (process_packet_table_inv _ _ _ _ _ T1 H2). }
  destruct (connected_implies_pending_match _ _ _ _ _ _ _ _ T1 H2)
    as (_ & _ & _ & pc & ts & td & Ep1 & Hi1 & Hu1 & _ & _ & _ & _ & _ & _ & slot & _ & Hfa & _).
  (* the pending entry of a in s1 is the fresh one *)
  destruct (request_gets_challenge s a req t ex T Hv Ea Ei Hc (or_intror Hpl) Hfe) as (d' & H1' & _ & _ & pc' & Hpf & Hnew & _).
  rewrite H1 in H1'. injection H1' as Hs1 _. rewrite <- Hs1 in Hpf. rewrite Ep1 in Hpf. injection Hpf as <-.
  destruct (Hnew Ep) as ((_ & _ & Hrk & _) & _ & Hrp & _).
  set (c2 := promote pc (pt_user t) (ns_now s1)) in *.
  assert (Hproto : ns_protocol s2 = ns_protocol s).
  { assert (P1 : ns_protocol s1 = ns_protocol s) by (rewrite Hs1; reflexivity).
    rewrite <- P1. exact (nsstep_protocol s1 (NSProcess a resp) s2 _ (proj2 (nsstep_process _ _ _ _ _) H2)). }
  pose proof (lt_u64max_u64 q2 Hq2) as Hq2'.
  assert (Hnr : already_received (nc_replay c2) q2 = false).
  { unfold c2. cbn [promote nc_replay]. rewrite Hrp. apply already_received_new. }
  assert (Hpay' : encode OUT_CAP (PPayload p) (ns_protocol s2) (Some (q2, nc_recv_key c2)) = Ok pay).
  { rewrite Hproto. unfold c2. cbn [promote nc_recv_key]. rewrite Hrk. exact Hpay. }
  destruct (payload_delivered s2 a slot c2 q2 p pay Hfa Hq2' Hplen Hnr Hpay') as (H3 & Hf3 & _).
  exists s1, chal, s2, ka, (delivered s2 slot c2 q2).
  split; [exact H1|]. split; [exact H2|]. split.
  { rewrite H3. unfold c2. cbn [promote nc_id]. rewrite Hi1. reflexivity. }
  split.
  - apply noop_eq. intros sx rx. exact (payload_delivered_once s2 a slot c2 q2 p pay sx rx T2 Hfa Hq2 Hplen Hnr Hpay').
  - apply noop_eq. intros sx rx.
    exact (request_from_connected_ignored _ _ _ _ _ _ _ Hf3 (eq_refl : dgram_type req = 0)).
Qed.

(* the same on the server of NServerP.server_example and the token of TokenP *)
Definition sc_server : nserver :=
  {| ns_clients := repeatN None 2; ns_pending := []; ns_entries := repeatN None 2048; ns_protocol := 42;
     ns_connect_key := NServerP.ex_key; ns_max := 2; ns_chal_seq := 0; ns_chal_key := ex_chal_key;
     ns_addrs := [ex_addr]; ns_now := 0; ns_global_seq := NC_GLOBAL_SEQUENCE_INIT; ns_secure := true |}.

Lemma sc_server_new : nserver_new 0 2 42 [ex_addr] (Some NServerP.ex_key) ex_chal_key = Ok sc_server.
Proof. reflexivity. Qed.

Lemma sc_server_inv : table_inv sc_server.
Proof. exact (table_inv_new _ _ _ _ _ _ _ sc_server_new). Qed.

Definition sc_xnonce : list N := repeatN 9 24.
Definition sc_request : list N := request_dgram 42 300 sc_xnonce NServerP.ex_key ex_private.

Definition sc_id : N := pt_client_id ex_private.
Definition sc_user : list N := pt_user ex_private.

Lemma sc_session :
  exists resp pay s1 chal s2 ka s3,
    encode OUT_CAP (PResponse 1 (aead_seal ex_chal_key (nonce_of 1) [] (challenge_plain sc_id sc_user))) 42
           (Some (0, pt_c2s ex_private)) = Ok resp /\
    encode OUT_CAP (PPayload [1; 2; 3]) 42 (Some (1, pt_c2s ex_private)) = Ok pay /\
    table_inv sc_server /\
    request_validates sc_server sc_request ex_private 300 /\
    process_packet sc_server ex_peer sc_request = Ok (s1, SRPacketToSend ex_peer chal) /\
    process_packet s1 ex_peer resp = Ok (s2, SRConnected sc_id ex_peer sc_user ka) /\
    process_packet s2 ex_peer pay = Ok (s3, SRPayload sc_id [1; 2; 3]) /\
    process_packet s3 ex_peer pay = Ok (s3, SRNone) /\
    process_packet s3 ex_peer sc_request = Ok (s3, SRNone).
Proof.
  pose proof sc_server_inv as T.
  destruct (response_encodes (pt_client_id ex_private) (pt_user ex_private) (ns_chal_seq sc_server + 1)
              (ns_chal_key sc_server) (ns_protocol sc_server) 0 (pt_c2s ex_private)) as [resp Eresp];
    [apply N.eq_le_incl, ex_private_wf|].
  destruct (encode_small_ok (PPayload [1; 2; 3]) (ns_protocol sc_server) 1 (pt_c2s ex_private)) as [pay Epay].
  { cbn [packet_id]. lia. }
  { cbn [packet_body]. change (len [1; 2; 3]) with 3. lia. }
  assert (U : ns_protocol sc_server < U64 /\ 300 < U64 /\ ns_chal_seq sc_server + 1 < U64 /\ 0 < U64 /\ 1 < U64MAX).
  { cbn [sc_server ns_protocol ns_chal_seq]. unfold U64, U64MAX. lia. }
  destruct U as (U1 & U2 & U3 & U4 & U5).
  assert (Hnow : as_secs (ns_now sc_server) < 300) by (cbn [sc_server ns_now]; change (as_secs 0) with 0; lia).
  assert (Hhost : ns_secure sc_server = true -> in_host_list sc_server ex_private = true) by (intros _; vm_compute; reflexivity).
  assert (Hcnt : connected_count sc_server < ns_max sc_server) by (vm_compute; reflexivity).
  assert (Hpl : len (ns_pending sc_server) < NC_MAX_CLIENTS * NC_MAX_PENDING_FACTOR) by (vm_compute; reflexivity).
  assert (Hplen : 1 <= sequence_bytes_required 1 + len [1; 2; 3]) by (change (len [1; 2; 3]) with 3; lia).
  destruct (full_session sc_server ex_peer ex_private 300 sc_xnonce 0 resp 0 1 [1; 2; 3] pay
              T ex_private_wf U1 U2 eq_refl Hnow Hhost eq_refl eq_refl eq_refl Hcnt Hpl
              (last_match_repeat_none 2048 _) eq_refl U3 U4 U5 Eresp Hplen Epay)
    as (s1 & chal & s2 & ka & s3 & H1 & H2 & H3 & H4 & H5).
  exists resp, pay, s1, chal, s2, ka, s3.
  split; [exact Eresp|]. split; [exact Epay|]. split; [exact T|].
  split; [|exact (conj H1 (conj H2 (conj H3 (conj H4 H5))))].
  apply (request_dgram_validates sc_server ex_private 300 sc_xnonce ex_private_wf U1 U2 eq_refl Hnow Hhost).
Qed.

Example session_example :
  exists resp pay s1 chal s2 ka s3,
    request_validates sc_server sc_request ex_private 300 /\
    process_packet sc_server ex_peer sc_request = Ok (s1, SRPacketToSend ex_peer chal) /\
    process_packet s1 ex_peer resp = Ok (s2, SRConnected sc_id ex_peer sc_user ka) /\
    process_packet s2 ex_peer pay = Ok (s3, SRPayload sc_id [1; 2; 3]) /\
    process_packet s3 ex_peer pay = Ok (s3, SRNone) /\
    process_packet s3 ex_peer sc_request = Ok (s3, SRNone).
Proof.
  destruct sc_session as (resp & pay & s1 & chal & s2 & ka & s3 & _ & _ & _ & H).
  exists resp, pay, s1, chal, s2, ka, s3. exact H.
Qed.

(* the hypotheses of inauthentic_is_noop are satisfiable: a keep-alive sealed under another key
   (27 bytes through the cipher) *)
Example inauthentic_example :
  let s := ce_state (repeatN 8 32) ex_peer 42 in
  table_inv s /\ ~ tag_authentic_for s ex_peer ex_keepalive_dgram /\
  (forall t ex, ~ request_validates s ex_keepalive_dgram t ex) /\
  process_packet s ex_peer ex_keepalive_dgram = Ok (s, SRNone).
Proof.
  intros s.
  assert (T : table_inv s) by apply ce_state_inv.
  assert (Hk : ~ tag_verifies (repeatN 8 32) 42 ex_keepalive_dgram).
  { vm_compute. intros [_ H]. apply H. reflexivity. }
  assert (Hna : ~ tag_authentic_for s ex_peer ex_keepalive_dgram).
  { intros [[slot [c [H1 H2]]]|[H0 _]]; unfold s in *; rewrite ce_state_find in *; [|discriminate].
    injection H1 as <- <-. exact (Hk H2). }
  assert (Hnv : forall t ex, ~ request_validates s ex_keepalive_dgram t ex).
  { intros t ex Hv. apply request_validates_type in Hv. revert Hv. vm_compute. discriminate. }
  split; [exact T|]. split; [exact Hna|]. split; [exact Hnv|].
  apply noop_eq. intros s' r H. exact (inauthentic_is_noop _ _ _ _ _ T H Hna Hnv).
Qed.

(* table_inv is needed in unvalidated_request_is_noop: the pending map is modelled by an association
   list; with a duplicated key (impossible for a HashMap) putting the entry back rewrites the
   second copy *)
Definition dup_pc (id : N) : nconn :=
  {| nc_confirmed := false; nc_id := id; nc_send_key := []; nc_recv_key := []; nc_user := []; nc_addr := ex_peer;
     nc_last_recv := 0; nc_last_send := 0; nc_timeout := 15%Z; nc_seq := 0; nc_expire := 100;
     nc_replay := replay_new; nc_chal_floor := 1 |}.
Definition dup_state : nserver :=
  {| ns_clients := [None]; ns_pending := [(ex_peer, dup_pc 1); (ex_peer, dup_pc 2)]; ns_entries := []; ns_protocol := 42;
     ns_connect_key := []; ns_max := 1; ns_chal_seq := 1; ns_chal_key := []; ns_addrs := [];
     ns_now := 0; ns_global_seq := NC_GLOBAL_SEQUENCE_INIT; ns_secure := false |}.

Example unvalidated_request_needs_inv :
  dgram_type (zeros 18) = 0 /\ (forall t ex, ~ request_validates dup_state (zeros 18) t ex) /\
  exists s', process_packet dup_state ex_peer (zeros 18) = Ok (s', SRNone) /\ s' <> dup_state /\ ~ table_inv dup_state.
Proof.
  split; [reflexivity|]. split.
  - intros t ex (v & pr & xn & data & Hd & _). vm_compute in Hd. discriminate.
  - exists (set_pending dup_state [(ex_peer, dup_pc 1); (ex_peer, dup_pc 1)]).
    split; [vm_compute; reflexivity|]. split.
    + intros E. apply (f_equal (fun s => map (fun x => nc_id (snd x)) (ns_pending s))) in E. discriminate E.
    + intros T. apply table_inv_pending_nodup in T. inversion T as [|x l Hn _]. apply Hn. left. reflexivity.
Qed.

(* three of the five causes of rejection, each on a request that is otherwise valid *)
Example request_rejects_examples s a :
  table_inv s -> ns_protocol s < U64 ->
  (* sealed for another protocol id *)
  (forall proto, proto < U64 -> proto <> ns_protocol s ->
     process_packet s a (request_dgram proto 300 sc_xnonce (ns_connect_key s) ex_private) = Ok (s, SRNone)) /\
  (* expired *)
  (forall ex, ex < U64 -> ex <= as_secs (ns_now s) ->
     process_packet s a (request_dgram (ns_protocol s) ex sc_xnonce (ns_connect_key s) ex_private) = Ok (s, SRNone)) /\
  (* none of the token's server addresses is one of this server's *)
  (ns_secure s = true -> in_host_list s ex_private = false ->
     process_packet s a (request_dgram (ns_protocol s) 300 sc_xnonce (ns_connect_key s) ex_private) = Ok (s, SRNone)).
Proof.
  intros T Hp.
  assert (K : forall buf v pr ex xn data,
     snd (decode buf (ns_protocol s) None None) = Ok (0, PRequest v pr ex xn data) ->
     v <> NC_VERSION_INFO \/ pr <> ns_protocol s \/ ex <= as_secs (ns_now s) \/
     (forall t, private_decode data (ns_protocol s) ex xn (ns_connect_key s) <> Ok t) \/
     (ns_secure s = true /\ exists t, private_decode data (ns_protocol s) ex xn (ns_connect_key s) = Ok t /\
                                      in_host_list s t = false) ->
     process_packet s a buf = Ok (s, SRNone)).
  { intros buf v pr ex xn data Hd Hc. apply noop_eq. intros s' r.
    exact (request_rejects_noop _ _ _ _ _ _ _ _ _ _ T Hd Hc). }
  assert (U : 300 < U64) by (unfold U64; lia).
  split; [|split].
  - intros proto Hpr Hne.
    apply (K _ _ _ _ _ _ (request_dgram_decode proto 300 sc_xnonce (ns_connect_key s) ex_private _ ex_private_wf Hpr U eq_refl)).
    right. left. exact Hne.
  - intros ex Hex Hle.
    apply (K _ _ _ _ _ _ (request_dgram_decode (ns_protocol s) ex sc_xnonce (ns_connect_key s) ex_private _ ex_private_wf Hp Hex eq_refl)).
    right. right. left. exact Hle.
  - intros Hs Hh.
    apply (K _ _ _ _ _ _ (request_dgram_decode (ns_protocol s) 300 sc_xnonce (ns_connect_key s) ex_private _ ex_private_wf Hp U eq_refl)).
    right. right. right. right. split; [exact Hs|]. exists ex_private. split; [|exact Hh].
    apply private_roundtrip. apply ex_private_wf.
Qed.

(* the token of sc_request, bound to another address *)
Definition bound_server : nserver :=
  set_entries sc_server [Some {| te_time := 0; te_addr := ex_addr; te_mac := mac_of sc_request |}].

Example token_bound_example : process_packet bound_server ex_peer sc_request = Ok (bound_server, SRNone).
Proof.
  assert (T : table_inv bound_server).
  { apply (table_inv_of _ [] []); [reflexivity | reflexivity |].
    unfold tbl. cbn [map]. repeat split; try constructor; destruct H. }
  assert (Hv : request_validates bound_server sc_request ex_private 300).
  { apply (request_dgram_validates bound_server ex_private 300 sc_xnonce ex_private_wf);
      [reflexivity | reflexivity | reflexivity | reflexivity | intros _; vm_compute; reflexivity]. }
  apply noop_eq. intros s' r.
  apply (token_bound_request_dropped bound_server ex_peer sc_request ex_private 300
           {| te_time := 0; te_addr := ex_addr; te_mac := mac_of sc_request |} s' r T Hv).
  - unfold bound_server. nsimpl. cbn [last_match te_mac]. rewrite bytes_eqb_refl. reflexivity.
  - cbn [te_addr]. discriminate.
Qed.

(* token_rebinding_refuted lifted to the server: once the table does not hold the tag (any more), the request
   is answered with a challenge whatever the address it comes from *)
Corollary forgotten_token_accepted_anywhere s a buf t ex :
  table_inv s -> request_validates s buf t ex ->
  find_by_addr s a = None -> find_by_id s (pt_client_id t) = None -> connected_count s < ns_max s ->
  (pend_find a (ns_pending s) <> None \/ len (ns_pending s) < NC_MAX_CLIENTS * NC_MAX_PENDING_FACTOR) ->
  last_match (ns_entries s) (mac_of buf) = None ->
  exists d, process_packet s a buf = Ok (challenged s a buf t ex, SRPacketToSend a d).
Proof.
  intros T Hv Ea Ei Hc Hp Hm.
  destruct (request_gets_challenge s a buf t ex T Hv Ea Ei Hc Hp) as (d & H & _); [|eauto].
  rewrite find_or_add_entry_eq. cbn [request_entry te_mac]. rewrite Hm. reflexivity.
Qed.

Lemma In_nth_opt {A} (l : list A) x : In x l -> exists k, nth_opt l k = Some x.
Proof.
  induction l as [|z l IH]; [intros []|]. intros [->|H].
  - exists 0%nat. reflexivity.
  - destruct (IH H) as [k Hk]. exists (S k). exact Hk.
Qed.

Definition client_from (s : nserver) (o : nsop) (k : nat) (c' : nconn) : Prop :=
  (exists c, nth_opt (ns_clients s) k = Some (Some c) /\ same_cred c c' /\
     (nc_replay c' = nc_replay c \/
      exists buf, o = NSProcess (nc_addr c) buf /\ nc_replay c' = advance_sequence (nc_replay c) (dgram_seq buf) /\
                  already_received (nc_replay c) (dgram_seq buf) = false)) \/
  (nth_opt (ns_clients s) k = Some None /\ exists a buf pc, o = NSProcess a buf /\ In (a, pc) (ns_pending s) /\ same_cred pc c').

Lemma client_from_touched s o k c c' :
  nth_opt (ns_clients s) k = Some (Some c) -> same_cred c c' -> nc_replay c' = nc_replay c -> client_from s o k c'.
Proof. intros Hk Hs Hr. left. exists c. auto. Qed.

Lemma client_from_old s o k c' : nth_opt (ns_clients s) k = Some (Some c') -> client_from s o k c'.
Proof. intros Hk. apply (client_from_touched _ _ _ c'); [exact Hk | apply same_cred_refl | reflexivity]. Qed.

Lemma nsstep_client_frame s o s' out k c' :
  nsstep s o = Ok (s', out) -> nth_opt (ns_clients s') k = Some (Some c') -> client_from s o k c'.
Proof.
  intros E H.
  destruct (nsstep_slot_change _ _ _ _ E) as [Hc | n Hc | j c c2 buf Hj Hc Hsc _ _ -> W | j c pkt d Hj Hc _ _ _
                                             | j c Hj Hc | j a buf pc c2 Hj Hc _ -> Hin Hsc]; rewrite Hc in H.
  - apply client_from_old. exact H.
  - apply nth_opt_app_inv in H. destruct H as [H|H]; [apply client_from_old; exact H|]. apply In_repeatN in H. discriminate.
  - apply nth_opt_upd_inv in H. destruct H as [[-> Hx]|[_ H]]; [|apply client_from_old; exact H]. injection Hx as <-.
    left. exists c. split; [exact Hj|]. split; [exact Hsc|].
    destruct W as [W|[W Hnr]]; [left; exact W | right; exists buf; auto].
  - apply nth_opt_upd_inv in H. destruct H as [[-> Hx]|[_ H]]; [|apply client_from_old; exact H]. injection Hx as Hx. subst c'.
    apply (client_from_touched _ _ _ c _ Hj); [apply same_cred_sent | reflexivity].
  - apply nth_opt_upd_inv in H. destruct H as [[_ Hx]|[_ H]]; [discriminate | apply client_from_old; exact H].
  - apply nth_opt_upd_inv in H. destruct H as [[-> Hx]|[_ H]]; [|apply client_from_old; exact H]. injection Hx as <-.
    right. split; [exact Hj|]. exists a, buf, pc. auto.
Qed.

Definition clients_valid (s0 : nserver) (ops : list nsop) (s : nserver) : Prop :=
  forall k c, nth_opt (ns_clients s) k = Some (Some c) ->
    exists k1 s1 buf0 t ex, call_at s0 ops k1 s1 (nc_addr c) buf0 /\ request_validates s1 buf0 t ex /\
                            conn_of_token c (nc_addr c) t ex.

(* a promoted entry takes its origin from the pending ones *)
Lemma clients_valid_step s0 l s1 o s out :
  nsstep s1 o = Ok (s, out) ->
  pending_valid s0 l s1 -> clients_valid s0 l s1 -> clients_valid s0 (l ++ [o]) s.
Proof.
  intros E PV IH k c' Hk. change (origin s0 (l ++ [o]) (nc_addr c') c').
  destruct (nsstep_client_frame _ _ _ _ _ _ E Hk) as [[c [Hn [Hsc _]]]|[_ [a [buf [pc [-> [Hin Hsc]]]]]]].
  - replace (nc_addr c') with (nc_addr c) by (symmetry; apply Hsc).
    apply (origin_same_cred _ _ _ _ _ Hsc), origin_app, (IH _ _ Hn).
  - pose proof (PV _ _ Hin) as Ho. fold (origin s0 l a pc) in Ho.
    assert (Ha : nc_addr c' = a).
    { destruct Ho as (k1 & sk & buf0 & t & ex & _ & _ & Hct). transitivity (nc_addr pc); [apply Hsc | apply Hct]. }
    rewrite Ha. apply (origin_same_cred _ _ _ _ _ Hsc), origin_app, Ho.
Qed.

Theorem client_implies_valid_request ops : forall s0 s outs,
  table_inv s0 -> ns_pending s0 = [] -> connected s0 = [] -> nsrun s0 ops = Ok (s, outs) -> clients_valid s0 ops s.
Proof.
  intros s0 s outs T0 Hp Hc. apply (run_snoc_ind nsstep s0 (fun l s _ => clients_valid s0 l s)).
  - intros k c Hk. apply nth_opt_in in Hk.
    apply some_list_In in Hk. fold (connected s0) in Hk. rewrite Hc in Hk. destruct Hk.
  - intros l o s1 o1 s2 out H1 IH E.
    exact (clients_valid_step _ _ _ _ _ _ E (pending_implies_valid_request _ _ _ _ T0 Hp H1) IH).
Qed.

(* hence: a payload surfaces (as coming from client id) only if it is sealed under the client-to-server key
   of a private token, for that client id, that the server validated earlier in a request from the same
   address *)
Theorem payload_implies_valid_request ops s0 s outs k2 id p :
  table_inv s0 -> ns_pending s0 = [] -> connected s0 = [] -> nsrun s0 ops = Ok (s, outs) ->
  nth_error outs k2 = Some (NOResult (SRPayload id p)) ->
  exists a buf s2 k1 s1 buf0 t ex,
    call_at s0 ops k2 s2 a buf /\ (k1 < k2)%nat /\ call_at s0 ops k1 s1 a buf0 /\ request_validates s1 buf0 t ex /\
    pt_client_id t = id /\
    exists prefix seqbytes,
      buf = prefix :: seqbytes ++ aead_seal (pt_c2s t) (nonce_of (dgram_seq buf)) (packet_aad prefix (ns_protocol s2)) p /\
      len seqbytes = prefix / 16.
Proof.
  intros T0 Hp Hc H Hn.
  destruct (nsrun_nth_event _ _ _ _ _ _ H Hn) as (s2 & o2 & a & buf & s3 & H2 & Hop & E1);
    [left; eexists _, _; reflexivity|].
  pose proof (table_inv_run _ _ _ _ T0 H2) as T2.
  destruct (payload_only_authentic _ _ _ _ _ _ T2 E1) as (slot & c & Ea & Hid & _ & _ & (prefix & sb & Hb & Hl) & _).
  destruct (lookup_nth _ _ _ _ Ea) as [Hnth Hf]. apply addr_eqb_eq in Hf.
  destruct (client_implies_valid_request _ _ _ _ T0 Hp Hc H2 _ _ Hnth) as (k1 & s1 & buf0 & t & ex & Hca & Hv & Hct).
  rewrite Hf in Hca. destruct Hct as (Ci & _ & Crk & _).
  exists a, buf, s2, k1, s1, buf0, t, ex.
  split. { split; [exact Hop | eauto]. }
  split. { apply call_at_lt in Hca. rewrite firstn_length in Hca. lia. }
  split. { rewrite <- (firstn_skipn k2 ops). apply call_at_app. exact Hca. }
  split; [exact Hv|]. split; [congruence|].
  exists prefix, sb. rewrite <- Crk. auto.
Qed.

Definition op_bounded (o : nsop) : Prop := match o with NSProcess _ buf => dgram_seq buf < U64MAX | _ => True end.

(* the sequence numbers of the datagrams that surfaced as payloads of client id, in order *)
Fixpoint payload_seqs (id : N) (ops : list nsop) (outs : list nsout) : list N :=
  match ops, outs with
  | o :: t, out :: t' =>
      match o, out with
      | NSProcess _ buf, NOResult (SRPayload id' _) =>
          if id' =? id then dgram_seq buf :: payload_seqs id t t' else payload_seqs id t t'
      | _, _ => payload_seqs id t t'
      end
  | _, _ => []
  end.

Lemma session_step s o s1 out id slot c :
  table_inv s -> nsstep s o = Ok (s1, out) -> find_by_id s id = Some (slot, c) -> find_by_id s1 id <> None ->
  op_bounded o ->
  exists c1, find_by_id s1 id = Some (slot, c1) /\
    (nc_replay c1 = nc_replay c \/
     exists q, q < U64MAX /\ nc_replay c1 = advance_sequence (nc_replay c) q /\ already_received (nc_replay c) q = false) /\
    (forall a buf p, o = NSProcess a buf -> out = NOResult (SRPayload id p) ->
       nc_replay c1 = advance_sequence (nc_replay c) (dgram_seq buf) /\
       already_received (nc_replay c) (dgram_seq buf) = false).
Proof.
  intros T E Hf Hs Hb. pose proof (table_inv_step _ _ _ _ T E) as T1.
  destruct (seq_frame _ _ _ _ _ _ _ T E Hf) as [Hn|[c1 [Hf1 _]]]; [contradiction|].
  exists c1. split; [exact Hf1|].
  destruct (lookup_nth _ _ _ _ Hf) as [Hn _]. destruct (lookup_nth _ _ _ _ Hf1) as [Hn1 _].
  split.
  - destruct (nsstep_client_frame _ _ _ _ _ _ E Hn1) as [[c0 [Hn0 [_ Hr]]]|[Hn0 _]]; [|congruence].
    rewrite Hn in Hn0. injection Hn0 as <-.
    destruct Hr as [Hr|[buf [-> [Hr Hnr]]]]; [left; exact Hr|].
    right. exists (dgram_seq buf). cbn [op_bounded] in Hb. auto.
  - intros a buf p -> ->. apply nsstep_process in E.
    destruct (payload_only_authentic _ _ _ _ _ _ T E)
      as (slot' & c' & Ea & Hid & _ & Hnr & _ & c3 & Ea3 & Hid3 & Hr3 & _).
    destruct (find_by_addr_id _ _ _ _ T Ea) as [_ K]. rewrite Hid, Hf in K. injection K as <- <-.
    destruct (find_by_addr_id _ _ _ _ T1 Ea3) as [_ K3]. rewrite Hid3, Hf1 in K3. injection K3 as <-.
    split; [exact Hr3 | exact Hnr].
Qed.

Theorem session_payloads_once ops : forall s s' outs id slot c,
  table_inv s -> nsrun s ops = Ok (s', outs) -> find_by_id s id = Some (slot, c) -> stays_connected id s ops ->
  Forall op_bounded ops ->
  NoDup (payload_seqs id ops outs) /\
  forall q, In q (payload_seqs id ops outs) -> already_received (nc_replay c) q = false.
Proof.
  induction ops as [|o ops IH]; intros s s' outs id slot c T; cbn [nsrun stays_connected].
  - intros H _ _ _. injection H as _ <-. cbn [payload_seqs]. split; [constructor | intros q []].
  - destruct (nsstep s o) as [[s1 out]|e|site] eqn:E; cbn [bind]; try discriminate.
    destruct (nsrun s1 ops) as [[s2 outs2]|e|site] eqn:E2; cbn [bind]; try discriminate.
    intros H Hf [Hs Hrest] Hb. injection H as _ <-. inversion Hb as [|x l Hb0 Hb']; subst.
    pose proof (table_inv_step _ _ _ _ T E) as T1.
    destruct (session_step _ _ _ _ _ _ _ T E Hf Hs Hb0) as [c1 [Hf1 [Hr Hpay]]].
    destruct (IH _ _ _ _ _ _ T1 E2 Hf1 Hrest Hb') as [ND Hfresh].
    pose proof (table_inv_connected_wf _ _ _ _ T Hf) as W.
    (* freshness with respect to the window before the step *)
    assert (Back : forall q, already_received (nc_replay c1) q = false -> already_received (nc_replay c) q = false).
    { intros q Hq. destruct Hr as [Hr|[q0 [Hq0 [Hr Hnr]]]]; [rewrite <- Hr; exact Hq|].
      destruct (already_received (nc_replay c) q) eqn:Eq; [|reflexivity].
      rewrite Hr, (received_stays _ _ _ W Hq0 Eq Hnr) in Hq. discriminate. }
    assert (Rest : NoDup (payload_seqs id ops outs2) /\
                   forall q, In q (payload_seqs id ops outs2) -> already_received (nc_replay c) q = false).
    { split; [exact ND|]. intros q Hq. apply Back. apply Hfresh. exact Hq. }
    cbn [payload_seqs].
    destruct o as [a buf|dt|id0|id0|id0 pl|m]; try exact Rest.
    destruct out as [r| |]; try exact Rest. destruct r as [|a0 d|id' p|id' a0 u d|id' a0 d]; try exact Rest.
    destruct (id' =? id) eqn:Ei; [|exact Rest]. apply N.eqb_eq in Ei. subst id'.
    destruct (Hpay a buf p eq_refl eq_refl) as [Hr1 Hnr1].
    split.
    + constructor; [|exact ND]. intros Hin. apply Hfresh in Hin.
      rewrite Hr1, advance_then_received in Hin; [discriminate | exact W | exact (N.lt_neq _ _ Hb0)].
    + intros q [<-|Hq]; [exact Hnr1 | apply Rest; exact Hq].
Qed.

(* sc_session as one run from the initial state: the hypotheses of the run-level theorems
   (pending_implies_valid_request, connected_implies_valid_request, client_implies_valid_request,
   payload_implies_valid_request, session_payloads_once) are satisfiable, and their conclusions are not
   trivially so: a client does get connected, a payload does surface, the replayed one does not *)
Example session_run_example :
  exists resp pay chal ka s,
    let ops := [NSProcess ex_peer sc_request; NSProcess ex_peer resp; NSProcess ex_peer pay; NSProcess ex_peer pay] in
    let outs := [NOResult (SRPacketToSend ex_peer chal); NOResult (SRConnected sc_id ex_peer sc_user ka);
                 NOResult (SRPayload sc_id [1; 2; 3]); NOResult SRNone] in
    table_inv sc_server /\ ns_pending sc_server = [] /\ connected sc_server = [] /\
    nsrun sc_server ops = Ok (s, outs) /\ Forall op_bounded ops /\ payload_seqs sc_id ops outs = [1].
Proof.
  destruct sc_session as (resp & pay & s1 & chal & s2 & ka & s3 & Eresp & Epay & T & _ & H1 & H2 & H3 & H4 & _).
  assert (Hid5 : packet_id (PPayload [1; 2; 3]) <> 0) by (cbn [packet_id]; lia).
  assert (Hid3 : forall td, packet_id (PResponse 1 td) <> 0) by (intros td; cbn [packet_id]; lia).
  assert (U : 1 < U64 /\ 0 < U64) by (unfold U64; lia). destruct U as [U1 U0].
  pose proof (encode_dgram_seq _ _ _ _ _ _ Hid5 U1 Epay) as Sp.
  pose proof (encode_dgram_seq _ _ _ _ _ _ (Hid3 _) U0 Eresp) as Sr.
  exists resp, pay, chal, ka, s3. cbv zeta.
  split; [exact T|]. split; [reflexivity|]. split; [reflexivity|]. split; [|split].
  - cbn [nsrun nsstep]. rewrite H1. cbn [bind fst snd]. rewrite H2. cbn [bind fst snd].
    rewrite H3. cbn [bind fst snd]. rewrite H4. cbn [bind fst snd]. reflexivity.
  - repeat constructor; cbn [op_bounded]; rewrite ?Sp, ?Sr; try (unfold U64MAX; lia).
  - cbn [payload_seqs]. rewrite N.eqb_refl, Sp. reflexivity.
Qed.

Print Assumptions inauthentic_is_noop.
Print Assumptions unvalidated_request_is_noop.
Print Assumptions request_from_connected_ignored.
Print Assumptions inauthentic_opens_refuted.
Print Assumptions replayed_is_noop.
Print Assumptions replayed_is_noop_pending.
Print Assumptions payload_only_authentic.
Print Assumptions disconnected_only_authentic.
Print Assumptions connected_implies_pending_match.
Print Assumptions pending_implies_valid_request.
Print Assumptions connected_implies_valid_request.
Print Assumptions request_rejects.
Print Assumptions request_rejects_noop.
Print Assumptions request_validates_sealed.
Print Assumptions token_bound_to_address.
Print Assumptions token_same_address.
Print Assumptions token_bound_request_dropped.
Print Assumptions token_rebinding_refuted.
Print Assumptions token_rebinding_example.
Print Assumptions request_gets_challenge.
Print Assumptions handshake_connects.
Print Assumptions pending_address_locked.
Print Assumptions payload_delivered.
Print Assumptions payload_delivered_once.
Print Assumptions payload_sentinel_replayed.
Print Assumptions full_session.
Print Assumptions session_example.
Print Assumptions session_run_example.
Print Assumptions inauthentic_example.
Print Assumptions unvalidated_request_needs_inv.
Print Assumptions request_rejects_examples.
Print Assumptions token_bound_example.
Print Assumptions forgotten_token_accepted_anywhere.
Print Assumptions client_implies_valid_request.
Print Assumptions payload_implies_valid_request.
Print Assumptions session_payloads_once.

(* NSysP.v - the two-party netcode system (Spec/NSysSpec.v): the handshake completes.
   The handshake is a machine of four phases, and one tick of the system, whatever the network does with the
   datagrams, is one step of that machine (round_sim); the invariant, the progress of good ticks and the side
   conditions in closed form are read off that step.  The tick in which the client fails over to the next
   address of its token is outside the machine (failover_round); the tick without update_client stays in
   phase (3) (run_lit_accepted).  The examples at the end are concrete runs through the cipher, and three
   stronger readings of the theorems refuted (the theorems named _refuted). *)
From RenetV Require Import Base Consts Aead NPacket Token NServer NClient.
From RenetV Require Import Spec.NetSpec Spec.NSysSpec.
From RenetV Require Import Proofs.BaseP Proofs.AeadP Proofs.ReplayP Proofs.NPacketP Proofs.TokenP.
From RenetV Require Import Proofs.NSlotsP Proofs.NCodecP Proofs.NServerP Proofs.NAuthP Proofs.NClientP Proofs.RunP.
Require Import Lia ZifyBool ZifyN ZifyNat.
Open Scope N_scope.

Notation mk c s a := {| sy_client := c; sy_server := s; sy_addr := a |}.

Lemma client_wf_inv c : client_wf c <-> client_inv c.
Proof. reflexivity. Qed.

Lemma token_dgram_eq tok : [0] ++ packet_body (token_request tok) = token_dgram tok.
Proof. reflexivity. Qed.

Lemma token_dgram_decode tok proto' :
  token_wf tok ->
  snd (decode (token_dgram tok) proto' None None) =
    Ok (0, PRequest NC_VERSION_INFO (ct_protocol tok) (ct_expire tok) (ct_xnonce tok) (ct_private tok)).
Proof.
  intros (_ & _ & Hp & _ & He & Hx & _ & _ & _ & Ld & _).
  change (token_dgram tok) with (0 :: packet_body (token_request tok)).
  rewrite decode_request_body; [reflexivity | | reflexivity].
  cbn [token_request npacket_wf]. repeat split; auto.
Qed.

Lemma token_dgram_mac tok :
  token_wf tok -> mac_of (token_dgram tok) = dropN (NC_PRIVATE_BYTES - NC_MAC_BYTES) (ct_private tok).
Proof.
  intros W. unfold mac_of. rewrite (request_data_decode _ 0 _ _ _ _ _ (token_dgram_decode tok 0 W)). reflexivity.
Qed.

(* the static part of the invariant, seen from the server *)
Definition srv_static (s : nserver) (a : addr) (tok : connect_token) (t : private_token) : Prop :=
  token_wf tok /\ private_wf t /\ token_consistent tok t /\ ct_protocol tok = ns_protocol s /\
  private_decode (ct_private tok) (ns_protocol s) (ct_expire tok) (ct_xnonce tok) (ns_connect_key s) = Ok t /\
  (ns_secure s = true -> in_host_list s t = true) /\
  entry_free_or_bound s a (mac_of (token_dgram tok)) /\
  table_inv s /\ server_sizes s.

Lemma static_validates s a tok t :
  srv_static s a tok t -> as_secs (ns_now s) < ct_expire tok ->
  request_validates s (token_dgram tok) t (ct_expire tok).
Proof.
  intros (W & _ & _ & Hp & Hd & Hh & _) Hnow.
  exists NC_VERSION_INFO, (ct_protocol tok), (ct_xnonce tok), (ct_private tok).
  split; [apply token_dgram_decode; exact W|]. repeat split; auto.
Qed.

Lemma validates_static s now tok t :
  token_wf tok -> request_validates (set_now s now) (token_dgram tok) t (ct_expire tok) ->
  ct_protocol tok = ns_protocol s /\
  private_decode (ct_private tok) (ns_protocol s) (ct_expire tok) (ct_xnonce tok) (ns_connect_key s) = Ok t /\
  (ns_secure s = true -> in_host_list s t = true) /\ as_secs now < ct_expire tok.
Proof.
  intros W (v & pr & xn & data & Hd & _ & Hp & Hnow & Hpd & Hh).
  rewrite (token_dgram_decode tok _ W) in Hd. injection Hd as <- <- <- <-.
  nsimpl_in Hp. nsimpl_in Hnow. nsimpl_in Hpd. nsimpl_in Hh.
  repeat split; auto.
Qed.

(* ConnectToken::generate with the key and protocol id of s: the server validates the request built from
   the token, and finds in it what went into the token *)
Lemma generated_validates s now now0 es id timeout addrs user xn c2s s2c tok :
  token_generate now0 (ns_protocol s) es id timeout addrs user (ns_connect_key s) xn c2s s2c = Ok tok ->
  id < U64 -> ns_protocol s < U64 -> as_secs now0 + es < U64 ->
  (-2147483648 <= timeout < 2147483648)%Z -> Forall addr_wf addrs ->
  len user = NC_USER_DATA_BYTES -> len xn = NC_XNONCE_BYTES -> len c2s = NC_KEY_BYTES -> len s2c = NC_KEY_BYTES ->
  let t := {| pt_client_id := id; pt_timeout := timeout; pt_addrs := pad_slots (map Some addrs);
              pt_c2s := c2s; pt_s2c := s2c; pt_user := user |} in
  as_secs now < as_secs now0 + es -> (ns_secure s = true -> in_host_list s t = true) ->
  token_wf tok /\ private_wf t /\ token_consistent tok t /\
  request_validates (set_now s now) (token_dgram tok) t (ct_expire tok).
Proof.
  intros G Hid Hp He Hto F Hu Hx Hc Hs t Hnow Hh.
  destruct (token_generate_wf _ _ _ _ _ _ _ _ _ _ _ _ G Hid Hp He Hto F Hu Hx Hc Hs) as (W & Wp & D).
  destruct (token_generate_eq _ _ _ _ _ _ _ _ _ _ _ _ G) as [_ Etok].
  split; [exact W|]. split; [exact Wp|]. split; [rewrite Etok; repeat split|].
  exists NC_VERSION_INFO, (ct_protocol tok), (ct_xnonce tok), (ct_private tok).
  split; [apply token_dgram_decode; exact W|]. nsimpl. rewrite Etok in D |- *.
  split; [reflexivity|]. split; [reflexivity|]. split; [exact Hnow|]. split; [exact D | exact Hh].
Qed.

Lemma entry_allowed s a mac e :
  entry_free_or_bound s a mac -> te_mac e = mac -> te_addr e = a ->
  snd (find_or_add_entry (ns_entries s) e) = true /\
  entry_free_or_bound (set_entries s (fst (find_or_add_entry (ns_entries s) e))) a mac.
Proof.
  intros Hf Hm Ha. unfold entry_free_or_bound in *. rewrite find_or_add_entry_eq, Hm.
  destruct (last_match (ns_entries s) mac) as [m|] eqn:El.
  - rewrite Hf, Ha, addr_eqb_refl. cbn [fst snd]. nsimpl. rewrite El. split; [reflexivity | exact Hf].
  - cbn [fst snd]. nsimpl. split; [reflexivity|].
    destruct (last_match (upd _ _ _) mac) as [m'|] eqn:El'; [|exact I].
    rewrite (last_match_upd_new _ _ _ _ _ El El'). exact Ha.
Qed.

Definition pend_room (s : nserver) (a : addr) (tok : connect_token) (t : private_token) : Prop :=
  match pend_find a (ns_pending s) with
  | None => len (ns_pending s) < NC_MAX_CLIENTS * NC_MAX_PENDING_FACTOR
  | Some pc => pending_ok s a tok t pc
  end.

Lemma pend_room_found s a tok t pc :
  pend_find a (ns_pending s) = Some pc -> pending_ok s a tok t pc -> pend_room s a tok t.
Proof. intros Epc Hok. unfold pend_room. rewrite Epc. exact Hok. Qed.

Lemma srv_same_trans s1 s2 s3 : srv_same s1 s2 -> srv_same s2 s3 -> srv_same s1 s3.
Proof. unfold srv_same. intros H1 H2. intuition congruence. Qed.

Definition srv_moved (s s' : nserver) (dc dg : N) : Prop :=
  ns_chal_seq s' = ns_chal_seq s + dc /\ ns_global_seq s' = ns_global_seq s + dg /\
  ns_now s' = ns_now s /\ srv_same s s'.

Lemma srv_kept s s' :
  ns_chal_seq s' = ns_chal_seq s -> ns_global_seq s' = ns_global_seq s -> ns_now s' = ns_now s ->
  srv_same s s' -> srv_moved s s' 0 0.
Proof. intros C G Hn Sm. unfold srv_moved. rewrite !N.add_0_r. auto. Qed.

Lemma srv_moved_refl s : srv_moved s s 0 0.
Proof. apply srv_kept; try reflexivity. repeat split. Qed.

Lemma srv_moved_trans s1 s2 s3 dc dg dc' dg' :
  srv_moved s1 s2 dc dg -> srv_moved s2 s3 dc' dg' -> srv_moved s1 s3 (dc + dc') (dg + dg').
Proof.
  intros (C1 & G1 & N1 & S1) (C2 & G2 & N2 & S2). unfold srv_moved.
  rewrite C2, C1, G2, G1, N2, N1, !N.add_assoc. exact (conj eq_refl (conj eq_refl (conj eq_refl (srv_same_trans _ _ _ S1 S2)))).
Qed.

Lemma srv_static_step s s' a tok t :
  srv_static s a tok t -> srv_same s s' -> table_inv s' ->
  entry_free_or_bound s' a (mac_of (token_dgram tok)) -> srv_static s' a tok t.
Proof.
  intros (W & Wt & Hcons & Hpr & Hpd & Hh & _ & _ & Hsz) (Sp & Sk & _ & Ss & Sa & Sm & Sl) T' Hen.
  unfold srv_static. rewrite Sp, Sk, Ss.
  refine (conj W (conj Wt (conj Hcons (conj Hpr (conj Hpd (conj _ (conj Hen (conj T' _)))))))).
  - unfold in_host_list in *. rewrite Sa. exact Hh.
  - unfold server_sizes in *. rewrite Sm, Sl. exact Hsz.
Qed.

Lemma entry_kept s s' a mac :
  ns_entries s' = ns_entries s -> entry_free_or_bound s a mac -> entry_free_or_bound s' a mac.
Proof. intros E H. unfold entry_free_or_bound in *. rewrite E. exact H. Qed.

Lemma srv_static_table s a tok t : srv_static s a tok t -> table_inv s.
Proof. intros (_ & _ & _ & _ & _ & _ & _ & T & _). exact T. Qed.

Lemma srv_static_entry s a tok t : srv_static s a tok t -> entry_free_or_bound s a (mac_of (token_dgram tok)).
Proof. intros (_ & _ & _ & _ & _ & _ & E & _). exact E. Qed.

Lemma server_conn_id s a tok t slot sc :
  table_inv s -> server_conn s a tok t slot sc -> find_by_id s (pt_client_id t) = Some (slot, sc).
Proof.
  intros T (Ea & (Hi & _) & _). destruct (find_by_addr_id _ _ _ _ T Ea) as [_ Ei]. rewrite Hi in Ei. exact Ei.
Qed.

Definition challenge_dgram (s : nserver) (t : private_token) (cseq q : N) (d : list N) : Prop :=
  encode OUT_CAP (PChallenge cseq (challenge_data s t cseq)) (ns_protocol s) (Some (q, pt_s2c t)) = Ok d.

Lemma srv_request s a tok t :
  srv_static s a tok t -> slot_open s a t -> pend_room s a tok t ->
  as_secs (ns_now s) < ct_expire tok ->
  exists s' d pc',
    process_packet s a (token_dgram tok) = Ok (s', SRPacketToSend a d) /\
    challenge_dgram s t (ns_chal_seq s + 1) (ns_global_seq s) d /\
    srv_static s' a tok t /\ slot_open s' a t /\
    pend_find a (ns_pending s') = Some pc' /\ pending_ok s' a tok t pc' /\
    nc_chal_floor pc' <= ns_chal_seq s + 1 /\
    (forall old, pend_find a (ns_pending s) = Some old -> nc_chal_floor pc' = nc_chal_floor old) /\
    ns_clients s' = ns_clients s /\ srv_moved s s' 1 1.
Proof.
  intros St So Hp Hnow.
  pose proof (static_validates _ _ _ _ St Hnow) as Hv.
  pose proof So as (Ea & Ei & Hc & _).
  set (buf := token_dgram tok) in *.
  destruct (entry_allowed s a (mac_of buf) (request_entry s a buf) (srv_static_entry _ _ _ _ St) eq_refl eq_refl) as [Hfe He'].
  assert (Hp' : pend_find a (ns_pending s) <> None \/ len (ns_pending s) < NC_MAX_CLIENTS * NC_MAX_PENDING_FACTOR).
  { unfold pend_room in Hp. destruct (pend_find a (ns_pending s)); [left; discriminate | right; exact Hp]. }
  destruct (request_gets_challenge s a buf t (ct_expire tok) (srv_static_table _ _ _ _ St) Hv Ea Ei Hc Hp' Hfe)
    as (d & Hpp & Hd & T1 & pc & Hpf & Hnew & Hold).
  exists (challenged s a buf t (ct_expire tok)), d, pc.
  split; [exact Hpp|]. split; [exact Hd|].
  split; [apply (srv_static_step s); [exact St | repeat split | exact T1 | exact He']|].
  split; [exact So|]. split; [exact Hpf|].
  assert (Hpc : pending_ok (challenged s a buf t (ct_expire tok)) a tok t pc /\ nc_chal_floor pc <= ns_chal_seq s + 1 /\
                forall old, pend_find a (ns_pending s) = Some old -> nc_chal_floor pc = nc_chal_floor old).
  { unfold pend_room in Hp. unfold pending_ok, challenged. nsimpl.
    destruct (pend_find a (ns_pending s)) as [old|].
    - rewrite (Hold old eq_refl). destruct Hp as (Hct & Hfl & Hrp & Hsq). cbn [refresh_conn nc_chal_floor nc_replay nc_seq].
      split; [split; [exact (same_cred_token _ _ _ _ _ (same_cred_refresh _ _) Hct) | repeat split; try assumption; lia]|].
      split; [lia|]. intros old' E. injection E as <-. reflexivity.
    - destruct (Hnew eq_refl) as (Hct & Hfl & Hrp & Hsq & _). rewrite Hfl.
      split; [split; [exact Hct | repeat split; try assumption; lia]|].
      split; [lia|]. intros old' E. discriminate E. }
  destruct Hpc as (H1 & H2 & H3). split; [exact H1|]. split; [exact H2|]. split; [exact H3|].
  split; [reflexivity | repeat split].
Qed.

Lemma promote_of_token pc a t ex now : conn_of_token pc a t ex -> conn_of_token (promote pc (pt_user t) now) a t ex.
Proof. unfold conn_of_token. cbn [promote nc_id nc_user nc_recv_key nc_send_key nc_expire nc_addr nc_timeout]. tauto. Qed.

Lemma srv_response s a tok t pc ts q d :
  srv_static s a tok t -> slot_open s a t ->
  pend_find a (ns_pending s) = Some pc -> pending_ok s a tok t pc ->
  nc_chal_floor pc <= ts -> ts < U64 -> q < U64 ->
  encode OUT_CAP (PResponse ts (challenge_data s t ts)) (ns_protocol s) (Some (q, pt_c2s t)) = Ok d ->
  exists s' slot ka,
    process_packet s a d = Ok (s', SRConnected (pt_client_id t) a (pt_user t) ka) /\
    encode OUT_CAP (PKeepAlive slot (ns_max s)) (ns_protocol s) (Some (0, pt_s2c t)) = Ok ka /\
    srv_static s' a tok t /\
    server_conn s' a tok t slot (promote pc (pt_user t) (ns_now s)) /\
    connected_count s' = connected_count s + 1 /\ srv_moved s s' 0 0.
Proof.
  intros St (Ea & Ei & Hc & Hff) Ep (Hct & Hfl0 & Hrp & Hsq) Hfl Hts Hq He.
  pose proof St as (_ & Wt & _ & _ & _ & _ & Hen & T & _).
  pose proof Hct as (Hi & Hu & Hrk & Hsk & Hex & Hpa & Hto).
  pose proof Wt as (Hid & _ & _ & _ & _ & Hul).
  destruct (first_free (ns_clients s) 0) as [idx|] eqn:Ef; [clear Hff | congruence].
  destruct (response_promotes s a pc ts q d idx Ea Ep) as (out & Henc & H); try assumption.
  { rewrite Hi. exact Ei. } { rewrite Hi. exact Hid. } { rewrite Hu. exact Hul. } { rewrite Hi, Hu, Hrk. exact He. }
  rewrite (pend_put_same _ _ _ (table_inv_pending_nodup _ T) Ep), Hi, Hu in H. rewrite Hsq, Hsk in Henc.
  set (s' := set_slot (set_pending s (pend_remove a (ns_pending s))) idx (Some (promote pc (pt_user t) (ns_now s)))) in *.
  pose proof (process_packet_table_inv _ _ _ _ _ T H) as T'.
  assert (Hfi : find_by_id s' (pt_client_id t) = Some (idx, promote pc (pt_user t) (ns_now s))).
  { apply (find_by_id_after_insert (set_pending s _) (pt_client_id t) idx); [exact Ei | exact Ef | exact Hi]. }
  assert (Hfa : find_by_addr s' a = Some (idx, promote pc (pt_user t) (ns_now s))).
  { destruct (find_by_id_addr _ _ _ _ T' Hfi) as [_ K]. cbn [promote nc_addr] in K. rewrite Hpa in K. exact K. }
  exists s', idx, out. split; [exact H|]. split; [exact Henc|].
  assert (Sm : srv_same s s').
  { repeat split. unfold s'. rewrite len_set_slot. reflexivity. }
  split.
  { apply (srv_static_step s); [exact St | exact Sm | exact T' | exact Hen]. }
  split.
  { refine (conj Hfa (conj (promote_of_token _ _ _ _ _ Hct) _)). cbn [promote nc_last_send nc_last_recv]. unfold s'. nsimpl. lia. }
  split; [apply (count_after_insert (set_pending s _) idx _ Ef)|].
  apply srv_kept; [reflexivity.. | exact Sm].
Qed.

Definition conn_kept (now : N) (sc sc' : nconn) : Prop :=
  same_cred sc sc' /\ nc_seq sc' = nc_seq sc /\ nc_last_send sc' = nc_last_send sc /\
  (nc_last_recv sc' = nc_last_recv sc \/ nc_last_recv sc' = now).

Lemma conn_kept_refl now sc : conn_kept now sc sc.
Proof. unfold conn_kept. split; [apply same_cred_refl|]. auto. Qed.

(* a datagram with the type of a response or of a keep-alive *)
Definition quiet_dgram (d : list N) : Prop := dgram_type d = 3 \/ dgram_type d = 4.

Lemma slot_update_frame s a slot sc sc' :
  find_by_addr s a = Some (slot, sc) -> nc_addr sc' = nc_addr sc ->
  find_by_addr (set_slot s slot (Some sc')) a = Some (slot, sc') /\
  connected_count (set_slot s slot (Some sc')) = connected_count s /\ srv_moved s (set_slot s slot (Some sc')) 0 0.
Proof.
  intros Ea Hpa. split; [apply (find_slot_by_slot_update _ _ _ sc sc' Ea); cbv beta; rewrite Hpa; reflexivity|].
  split; [exact (count_slot_update _ _ _ _ _ Ea)|]. apply srv_kept; try reflexivity.
  unfold srv_same. rewrite len_set_slot. repeat split.
Qed.

(* By inversion (NServerP.nsmove): the sender is connected, and a payload or a disconnect that opened would have
   another type, so the move is MV_recv, if any. *)
Lemma srv_conn_recv s a slot sc d :
  table_inv s -> find_by_addr s a = Some (slot, sc) -> quiet_dgram d ->
  exists s' sc',
    process_packet s a d = Ok (s', SRNone) /\ table_inv s' /\
    find_by_addr s' a = Some (slot, sc') /\ conn_kept (ns_now s) sc sc' /\
    ns_entries s' = ns_entries s /\ connected_count s' = connected_count s /\ srv_moved s s' 0 0.
Proof.
  intros T Ea Hd.
  destruct (process_packet_total s a d) as (s' & r & Hpp). rewrite Hpp.
  pose proof (process_packet_table_inv _ _ _ _ _ T Hpp) as T'. apply process_step in Hpp. revert T'.
  remember (NSProcess a d) as o0 eqn:Eo. remember (NOResult r) as out0 eqn:Er.
  destruct Hpp as [o | | | | a1 b1 k c c2 Ea' Hc2 | a1 b1 k c q p Ea' Ho | | | a1 b1 k c q Ea' Ho | | | a1 b1 es Ea'
                   | a1 b1 Ea' | a1 b1 es key d' Ea' _ _ | a1 b1 es t ex d' Ea' _ _ _ _
                   | a1 b1 pc q ts td k d' Ea' _ _ _ _ _ _ _];
    try discriminate Eo; try (injection Eo as -> ->); injection Er as <-; intros T'; try congruence.
  - exists s, sc. split; [reflexivity|]. split; [exact T|]. split; [exact Ea|]. split; [apply conn_kept_refl|].
    split; [reflexivity|]. split; [reflexivity | apply srv_moved_refl].
  - rewrite Ea in Ea'. injection Ea' as <- <-.
    destruct (slot_update_frame s a slot sc c2 Ea) as (F & C & Mv); [destruct Hc2 as [-> | ->]; reflexivity|].
    exists (set_slot s slot (Some c2)), c2. split; [reflexivity|]. split; [exact T'|]. split; [exact F|].
    split; [|exact (conj eq_refl (conj C Mv))].
    destruct (recv_keeps _ _ _ _ Hc2) as (Hsc & Hsq & Hls & _ & Hlr). exact (conj Hsc (conj Hsq (conj Hls Hlr))).
  - destruct (opened_sealed _ _ _ _ _ Ho) as (Hty & _); [discriminate|].
    destruct Hd as [Hd|Hd]; rewrite Hd in Hty; discriminate Hty.
  - destruct (opened_sealed _ _ _ _ _ Ho) as (Hty & _); [discriminate|].
    destruct Hd as [Hd|Hd]; rewrite Hd in Hty; discriminate Hty.
Qed.

Lemma srv_tick_static s a tok t dt :
  srv_static s a tok t -> srv_static (nserver_update s dt) a tok t /\ table_inv (nserver_update s dt).
Proof.
  intros St. pose proof (table_inv_update s dt (srv_static_table _ _ _ _ St)) as T1. split; [|exact T1].
  apply (srv_static_step s); [exact St | repeat split | exact T1 | exact (srv_static_entry _ _ _ _ St)].
Qed.

Lemma srv_tick_open s a tok t dt :
  srv_static s a tok t -> slot_open s a t -> pend_room s a tok t ->
  srv_expired s tok dt = false ->
  update_client (nserver_update s dt) (pt_client_id t) = Ok (nserver_update s dt, SRNone) /\
  srv_static (nserver_update s dt) a tok t /\
  pend_find a (ns_pending (nserver_update s dt)) = pend_find a (ns_pending s) /\
  pend_room (nserver_update s dt) a tok t /\
  as_secs (ns_now (nserver_update s dt)) < ct_expire tok.
Proof.
  intros St So Hp Hex.
  pose proof So as (Ea & Ei & Hc & Hff).
  unfold srv_expired in Hex.
  assert (Hpf : pend_find a (ns_pending (nserver_update s dt)) = pend_find a (ns_pending s)).
  { unfold nserver_update. nsimpl. apply pend_find_filter. intros pc Epc. cbn [snd].
    unfold pend_room in Hp. rewrite Epc in Hp. destruct Hp as ((_ & _ & _ & _ & Hx & _) & _). rewrite Hx. lia. }
  split; [apply update_client_absent; exact Ei|].
  split; [apply srv_tick_static; exact St|]. split; [exact Hpf|].
  split.
  { unfold pend_room in *. rewrite Hpf. destruct (pend_find a (ns_pending s)); [exact Hp|].
    unfold nserver_update. nsimpl. pose proof (len_filter_le (fun ac => negb (nc_expire (snd ac) <? as_secs (ns_now s + dt))) (ns_pending s)). lia. }
  unfold nserver_update. nsimpl. lia.
Qed.

Definition keepalive_dgram (s : nserver) (t : private_token) (slot q : N) (d : list N) : Prop :=
  encode OUT_CAP (PKeepAlive slot (ns_max s)) (ns_protocol s) (Some (q, pt_s2c t)) = Ok d.

Definition ka_dgram_ok (s : nserver) (a : addr) (t : private_token) (d : list N) : Prop :=
  exists q slot sc, q < U64 /\ find_by_addr s a = Some (slot, sc) /\ keepalive_dgram s t slot q d.

Definition srv_ticked (s : nserver) (a : addr) (tok : connect_token) (t : private_token) (slot : N) (sc : nconn)
    (dt : N) (s2 : nserver) (sc2 : nconn) : Prop :=
  srv_static s2 a tok t /\ server_conn s2 a tok t slot sc2 /\
  nc_timeout sc2 = nc_timeout sc /\ nc_last_recv sc2 = nc_last_recv sc /\ nc_seq sc2 <= nc_seq sc + 1 /\
  connected_count s2 = connected_count s /\ srv_moved (nserver_update s dt) s2 0 0.

(* NetcodeServer::update alone *)
Lemma srv_ticked_update s a tok t slot sc dt :
  srv_static s a tok t -> server_conn s a tok t slot sc -> srv_ticked s a tok t slot sc dt (nserver_update s dt) sc.
Proof.
  intros St (Ea & Hct & Hls & Hlr). split; [apply srv_tick_static; exact St|].
  split; [refine (conj Ea (conj Hct _)); change (ns_now (nserver_update s dt)) with (ns_now s + dt); lia|].
  split; [reflexivity|]. split; [reflexivity|]. split; [apply N.le_add_r|]. split; [reflexivity | apply srv_moved_refl].
Qed.

Lemma srv_tick_conn s a tok t slot sc dt :
  srv_static s a tok t -> server_conn s a tok t slot sc ->
  srv_timed_out s (pt_client_id t) dt = false -> nc_seq sc < U64 ->
  exists s2 k sc',
    update_client (nserver_update s dt) (pt_client_id t) = Ok (s2, k) /\
    srv_ticked s a tok t slot sc dt s2 sc' /\
    Forall (ka_dgram_ok s2 a t) (flat_map (reply_to a) [k]) /\ count_connected [k] = 0%nat /\
    (SEND_RATE_NS <= dt -> flat_map (reply_to a) [k] <> []).
Proof.
  intros St Hconn0 Hto Hq. pose proof Hconn0 as (Ea & Hct & Hls & Hlr).
  pose proof (srv_static_table _ _ _ _ St) as T.
  pose proof Hct as (Hi & Hu & Hrk & Hsk & Hex & Hpa & Htm).
  pose proof (server_conn_id _ _ _ _ _ _ T Hconn0) as Ei.
  destruct (srv_tick_static s a tok t dt St) as [Ss1 T1].
  set (s1 := nserver_update s dt) in *.
  assert (Ei1 : find_by_id s1 (pt_client_id t) = Some (slot, sc)) by exact Ei.
  assert (Ea1 : find_by_addr s1 a = Some (slot, sc)) by exact Ea.
  unfold srv_timed_out in Hto. rewrite Ei in Hto.
  destruct (update_client_found s1 (pt_client_id t) slot sc Ei1) as (dd & ka & _ & Hka & ->).
  unfold NServerP.timed_out. change (ns_now s1) with (ns_now s + dt). rewrite Hto.
  destruct (nc_last_send sc + NC_SEND_RATE_MS * 1000000 <=? ns_now s + dt) eqn:Edue.
  - set (sc' := nc_sent sc (ns_now s + dt)). set (s2 := set_slot s1 slot (Some sc')).
    exists s2, (SRPacketToSend (nc_addr sc) ka), sc'.
    split; [reflexivity|].
    destruct (slot_update_frame s1 a slot sc sc' Ea1 eq_refl) as (Ea2 & Cn2 & M2). fold s2 in Ea2, Cn2, M2.
    split.
    { split.
      { apply (srv_static_step s1); [exact Ss1 | apply M2 | | exact (srv_static_entry _ _ _ _ Ss1)].
        apply (table_inv_slot_update _ _ _ _ _ T1 Ei1); reflexivity. }
      split.
      { refine (conj Ea2 (conj (same_cred_token _ _ _ _ _ (same_cred_sent _ _) Hct) _)).
        unfold sc'. cbn [nc_sent nc_last_send nc_last_recv]. change (ns_now s2) with (ns_now s + dt). lia. }
      split; [reflexivity|]. split; [reflexivity|]. split; [unfold sc'; cbn [nc_sent nc_seq]; lia|].
      exact (conj Cn2 M2). }
    rewrite Hpa. cbn [flat_map reply_to app]. rewrite addr_eqb_refl.
    split; [|split; [reflexivity | intros _; discriminate]]. constructor; [|constructor].
    exists (nc_seq sc), slot, sc'. split; [exact Hq|]. split; [exact Ea2|].
    unfold keepalive_dgram. rewrite <- Hsk. exact Hka.
  - exists s1, SRNone, sc. split; [reflexivity|]. split; [exact (srv_ticked_update s a tok t slot sc dt St Hconn0)|].
    split; [constructor|]. split; [reflexivity|].
    intros Hdt. exfalso. unfold SEND_RATE_NS in Hdt. lia.
Qed.

Definition cl_frame (c c' : nclient) : Prop :=
  cl_token c' = cl_token c /\ cl_id c' = cl_id c /\ cl_server_addr c' = cl_server_addr c /\
  cl_addr_index c' = cl_addr_index c /\ cl_connect_start c' = cl_connect_start c /\
  cl_now c' = cl_now c /\ cl_seq c' = cl_seq c /\ cl_last_recv c <= cl_last_recv c'.

Lemma cl_frame_refl c : cl_frame c c.
Proof. unfold cl_frame. repeat split. lia. Qed.

Lemma cl_frame_trans c1 c2 c3 : cl_frame c1 c2 -> cl_frame c2 c3 -> cl_frame c1 c3.
Proof. unfold cl_frame. intros H1 H2. intuition (try congruence). lia. Qed.

Lemma cl_recv_frame c d : client_inv c -> cl_frame c (fst (nclient_process_packet c d)) /\ client_inv (fst (nclient_process_packet c d)).
Proof.
  intros Hinv. split; [|apply client_inv_step_process; exact Hinv].
  destruct (client_process_frame c d) as (F1 & F2 & F3 & F4 & F5 & F6 & F7 & F8 & _).
  pose proof (inv_recv_le c Hinv) as Hlr.
  unfold cl_frame. repeat split; try assumption. destruct F8 as [-> | ->]; lia.
Qed.

Lemma tick_frame_ticked c dt go : tick_frame c (cl_ticked c dt go) dt.
Proof. unfold tick_frame, cl_ticked. destruct go; proj_cbn; repeat split; lia. Qed.

Lemma send_due_tick c dt :
  client_inv c -> (SEND_RATE_NS <= dt \/ cl_last_send c = None) -> send_due (cl_tick c dt) = true.
Proof.
  intros (_ & _ & H3 & _) H. unfold send_due. proj_cbn. unfold SEND_RATE_NS in H.
  destruct (cl_last_send c) as [t0|]; [|reflexivity]. destruct H as [H|H]; [lia | discriminate].
Qed.

Definition chal_dgram_ok (s : nserver) (a : addr) (t : private_token) (d : list N) : Prop :=
  exists cseq q, challenge_dgram s t cseq q d /\ q < U64 /\ cseq < U64 /\
    exists pc, pend_find a (ns_pending s) = Some pc /\ nc_chal_floor pc <= cseq.

Lemma challenge_dgram_same s s' t cseq q d :
  srv_same s s' -> challenge_dgram s t cseq q d -> challenge_dgram s' t cseq q d.
Proof.
  intros (Hp & _ & Hk & _) H. unfold challenge_dgram, challenge_data in *. rewrite Hp, Hk. exact H.
Qed.

Lemma keepalive_dgram_same s s' t slot q d :
  srv_same s s' -> keepalive_dgram s t slot q d -> keepalive_dgram s' t slot q d.
Proof.
  intros (Hp & _ & _ & _ & _ & Hm & _) H. unfold keepalive_dgram in *. rewrite Hp, Hm. exact H.
Qed.

Lemma feed_requests a tok t n : forall s,
  srv_static s a tok t -> slot_open s a t -> pend_room s a tok t ->
  as_secs (ns_now s) < ct_expire tok ->
  ns_chal_seq s + N.of_nat n < U64 -> ns_global_seq s + N.of_nat n <= U64 ->
  exists s' rs,
    feed n s a (token_dgram tok) = Ok (s', rs) /\
    srv_static s' a tok t /\ slot_open s' a t /\ pend_room s' a tok t /\
    Forall (chal_dgram_ok s' a t) (flat_map (reply_to a) rs) /\ length (flat_map (reply_to a) rs) = n /\
    count_connected rs = 0%nat /\
    (forall old, pend_find a (ns_pending s) = Some old ->
       exists pc', pend_find a (ns_pending s') = Some pc' /\ nc_chal_floor pc' = nc_chal_floor old) /\
    ns_clients s' = ns_clients s /\ srv_moved s s' (N.of_nat n) (N.of_nat n).
Proof.
  induction n as [|n IH]; intros s St So Hp Hnow Hc Hg.
  - exists s, []. cbn [feed length]. split; [reflexivity|]. split; [exact St|]. split; [exact So|]. split; [exact Hp|].
    split; [constructor|]. split; [reflexivity|]. split; [reflexivity|].
    split; [intros old E; exists old; split; [exact E | reflexivity]|].
    split; [reflexivity | apply srv_moved_refl].
  - destruct (srv_request s a tok t St So Hp Hnow)
      as (s1 & d & pc1 & Hpp & Hd & St1 & So1 & Ep1 & Hok1 & Hfl1 & Hfl1' & Hcl1 & M1).
    pose proof M1 as (Hc1 & Hg1 & Hn1 & Sm1).
    destruct (IH s1 St1 So1 (pend_room_found _ _ _ _ _ Ep1 Hok1))
      as (s2 & rs & Hf & St2 & So2 & Hp2 & Hrs & Hlen & Hcnt & Hfl2 & Hcl2 & M2);
      [rewrite Hn1; exact Hnow | lia | lia |].
    pose proof M2 as (Hc2 & Hg2 & Hn2 & Sm2).
    exists s2, (SRPacketToSend a d :: rs). cbn [feed]. rewrite Hpp. cbn [bind]. rewrite Hf. cbn [bind].
    cbn [flat_map reply_to]. rewrite addr_eqb_refl. cbn [app].
    split; [reflexivity|]. split; [exact St2|]. split; [exact So2|]. split; [exact Hp2|].
    destruct (Hfl2 pc1 Ep1) as (pc2 & Ep2 & Hfl12).
    split.
    { constructor; [|exact Hrs]. exists (ns_chal_seq s + 1), (ns_global_seq s).
      split; [apply (challenge_dgram_same s s2); [apply (srv_same_trans _ _ _ Sm1 Sm2) | exact Hd]|].
      split; [lia|]. split; [lia|]. exists pc2. split; [exact Ep2 | lia]. }
    split; [cbn [length]; lia|]. split; [exact Hcnt|].
    split.
    { intros old E. exists pc2. split; [exact Ep2|]. rewrite Hfl12. apply Hfl1'. exact E. }
    split; [congruence|].
    replace (N.of_nat (S n)) with (1 + N.of_nat n) by lia. exact (srv_moved_trans _ _ _ _ _ _ _ M1 M2).
Qed.

Lemma conn_kept_trans now sc1 sc2 sc3 : conn_kept now sc1 sc2 -> conn_kept now sc2 sc3 -> conn_kept now sc1 sc3.
Proof.
  unfold conn_kept. intros (A1 & A2 & A3 & A4) (B1 & B2 & B3 & B4).
  split; [exact (same_cred_trans _ _ _ A1 B1)|]. split; [congruence|]. split; [congruence|].
  destruct B4 as [B4|B4]; [rewrite B4; exact A4 | right; exact B4].
Qed.

Lemma server_conn_kept s s' a tok t slot sc sc' :
  server_conn s a tok t slot sc -> find_by_addr s' a = Some (slot, sc') -> conn_kept (ns_now s) sc sc' ->
  ns_now s' = ns_now s -> server_conn s' a tok t slot sc'.
Proof.
  intros (_ & Hct & Hls & Hlr) Ea' (Kc & _ & Kls & Klr) Hn.
  refine (conj Ea' (conj (same_cred_token _ _ _ _ _ Kc Hct) _)).
  rewrite Kls, Hn. split; [exact Hls|]. destruct Klr as [-> | ->]; [exact Hlr | apply N.le_refl].
Qed.

Lemma feed_quiet a tok t d n : forall s slot sc,
  srv_static s a tok t -> server_conn s a tok t slot sc -> quiet_dgram d ->
  exists s' sc',
    feed n s a d = Ok (s', repeat SRNone n) /\ srv_static s' a tok t /\ server_conn s' a tok t slot sc' /\
    conn_kept (ns_now s) sc sc' /\ connected_count s' = connected_count s /\ srv_moved s s' 0 0.
Proof.
  induction n as [|n IH]; intros s slot sc St Hconn Hd.
  - exists s, sc. cbn [feed repeat]. split; [reflexivity|]. split; [exact St|]. split; [exact Hconn|].
    split; [apply conn_kept_refl|]. split; [reflexivity | apply srv_moved_refl].
  - destruct (srv_conn_recv s a slot sc d (srv_static_table _ _ _ _ St) (proj1 Hconn) Hd)
      as (s1 & sc1 & Hpp & T1 & Ea1 & K1 & En1 & Cn1 & M1).
    pose proof M1 as (_ & _ & Hn1 & Sm1).
    pose proof (srv_static_step s s1 a tok t St Sm1 T1 (entry_kept _ _ _ _ En1 (srv_static_entry _ _ _ _ St))) as St1.
    pose proof (server_conn_kept s s1 a tok t slot sc sc1 Hconn Ea1 K1 Hn1) as Hconn1.
    destruct (IH s1 slot sc1 St1 Hconn1 Hd) as (s2 & sc2 & Hf & St2 & Hconn2 & K2 & Cn2 & M2).
    exists s2, sc2. cbn [feed repeat]. rewrite Hpp. cbn [bind]. rewrite Hf. cbn [bind].
    split; [reflexivity|]. split; [exact St2|]. split; [exact Hconn2|].
    split; [apply (conn_kept_trans _ _ sc1); [exact K1 | rewrite <- Hn1; exact K2]|].
    split; [congruence|]. exact (srv_moved_trans _ _ _ 0 0 0 0 M1 M2).
Qed.

Lemma feed_response s a tok t pc ts q d n :
  srv_static s a tok t -> slot_open s a t ->
  pend_find a (ns_pending s) = Some pc -> pending_ok s a tok t pc ->
  nc_chal_floor pc <= ts -> ts < U64 -> q < U64 ->
  encode OUT_CAP (PResponse ts (challenge_data s t ts)) (ns_protocol s) (Some (q, pt_c2s t)) = Ok d ->
  exists s' slot ka sc',
    feed (S n) s a d = Ok (s', SRConnected (pt_client_id t) a (pt_user t) ka :: repeat SRNone n) /\
    keepalive_dgram s t slot 0 ka /\
    srv_static s' a tok t /\ server_conn s' a tok t slot sc' /\
    nc_seq sc' = 1 /\ ns_now s <= nc_last_recv sc' /\
    connected_count s' = connected_count s + 1 /\ srv_moved s s' 0 0.
Proof.
  intros St So Ep Hok Hfl Hts Hq He.
  destruct (srv_response s a tok t pc ts q d St So Ep Hok Hfl Hts Hq He)
    as (s2 & slot & ka & Hpp & Hka & Ss2 & Hconn2 & Hcnt2 & M2).
  set (sc2 := promote pc (pt_user t) (ns_now s)) in *.
  pose proof M2 as (_ & _ & Hn2 & _).
  destruct (feed_quiet a tok t d n s2 slot sc2 Ss2 Hconn2) as (s3 & sc3 & Hf & Ss3 & Hconn3 & K3 & Cn3 & M3).
  { left. refine (encode_dgram_type _ _ _ _ _ _ _ He). discriminate. }
  exists s3, slot, ka, sc3. cbn [feed]. rewrite Hpp. cbn [bind]. rewrite Hf. cbn [bind].
  split; [reflexivity|]. split; [exact Hka|].
  split; [exact Ss3|]. split; [exact Hconn3|].
  destruct K3 as (_ & Ksq & _ & Klr). destruct Hok as (_ & _ & _ & Hsq).
  split; [rewrite Ksq; unfold sc2; cbn [promote nc_seq]; rewrite Hsq; reflexivity|].
  split; [destruct Klr as [-> | ->]; [apply N.le_refl | rewrite Hn2; apply N.le_refl]|].
  split; [rewrite Cn3; exact Hcnt2 | exact (srv_moved_trans _ _ _ 0 0 0 0 M2 M3)].
Qed.

Lemma deliver_reach (P R : nclient -> Prop) (d : list N) :
  (forall c, P c -> P (fst (nclient_process_packet c d)) /\ R (fst (nclient_process_packet c d))) ->
  forall m c, P c -> P (deliver m c d) /\ ((0 < m)%nat -> R (deliver m c d)).
Proof.
  intros Hstep. induction m as [|m IH]; intros c Hc; cbn [deliver].
  - split; [exact Hc | lia].
  - destruct (Hstep c Hc) as [P1 R1]. destruct (IH _ P1) as [P2 R2]. split; [exact P2|].
    intros _. destruct m as [|m]; [exact R1 | apply R2; lia].
Qed.

Lemma deliver_all_none c ds : deliver_all 0 c ds = c.
Proof. unfold deliver_all. induction ds as [|d ds IH]; cbn [fold_left deliver]; [reflexivity | exact IH]. Qed.

(* copies of datagrams each of which takes a client of P to one of P and R: when there is a datagram and the
   network delivers it the client ends in R, and otherwise it is untouched *)
Lemma deliver_all_reach (P R : nclient -> Prop) (Q : list N -> Prop) m :
  (forall c d, P c -> Q d -> P (fst (nclient_process_packet c d)) /\ R (fst (nclient_process_packet c d))) ->
  forall ds c, P c -> Forall Q ds ->
    P (deliver_all m c ds) /\
    if (0 <? length ds)%nat && (0 <? m)%nat then R (deliver_all m c ds) else deliver_all m c ds = c.
Proof.
  intros Hstep ds c Hc HQ.
  assert (H : P (deliver_all m c ds) /\ ((0 < m)%nat -> ds <> [] -> R (deliver_all m c ds))).
  { revert c Hc HQ. unfold deliver_all. induction ds as [|d ds IH]; intros c Hc HQ; cbn [fold_left].
    - split; [exact Hc | congruence].
    - inversion HQ as [|x l Hd Hds]; subst.
      destruct (deliver_reach P R d (fun c0 H0 => Hstep c0 d H0 Hd) m c Hc) as [P1 R1].
      destruct (IH _ P1 Hds) as [P2 R2]. split; [exact P2|].
      intros Hm _. destruct ds as [|d' ds']; [cbn [fold_left]; apply R1; exact Hm|].
      apply R2; [exact Hm | discriminate]. }
  destruct H as [P1 R1]. split; [exact P1|].
  destruct ds as [|d ds]; [reflexivity|]. destruct m as [|m]; [apply deliver_all_none|].
  apply R1; [apply Nat.lt_0_succ | discriminate].
Qed.

Lemma sys_static_split c s a t :
  sys_static {| sy_client := c; sy_server := s; sy_addr := a |} t <->
  srv_static s a (cl_token c) t /\ cl_id c = ct_client_id (cl_token c) /\
  dest_ok s (cl_server_addr c) = true /\ client_inv c.
Proof.
  unfold sys_static, srv_static. cbn [sy_client sy_server sy_addr]. pose proof (client_wf_inv c). tauto.
Qed.

Lemma dest_ok_same s s' d : srv_same s s' -> dest_ok s d = true -> dest_ok s' d = true.
Proof. intros (_ & _ & _ & _ & Ha & _) H. unfold dest_ok in *. rewrite Ha. exact H. Qed.

Lemma sys_static_client c c' s a t :
  sys_static {| sy_client := c; sy_server := s; sy_addr := a |} t -> cl_frame c c' -> client_inv c' ->
  sys_static {| sy_client := c'; sy_server := s; sy_addr := a |} t.
Proof.
  rewrite !sys_static_split. intros (S1 & S2 & S3 & _) (Ft & Fi & Fa & _) I'.
  rewrite Ft, Fi, Fa. auto.
Qed.

Lemma sys_static_stage c c1 s s3 a t dt dc dg :
  sys_static (mk c s a) t -> tick_frame c c1 dt -> client_inv c1 ->
  srv_static s3 a (cl_token c) t -> srv_moved (nserver_update s dt) s3 dc dg -> sys_static (mk c1 s3 a) t.
Proof.
  rewrite !sys_static_split. intros (_ & Hid & Hdest & _) (T1 & T2 & T3 & _) I1 Ss3 (_ & _ & _ & Sm).
  rewrite T1, T2, T3. split; [exact Ss3|]. split; [exact Hid|].
  split; [exact (dest_ok_same (nserver_update s dt) s3 _ Sm Hdest) | exact I1].
Qed.

(* the phases look at the client's state, replay window, token, challenge and slot only *)
Lemma ph_tick c c1 s a t dt :
  tick_frame c c1 dt ->
  (ph_request (mk c s a) t -> ph_request (mk c1 s a) t) /\ (ph_response (mk c s a) t -> ph_response (mk c1 s a) t) /\
  (ph_accepted (mk c s a) t -> ph_accepted (mk c1 s a) t) /\ (ph_connected (mk c s a) t -> ph_connected (mk c1 s a) t).
Proof.
  intros (T1 & _ & _ & _ & _ & _ & _ & _ & T9 & T10 & T11 & T12 & T13).
  unfold ph_request, ph_response, ph_accepted, ph_connected. cbn [sy_client sy_server sy_addr].
  rewrite T1, T9, T10, T11, T12, T13. tauto.
Qed.

Definition handed (s : nserver) (a : addr) (fc : fate) (o : option (list N * addr)) : res nerr (nserver * list sresult) :=
  match o with
  | Some (d, dest) => if dest_ok s dest then feed (copies fc) s a d else Ok (s, [])
  | None => Ok (s, [])
  end.

Lemma round_stages c s a dt fc fs s2 k c1 o s3 rs :
  update_client (nserver_update s dt) (cl_id c) = Ok (s2, k) -> nclient_update c dt = Ok (c1, o) ->
  handed s2 a fc o = Ok (s3, rs) ->
  round (mk c s a) dt fc fs = Ok (mk (deliver_all (copies fs) c1 (flat_map (reply_to a) (k :: rs))) s3 a, k :: rs).
Proof.
  intros H1 H2 H3. unfold round. cbn [sy_client sy_server sy_addr]. rewrite H1. cbn [bind]. rewrite H2. cbn [bind].
  unfold handed in H3. rewrite H3. reflexivity.
Qed.

Lemma round_lit_stages c s a dt fc fs c1 o s3 rs :
  nclient_update c dt = Ok (c1, o) -> handed (nserver_update s dt) a fc o = Ok (s3, rs) ->
  round_lit (mk c s a) dt fc fs = Ok (mk (deliver_all (copies fs) c1 (flat_map (reply_to a) rs)) s3 a, rs).
Proof.
  intros H2 H3. unfold round_lit. cbn [sy_client sy_server sy_addr]. rewrite H2. cbn [bind].
  unfold handed in H3. rewrite H3. reflexivity.
Qed.

Definition arrives (f : fate) : bool := (0 <? copies f)%nat.

(* an unsent or lost datagram is zero copies of it; go: the client did send *)
Lemma handed_feed s a fc (go : bool) d dest :
  dest_ok s dest = true ->
  exists n, handed s a fc (if go then Some (d, dest) else None) = feed n s a d /\ (n <= copies fc)%nat /\
            (0 <? n)%nat = go && arrives fc.
Proof.
  intros Hd. destruct go.
  - exists (copies fc). cbn [handed]. rewrite Hd. split; [reflexivity|]. split; [apply Nat.le_refl | reflexivity].
  - exists 0%nat. split; [reflexivity|]. split; [apply Nat.le_0_l | reflexivity].
Qed.

Lemma static_keys c s a t :
  sys_static (mk c s a) t -> protocol_of c = ns_protocol s /\ s2c_key c = pt_s2c t /\ c2s_key c = pt_c2s t.
Proof.
  rewrite sys_static_split. intros ((_ & _ & (_ & Hc & Hs) & Hp & _) & _).
  unfold protocol_of, s2c_key, c2s_key. auto.
Qed.

(* c0 is the requesting client after its own tick, c the same client after deliveries of that tick, a challenge
   among them *)
Definition got_challenge (s : nserver) (a : addr) (t : private_token) (c0 c : nclient) : Prop :=
  ph_response (mk c s a) t /\ cl_last_send c = None /\ cl_last_recv c = cl_now c0.

Definition req_or_resp (s : nserver) (a : addr) (t : private_token) (c0 c : nclient) : Prop :=
  sys_static (mk c s a) t /\ cl_frame c0 c /\
  ((ph_request (mk c s a) t /\ c = c0) \/ got_challenge s a t c0 c).

Lemma challenge_data_len s t cseq : private_wf t -> len (challenge_data s t cseq) = NC_CHALLENGE_BYTES.
Proof.
  intros (Hid & _ & _ & _ & _ & Hul).
  pose proof (challenge_decode_generate (pt_client_id t) (pt_user t) cseq (ns_chal_key s) Hid Hul) as H.
  unfold generate_challenge in H. apply H.
Qed.

Lemma recv_challenge_step s a t c0 c d :
  req_or_resp s a t c0 c -> chal_dgram_ok s a t d ->
  req_or_resp s a t c0 (fst (nclient_process_packet c d)) /\
  got_challenge s a t c0 (fst (nclient_process_packet c d)).
Proof.
  intros (St & Fr & Hph) (cseq & q & Hd & Hq & Hcs & pc & Epc & Hfl).
  destruct (static_keys _ _ _ _ St) as (Kp & Ks & _).
  pose proof (proj1 (sys_static_split _ _ _ _) St) as ((_ & Wt & _) & _ & _ & Hinv).
  unfold challenge_dgram in Hd. rewrite <- Kp, <- Ks in Hd.
  pose proof (decode_challenge OUT_CAP cseq _ _ q _ d Hq Hcs (challenge_data_len s t cseq Wt) Hd) as Hdec.
  destruct Hph as [[(S & Hrp & So & Hpend) ->]|(Hresp & Hls & Hlr)]; cbn [sy_client sy_server sy_addr] in *.
  - destruct (client_accepts_challenge c0 d q cseq _ S Hdec)
      as (c' & Hpp & S' & Hcq & Hcd & Hls' & Hlr' & Hnow' & Hsq' & Htok' & Hsa' & Hai' & Hcs' & Hrp').
    rewrite Hpp. cbn [fst].
    destruct (cl_recv_frame c0 d Hinv) as [F I']. rewrite Hpp in F, I'. cbn [fst] in F, I'.
    assert (G : got_challenge s a t c0 c').
    { split; [|split; assumption]. unfold ph_response. cbn [sy_client sy_server sy_addr].
      split; [exact S'|]. split; [congruence|]. split; [exact So|].
      exists pc. rewrite Epc in Hpend. rewrite Htok', Hcq, Hcd. auto. }
    split; [|exact G]. split; [apply (sys_static_client c0); assumption|]. split; [exact F|]. right. exact G.
  - pose proof Hresp as (S & _).
    rewrite (client_ignores_challenge c d q _ _ S Hdec). cbn [fst].
    split; [|exact (conj Hresp (conj Hls Hlr))]. split; [exact St|]. split; [exact Fr|]. right. exact (conj Hresp (conj Hls Hlr)).
Qed.

Definition acc_or_conn (s : nserver) (a : addr) (t : private_token) (c0 c : nclient) : Prop :=
  sys_static (mk c s a) t /\ cl_frame c0 c /\ (ph_accepted (mk c s a) t \/ ph_connected (mk c s a) t).

Lemma slot_small s f slot sc :
  server_sizes s -> find_slot_by f (ns_clients s) 0 = Some (slot, sc) -> slot < 4294967296 /\ ns_max s < 4294967296.
Proof.
  intros [H1 H2] H. destruct (lookup_nth _ _ _ _ H) as [Hn _]. apply nth_opt_some_lt in Hn.
  unfold len, NC_MAX_CLIENTS in *. lia.
Qed.

Lemma recv_keepalive_step s a t c0 c d :
  acc_or_conn s a t c0 c -> ka_dgram_ok s a t d ->
  acc_or_conn s a t c0 (fst (nclient_process_packet c d)) /\
  ph_connected (mk (fst (nclient_process_packet c d)) s a) t.
Proof.
  intros (St & Fr & Hph) (q & slot & sc & Hq & Ea & Hd).
  destruct (static_keys _ _ _ _ St) as (Kp & Ks & _).
  pose proof (proj1 (sys_static_split _ _ _ _) St) as ((_ & _ & _ & _ & _ & _ & _ & _ & Hsz) & _ & _ & Hinv).
  destruct (slot_small _ _ _ _ Hsz Ea) as [Hsl Hmx].
  unfold keepalive_dgram in Hd. rewrite <- Kp, <- Ks in Hd.
  pose proof (decode_keepalive OUT_CAP slot (ns_max s) _ q _ d Hq Hsl Hmx Hd) as Hdec.
  destruct (cl_recv_frame c d Hinv) as [F I'].
  assert (St' : sys_static (mk (fst (nclient_process_packet c d)) s a) t) by (apply (sys_static_client c); assumption).
  assert (Fr' : cl_frame c0 (fst (nclient_process_packet c d))) by (apply (cl_frame_trans _ c); assumption).
  assert (C : ph_connected (mk (fst (nclient_process_packet c d)) s a) t).
  { unfold ph_connected.
    destruct Hph as [(S & Hrp & _ & slot' & sc' & Hconn)|(S & slot' & sc' & Hconn & Hidx)]; cbn [sy_client sy_server sy_addr] in *.
    - assert (Hfresh : already_received (cl_replay c) q = false) by (rewrite Hrp; apply already_received_new).
      destruct (client_accepts_keepalive c d q slot (ns_max s) S Hdec Hfresh)
        as (c' & Hpp & S' & Hci & _ & _ & _ & _ & _ & Htok' & _).
      rewrite Hpp. cbn [fst]. split; [exact S'|]. exists slot', sc'. rewrite Htok'. split; [exact Hconn|].
      destruct Hconn as (Ea' & _). rewrite Ea in Ea'. injection Ea' as -> _. exact Hci.
    - destruct (connected_hears_keepalive c d q slot (ns_max s) S Hdec) as (c' & Hpp & S' & Hci & _).
      rewrite Hpp in F |- *. cbn [fst] in F |- *. destruct F as (Htok' & _).
      split; [exact S'|]. exists slot', sc'. rewrite Htok', Hci. split; [exact Hconn | exact Hidx]. }
  split; [|exact C]. exact (conj St' (conj Fr' (or_intror C))).
Qed.

Lemma copies_le2 f : (copies f <= 2)%nat.
Proof. destruct f; cbn [copies]; lia. Qed.

(* time_ok in two halves.  The expiry half is a budget that only runs down (exp_ok_step); the time-out half runs
   down too (to_ok_step), but is full again whenever the party has just heard from the other one (to_ok_heard). *)
Definition exp_ok (y : nsys) (T : N) : Prop :=
  is_connecting (sy_client y) = true ->
  cl_expired (sy_client y) T = false /\ srv_expired (sy_server y) (cl_token (sy_client y)) T = false.

Definition to_ok (y : nsys) (T : N) : Prop :=
  cl_timed_out (sy_client y) T = false /\ srv_timed_out (sy_server y) (cl_id (sy_client y)) T = false.

Lemma round_ok_iff y dt : round_ok y dt = true <-> exp_ok y dt /\ to_ok y dt /\ seq_room y 1 = true.
Proof.
  unfold round_ok, time_ok, exp_ok, to_ok. rewrite !andb_true_iff, !negb_true_iff.
  destruct (is_connecting _); [rewrite andb_true_iff, !negb_true_iff|]; intuition discriminate.
Qed.

Lemma seq_room_one c s a :
  seq_room (mk c s a) 1 = true ->
  cl_seq c + 1 < U64 /\ ns_global_seq s + 2 < U64 /\ ns_chal_seq s + 2 < U64 /\ srv_conn_seq (mk c s a) + 1 < U64.
Proof. unfold seq_room. cbn [sy_client sy_server]. lia. Qed.

Lemma srv_conn_seq_found c s a slot sc : find_by_addr s a = Some (slot, sc) -> srv_conn_seq (mk c s a) = nc_seq sc.
Proof. intros Ea. unfold srv_conn_seq. cbn [sy_server sy_addr]. rewrite Ea. reflexivity. Qed.

Lemma flat_map_repeat_none a n : flat_map (reply_to a) (repeat SRNone n) = [].
Proof. induction n as [|n IH]; cbn [repeat flat_map reply_to app]; [reflexivity | exact IH]. Qed.

Lemma count_connected_repeat_none n : count_connected (repeat SRNone n) = 0%nat.
Proof. unfold count_connected. induction n as [|n IH]; cbn [repeat filter is_connected_event]; [reflexivity | exact IH]. Qed.

Lemma count_connected_app rs1 rs2 : count_connected (rs1 ++ rs2) = (count_connected rs1 + count_connected rs2)%nat.
Proof. unfold count_connected. rewrite filter_app. apply app_length. Qed.

(* the part of sys_frame that speaks of the server's entry for the client *)
Definition conn_frame (c : nclient) (s s' : nserver) (a : addr) (dt : N) : Prop :=
  srv_conn_seq (mk c s' a) <= srv_conn_seq (mk c s a) + 1 /\
  forall slot' sc', find_by_id s' (cl_id c) = Some (slot', sc') ->
    (exists slot sc, find_by_id s (cl_id c) = Some (slot, sc) /\ nc_timeout sc' = nc_timeout sc /\
                     nc_last_recv sc <= nc_last_recv sc') \/
    (find_by_id s (cl_id c) = None /\ ns_now s + dt <= nc_last_recv sc').

Lemma conn_frame_absent c s s' a dt :
  find_by_addr s a = None -> find_by_id s (cl_id c) = None -> ns_clients s' = ns_clients s -> conn_frame c s s' a dt.
Proof.
  intros Ea Ei Ecl. unfold conn_frame, srv_conn_seq, find_by_addr, find_by_id in *. cbn [sy_server sy_addr].
  rewrite Ecl, Ea, Ei. split; [discriminate | discriminate].
Qed.

Lemma conn_frame_entry c s s' a dt slot' sc' :
  table_inv s' -> find_by_addr s' a = Some (slot', sc') -> nc_id sc' = cl_id c ->
  nc_seq sc' <= srv_conn_seq (mk c s a) + 1 ->
  ((exists slot sc, find_by_id s (cl_id c) = Some (slot, sc) /\ nc_timeout sc' = nc_timeout sc /\
                    nc_last_recv sc <= nc_last_recv sc') \/
   (find_by_id s (cl_id c) = None /\ ns_now s + dt <= nc_last_recv sc')) ->
  conn_frame c s s' a dt.
Proof.
  intros T' Ea' Hi Hsq Hd. unfold conn_frame. rewrite (srv_conn_seq_found c s' a slot' sc' Ea').
  split; [exact Hsq|]. intros slot2 sc2 E.
  destruct (find_by_addr_id _ _ _ _ T' Ea') as [_ Ei']. rewrite Hi in Ei'.
  rewrite Ei' in E. injection E as _ <-. exact Hd.
Qed.

Lemma sys_frame_stages c c1 c2 s s3 a dt dc dg :
  tick_frame c c1 dt -> cl_frame c1 c2 -> (is_connecting c2 = true -> is_connecting c = true) ->
  srv_moved (nserver_update s dt) s3 dc dg -> dc <= 2 -> dg <= 2 -> conn_frame c s s3 a dt ->
  sys_frame (mk c s a) (mk c2 s3 a) dt.
Proof.
  intros (T1 & T2 & T3 & T4 & T5 & T6 & T7 & T8 & _) (F1 & F2 & F3 & F4 & F5 & F6 & F7 & F8) Hc
         (Mc & Mg & Mn & Sm) Hdc Hdg (Hsq & Hconn).
  change (ns_chal_seq s3 = ns_chal_seq s + dc) in Mc. change (ns_global_seq s3 = ns_global_seq s + dg) in Mg.
  unfold sys_frame. cbn [sy_client sy_server sy_addr].
  split; [reflexivity|]. split; [exact (eq_trans F1 T1)|]. split; [exact (eq_trans F2 T2)|].
  split; [exact (eq_trans F3 T3)|]. split; [exact (eq_trans F4 T4)|]. split; [exact (eq_trans F5 T5)|].
  split; [exact (eq_trans F6 T6)|]. split; [rewrite F7; exact T7|]. split; [rewrite <- T8; exact F8|].
  split; [exact Mn|]. split; [rewrite Mc; clear - Hdc; lia|]. split; [rewrite Mg; clear - Hdg; lia|].
  split; [exact Hsq|].
  split; [apply (srv_same_trans _ (nserver_update s dt)); [repeat split | exact Sm]|].
  split; [exact Hc | exact Hconn].
Qed.

Lemma sys_frame_client y y' dt :
  sys_frame y y' dt ->
  cl_token (sy_client y') = cl_token (sy_client y) /\ cl_id (sy_client y') = cl_id (sy_client y) /\
  cl_server_addr (sy_client y') = cl_server_addr (sy_client y) /\
  cl_connect_start (sy_client y') = cl_connect_start (sy_client y) /\
  cl_now (sy_client y') = cl_now (sy_client y) + dt /\ ns_now (sy_server y') = ns_now (sy_server y) + dt /\
  cl_last_recv (sy_client y) <= cl_last_recv (sy_client y').
Proof.
  intros (_ & Ft & Fi & Fa & _ & Fcs & Fnow & _ & Flr & Fsn & _).
  exact (conj Ft (conj Fi (conj Fa (conj Fcs (conj Fnow (conj Fsn Flr)))))).
Qed.

Lemma sys_frame_seqs y y' dt :
  sys_frame y y' dt ->
  cl_seq (sy_client y') <= cl_seq (sy_client y) + 1 /\ ns_chal_seq (sy_server y') <= ns_chal_seq (sy_server y) + 2 /\
  ns_global_seq (sy_server y') <= ns_global_seq (sy_server y) + 2 /\ srv_conn_seq y' <= srv_conn_seq y + 1.
Proof. intros (_ & _ & _ & _ & _ & _ & _ & (_ & Fsq) & _ & _ & (_ & Fch) & (_ & Fgl) & Fcq & _). exact (conj Fsq (conj Fch (conj Fgl Fcq))). Qed.

Lemma sys_frame_connecting y y' dt :
  sys_frame y y' dt -> is_connecting (sy_client y') = true -> is_connecting (sy_client y) = true.
Proof. intros (_ & _ & _ & _ & _ & _ & _ & _ & _ & _ & _ & _ & _ & _ & Fconn & _). exact Fconn. Qed.

Lemma sys_frame_entry c s a c' s' a' dt : sys_frame (mk c s a) (mk c' s' a') dt -> conn_frame c s s' a dt.
Proof.
  intros (Fa & _ & _ & _ & _ & _ & _ & _ & _ & _ & _ & _ & Fcq & _ & _ & Fsrv). cbn [sy_addr] in Fa. subst a'.
  exact (conj Fcq Fsrv).
Qed.

Lemma seq_room_step y y' dt n :
  sys_frame y y' dt -> seq_room y (1 + n) = true -> seq_room y 1 = true /\ seq_room y' n = true.
Proof.
  intros Fr H. destruct (sys_frame_seqs _ _ _ Fr) as (Fsq & Fch & Fgl & Fcq). clear Fr.
  unfold seq_room in *. lia.
Qed.

Lemma seq_room_le y n m : seq_room y n = true -> m <= n -> seq_room y m = true.
Proof. unfold seq_room. lia. Qed.

Lemma static_id c s a t : sys_static (mk c s a) t -> cl_id c = pt_client_id t.
Proof. rewrite sys_static_split. intros ((_ & _ & (Hi & _) & _) & Hid & _). congruence. Qed.

Lemma static_table c s a t : sys_static (mk c s a) t -> table_inv s.
Proof. rewrite sys_static_split. intros (Ss & _). exact (srv_static_table _ _ _ _ Ss). Qed.

Inductive phase := Req | Resp | Acc | Conn.

Definition in_phase (p : phase) (y : nsys) (t : private_token) : Prop :=
  match p with
  | Req => ph_request y t | Resp => ph_response y t | Acc => ph_accepted y t | Conn => ph_connected y t
  end.

Definition phase_state (p : phase) : cstate :=
  match p with Req => CSendingRequest | Resp | Acc => CSendingResponse | Conn => CConnected end.

Lemma in_phase_state p y t : in_phase p y t -> cl_state (sy_client y) = phase_state p.
Proof. destruct p; intros (S & _); exact S. Qed.

Lemma hs_inv_phase y t : hs_inv_with y t <-> sys_static y t /\ exists p, in_phase p y t.
Proof.
  unfold hs_inv_with. split; intros (St & H); (split; [exact St|]).
  - destruct H as [H|[H|[H|H]]]; [exists Req | exists Resp | exists Acc | exists Conn]; exact H.
  - destruct H as ([| | |] & H); cbn [in_phase] in H; tauto.
Qed.

Lemma in_phase_inv p y t : sys_static y t -> in_phase p y t -> hs_inv_with y t.
Proof. intros St H. apply hs_inv_phase. split; [exact St | exists p; exact H]. Qed.

Lemma in_phase_rank p y t : in_phase p y t -> hs_rank y = match p with Req => 2 | Conn => 0 | _ => 1 end%nat.
Proof. intros H. unfold hs_rank. rewrite (in_phase_state p y t H). destruct p; reflexivity. Qed.

(* Where a tick leads.  go: the rate limit lets out the datagram that the phase waits for (the client's request or
   response; in phase (3) the keep-alive of the server's update_client); up, dn: the network delivers what the
   client sends, what the server sends. *)
Definition hs_next (p : phase) (go up dn : bool) : phase :=
  match p with
  | Req => if go && up && dn then Resp else Req
  | Resp => if go && up then (if dn then Conn else Acc) else Resp
  | Acc => if go && dn then Conn else Acc
  | Conn => Conn
  end.

(* the rate limit cannot hold that datagram back: the tick is long enough, or the client has not sent since it
   last changed state *)
Definition due (y : nsys) (p : phase) (dt : N) : Prop :=
  SEND_RATE_NS <= dt \/ match p with Req | Resp => cl_last_send (sy_client y) = None | _ => False end.

(* the ClientConnected events of a tick from p to p' *)
Definition accepts (p p' : phase) : nat := match p, p' with Resp, (Acc | Conn) => 1 | _, _ => 0 end%nat.

(* One tick as a step of the machine, exactly.  The last clause: a client that has just taken a challenge has not
   sent since, and has heard from the server at the end of the tick. *)
Definition tick_sim (p : phase) (y : nsys) (t : private_token) (dt : N) (fc fs : fate) : Prop :=
  exists y' rs go,
    let p' := hs_next p go (arrives fc) (arrives fs) in
    round y dt fc fs = Ok (y', rs) /\ sys_static y' t /\ sys_frame y y' dt /\ (due y p dt -> go = true) /\
    in_phase p' y' t /\ count_connected rs = accepts p p' /\
    connected_count (sy_server y') = connected_count (sy_server y) + N.of_nat (accepts p p') /\
    (p = Req -> p' = Resp ->
       cl_last_send (sy_client y') = None /\ cl_last_recv (sy_client y') = cl_now (sy_client y) + dt).

Lemma round_request c s a t dt fc fs :
  sys_static (mk c s a) t -> ph_request (mk c s a) t -> round_ok (mk c s a) dt = true ->
  tick_sim Req (mk c s a) t dt fc fs.
Proof.
  intros St Ph Hok.
  pose proof (proj1 (sys_static_split _ _ _ _) St) as (Ss & _ & Hdest & Hinv).
  pose proof (static_id _ _ _ _ St) as Hidt.
  apply round_ok_iff in Hok. destruct Hok as (Hconn & (Hto & _) & Hs).
  destruct (seq_room_one _ _ _ Hs) as (_ & Hg & Hcs & _). clear Hs.
  destruct Ph as (S & Hrp & So & Hp). cbn [sy_client sy_server sy_addr] in S, Hrp, So, Hp.
  assert (Hc : is_connecting c = true) by (unfold is_connecting; rewrite S; reflexivity).
  destruct (Hconn Hc) as [Hex Hsex].
  (* the server's tick, the client's tick *)
  destruct (srv_tick_open s a (cl_token c) t dt Ss So Hp Hsex) as (Huc & Ss1 & _ & Hp1 & Hnow1).
  rewrite <- Hidt in Huc.
  destruct (live_update c dt Hinv (or_introl Hc) (fun _ => Hex) Hto (fun _ => token_wf_sizes _ (proj1 Ss)))
    as (p & d & _ & _ & Hd & Hcu).
  rewrite S in Hd. change (d = token_dgram (cl_token c)) in Hd. subst d.
  set (go := send_due (cl_tick c dt)) in Hcu.
  pose proof (tick_frame_ticked c dt go) as Tf. pose proof (client_inv_ticked c dt go Hinv) as Hinv1.
  set (c1 := cl_ticked c dt go) in *.
  destruct (handed_feed (nserver_update s dt) a fc go (token_dgram (cl_token c)) _ Hdest) as (n & Hh & Hn & Hup).
  (* n requests at the server *)
  pose proof (copies_le2 fc) as Hfc.
  destruct (feed_requests a (cl_token c) t n _ Ss1 So Hp1 Hnow1)
    as (s3 & rs & Hf & Ss3 & So3 & Hp3 & Hds & Hlen & Hcnt & _ & Hcl3 & M3).
  { clear - Hn Hfc Hcs. change (ns_chal_seq (nserver_update s dt)) with (ns_chal_seq s). lia. }
  { clear - Hn Hfc Hg. change (ns_global_seq (nserver_update s dt)) with (ns_global_seq s). lia. }
  rewrite Hf in Hh.
  (* the challenges at the client *)
  assert (Ph1 : ph_request (mk c1 s3 a) t).
  { apply (ph_tick c c1 s3 a t dt Tf). exact (conj S (conj Hrp (conj So3 Hp3))). }
  assert (P0 : req_or_resp s3 a t c1 c1).
  { split; [exact (sys_static_stage c c1 s s3 a t dt _ _ St Tf Hinv1 Ss3 M3)|]. split; [apply cl_frame_refl|].
    left. exact (conj Ph1 eq_refl). }
  destruct (deliver_all_reach (req_or_resp s3 a t c1) (got_challenge s3 a t c1) (chal_dgram_ok s3 a t) (copies fs)
              (recv_challenge_step s3 a t c1) (flat_map (reply_to a) rs) c1 P0 Hds) as [(St2 & Fr2 & _) Rf].
  rewrite Hlen, Hup in Rf. fold (arrives fs) in Rf.
  set (c2 := deliver_all (copies fs) c1 (flat_map (reply_to a) rs)) in *.
  exists (mk c2 s3 a), (SRNone :: rs), go. cbv zeta. cbn [hs_next sy_client sy_server].
  split; [exact (round_stages c s a dt fc fs _ _ _ _ _ _ Huc Hcu Hh)|].
  split; [exact St2|].
  split.
  { apply (sys_frame_stages c c1 c2 s s3 a dt _ _ Tf Fr2 (fun _ => Hc) M3); [clear - Hn Hfc; lia | clear - Hn Hfc; lia |].
    apply conn_frame_absent; [apply So | rewrite Hidt; apply So | exact Hcl3]. }
  split; [exact (send_due_tick c dt Hinv)|].
  assert (Hcc : connected_count s3 = connected_count s + 0).
  { rewrite N.add_0_r. unfold connected_count. rewrite Hcl3. reflexivity. }
  destruct (go && arrives fc && arrives fs); cbn [in_phase accepts].
  - destruct Rf as (G1 & G2 & G3). split; [exact G1|]. split; [exact Hcnt|]. split; [exact Hcc|].
    intros _ _. split; [exact G2|]. rewrite G3. apply Tf.
  - rewrite Rf. split; [exact Ph1|]. split; [exact Hcnt|]. split; [exact Hcc | discriminate].
Qed.

Lemma round_response c s a t dt fc fs :
  sys_static (mk c s a) t -> ph_response (mk c s a) t -> round_ok (mk c s a) dt = true ->
  tick_sim Resp (mk c s a) t dt fc fs.
Proof.
  intros St Ph Hok.
  pose proof (proj1 (sys_static_split _ _ _ _) St) as (Ss & _ & Hdest & Hinv).
  pose proof (static_id _ _ _ _ St) as Hidt.
  destruct (static_keys _ _ _ _ St) as (Kp & _ & Kc).
  apply round_ok_iff in Hok. destruct Hok as (Hconn & (Hto & _) & Hs).
  destruct (seq_room_one _ _ _ Hs) as (Hq1 & _). clear Hs.
  destruct Ph as (S & Hrp & So & pc & Epc & Hokpc & Hfl & Hts & Hcd).
  cbn [sy_client sy_server sy_addr] in S, Hrp, So, Epc, Hokpc, Hfl, Hts, Hcd.
  assert (Hc : is_connecting c = true) by (unfold is_connecting; rewrite S; reflexivity).
  destruct (Hconn Hc) as [Hex Hsex].
  pose proof (pend_room_found _ _ _ _ _ Epc Hokpc) as Hp.
  (* the server's tick, the client's tick *)
  destruct (srv_tick_open s a (cl_token c) t dt Ss So Hp Hsex) as (Huc & Ss1 & Hpf1 & _).
  rewrite <- Hidt in Huc. rewrite Epc in Hpf1.
  set (s1 := nserver_update s dt) in *.
  destruct (live_update c dt Hinv (or_introl Hc) (fun _ => Hex) Hto (fun E => ltac:(congruence)))
    as (p & d & Hcp & Henc & _ & Hcu).
  unfold client_packet in Hcp. rewrite S in Hcp. injection Hcp as <-. rewrite Kp, Kc, Hcd in Henc.
  set (go := send_due (cl_tick c dt)) in Hcu.
  pose proof (tick_frame_ticked c dt go) as Tf. pose proof (client_inv_ticked c dt go Hinv) as Hinv1.
  set (c1 := cl_ticked c dt go) in *.
  destruct (handed_feed s1 a fc go d _ Hdest) as (n & Hh & _ & Hup).
  pose proof (send_due_tick c dt Hinv : due (mk c s a) Resp dt -> go = true) as Hgo'.
  destruct n as [|m].
  - (* nothing reaches the server *)
    change (false = go && arrives fc) in Hup.
    exists (mk c1 s1 a), [SRNone], go.
    cbv zeta. cbn [hs_next]. rewrite <- Hup. cbn [in_phase accepts sy_client sy_server].
    split; [exact (round_stages c s a dt fc fs _ _ _ _ _ _ Huc Hcu Hh)|].
    split; [exact (sys_static_stage c c1 s s1 a t dt 0 0 St Tf Hinv1 Ss1 (srv_moved_refl s1))|].
    split.
    { apply (sys_frame_stages c c1 c1 s s1 a dt 0 0 Tf (cl_frame_refl c1) (fun _ => Hc) (srv_moved_refl s1));
        [discriminate | discriminate |].
      apply conn_frame_absent; [apply So | rewrite Hidt; apply So | reflexivity]. }
    split; [exact Hgo'|].
    split.
    { apply (ph_tick c c1 s1 a t dt Tf).
      exact (conj S (conj Hrp (conj So (ex_intro _ pc (conj Hpf1 (conj Hokpc (conj Hfl (conj Hts Hcd)))))))). }
    split; [reflexivity|]. split; [symmetry; apply N.add_0_r | discriminate].
  - (* the first copy connects, the others are ignored; the keep-alive that answers it at the client *)
    change (true = go && arrives fc) in Hup.
    destruct (feed_response s1 a (cl_token c) t pc (cl_chal_seq c) (cl_seq c) d m Ss1 So Hpf1 Hokpc Hfl Hts)
      as (s3 & slot & ka & sc3 & Hf & Hka & Ss3 & Hconn3 & Hsq3 & Hlr3 & Hcnt3 & M3); [clear - Hq1; lia | exact Henc |].
    rewrite Hf in Hh.
    assert (Hkd : ka_dgram_ok s3 a t ka).
    { exists 0, slot, sc3. split; [reflexivity|]. split; [apply Hconn3|].
      exact (keepalive_dgram_same s1 s3 _ _ _ _ (proj2 (proj2 (proj2 M3))) Hka). }
    assert (Ph1 : ph_accepted (mk c1 s3 a) t).
    { apply (ph_tick c c1 s3 a t dt Tf).
      exact (conj S (conj Hrp (conj Hts (ex_intro _ slot (ex_intro _ sc3 Hconn3))))). }
    assert (P0 : acc_or_conn s3 a t c1 c1).
    { split; [exact (sys_static_stage c c1 s s3 a t dt 0 0 St Tf Hinv1 Ss3 M3)|]. split; [apply cl_frame_refl|].
      left. exact Ph1. }
    destruct (deliver_all_reach (acc_or_conn s3 a t c1) (fun c' => ph_connected (mk c' s3 a) t) (ka_dgram_ok s3 a t)
                (copies fs) (recv_keepalive_step s3 a t c1) [ka] c1 P0 (Forall_cons _ Hkd (Forall_nil _)))
      as [(St2 & Fr2 & _) Rf].
    change (if arrives fs then ph_connected (mk (deliver_all (copies fs) c1 [ka]) s3 a) t
            else deliver_all (copies fs) c1 [ka] = c1) in Rf.
    set (c2 := deliver_all (copies fs) c1 [ka]) in *.
    exists (mk c2 s3 a), (SRNone :: SRConnected (pt_client_id t) a (pt_user t) ka :: repeat SRNone m), go.
    cbv zeta. cbn [hs_next]. rewrite <- Hup. cbn [sy_client sy_server].
    split.
    { rewrite (round_stages c s a dt fc fs _ _ _ _ _ _ Huc Hcu Hh). cbn [flat_map reply_to app].
      rewrite addr_eqb_refl, flat_map_repeat_none. reflexivity. }
    assert (Hcc : count_connected (SRNone :: SRConnected (pt_client_id t) a (pt_user t) ka :: repeat SRNone m) = 1%nat).
    { unfold count_connected. cbn [filter is_connected_event length]. f_equal. apply count_connected_repeat_none. }
    split; [exact St2|].
    split.
    { apply (sys_frame_stages c c1 c2 s s3 a dt 0 0 Tf Fr2 (fun _ => Hc) M3); [discriminate | discriminate |].
      destruct Hconn3 as (Ea3 & (Hi3 & _) & _).
      apply (conn_frame_entry c s s3 a dt slot sc3 (srv_static_table _ _ _ _ Ss3) Ea3); [congruence | |].
      - rewrite Hsq3. clear. lia.
      - right. split; [rewrite Hidt; apply So | exact Hlr3]. }
    split; [exact Hgo'|].
    destruct (arrives fs); cbn [in_phase accepts].
    + split; [exact Rf|]. split; [exact Hcc|]. split; [exact Hcnt3 | discriminate].
    + rewrite Rf. split; [exact Ph1|]. split; [exact Hcc|]. split; [exact Hcnt3 | discriminate].
Qed.

(* The end of such a tick, with or without update_client: ks are the results of the server's tick
   ([] when the tick is read literally), sc2 the entry it left.  n copies of the client's datagram (a
   retransmitted response, or a keep-alive) are ignored or noted; the client takes the keep-alives. *)
Lemma connected_tick_end c s a t p dt fs slot sc c1 s2 sc2 ks pk d n :
  sys_static (mk c s a) t -> server_conn s a (cl_token c) t slot sc ->
  p = Acc \/ p = Conn -> in_phase p (mk c s a) t ->
  tick_frame c c1 dt -> client_inv c1 -> srv_ticked s a (cl_token c) t slot sc dt s2 sc2 ->
  Forall (ka_dgram_ok s2 a t) (flat_map (reply_to a) ks) ->
  client_packet c = Some pk -> encode CL_CAP pk (protocol_of c) (Some (cl_seq c, c2s_key c)) = Ok d ->
  exists s3 c2,
    feed n s2 a d = Ok (s3, repeat SRNone n) /\
    c2 = deliver_all (copies fs) c1 (flat_map (reply_to a) (ks ++ repeat SRNone n)) /\
    sys_static (mk c2 s3 a) t /\ sys_frame (mk c s a) (mk c2 s3 a) dt /\
    (forall up, in_phase (hs_next p (0 <? length (flat_map (reply_to a) ks))%nat up (arrives fs)) (mk c2 s3 a) t) /\
    connected_count s3 = connected_count s.
Proof.
  intros St Hconn0 Hpq Ph Tf I1 (Ss2 & Hconn2 & Hto2 & Hlr2 & Hsq2 & Cn2 & M2) Hks Hcp Henc.
  pose proof (static_id _ _ _ _ St) as Hidt.
  pose proof Hconn0 as (Ea & (Hi & _) & _ & Hlr0). pose proof Hconn2 as (Ea2 & _).
  pose proof M2 as (_ & _ & Hn2 & _).
  pose proof (in_phase_state _ _ _ Ph) as S. cbn [sy_client] in S.
  assert (Hd : quiet_dgram d).
  { unfold client_packet in Hcp. rewrite S in Hcp.
    destruct Hpq as [-> | ->]; injection Hcp as <-; [left | right]; refine (encode_dgram_type _ _ _ _ _ _ _ Henc);
      discriminate. }
  destruct (feed_quiet a _ t d n s2 slot sc2 Ss2 Hconn2 Hd) as (s3 & sc3 & Hf & Ss3 & Hconn3 & K3 & Cn3 & M3).
  pose proof (srv_moved_trans _ _ _ _ _ _ _ M2 M3) as M23. pose proof M3 as (_ & _ & _ & Sm3).
  pose proof Hconn3 as (Ea3 & _).
  (* the client after its own tick *)
  assert (Ph1 : in_phase p (mk c1 s3 a) t).
  { destruct Hpq as [-> | ->]; cbn [in_phase] in *; apply (ph_tick c c1 s3 a t dt Tf).
    - destruct Ph as (_ & Hrp & Hts & _).
      exact (conj S (conj Hrp (conj Hts (ex_intro _ slot (ex_intro _ sc3 Hconn3))))).
    - destruct Ph as (_ & slot0 & sc0 & (Ea0 & _) & Hidx). cbn [sy_client sy_server sy_addr] in Ea0, Hidx.
      rewrite Ea in Ea0. injection Ea0 as <- _. exact (conj S (ex_intro _ slot (ex_intro _ sc3 (conj Hconn3 Hidx)))). }
  assert (P0 : acc_or_conn s3 a t c1 c1).
  { split; [exact (sys_static_stage c c1 s s3 a t dt _ _ St Tf I1 Ss3 M23)|]. split; [apply cl_frame_refl|].
    destruct Hpq as [-> | ->]; [left | right]; exact Ph1. }
  (* and after the keep-alives *)
  assert (Hrep : flat_map (reply_to a) (ks ++ repeat SRNone n) = flat_map (reply_to a) ks).
  { rewrite flat_map_app, flat_map_repeat_none. apply app_nil_r. }
  assert (Hds : Forall (ka_dgram_ok s3 a t) (flat_map (reply_to a) ks)).
  { revert Hks. apply Forall_impl. intros ka (q & slot0 & sc0 & Hq0 & Ea0 & Hka). exists q, slot0, sc3.
    rewrite Ea2 in Ea0. injection Ea0 as <- _.
    split; [exact Hq0|]. split; [exact Ea3 | exact (keepalive_dgram_same s2 s3 _ _ _ _ Sm3 Hka)]. }
  exists s3, (deliver_all (copies fs) c1 (flat_map (reply_to a) (ks ++ repeat SRNone n))).
  split; [exact Hf|]. split; [reflexivity|]. rewrite Hrep.
  destruct (deliver_all_reach (acc_or_conn s3 a t c1) (fun c' => ph_connected (mk c' s3 a) t) (ka_dgram_ok s3 a t)
              (copies fs) (recv_keepalive_step s3 a t c1) _ c1 P0 Hds) as [(St2 & Fr2 & _) Rf].
  fold (arrives fs) in Rf.
  set (c2 := deliver_all (copies fs) c1 (flat_map (reply_to a) ks)) in *.
  assert (Hnx : forall up,
            in_phase (hs_next p (0 <? length (flat_map (reply_to a) ks))%nat up (arrives fs)) (mk c2 s3 a) t).
  { intros up. destruct Hpq as [-> | ->]; cbn [hs_next];
      destruct ((0 <? length (flat_map (reply_to a) ks))%nat && arrives fs); try exact Rf; rewrite Rf; exact Ph1. }
  split; [exact St2|].
  split.
  { refine (sys_frame_stages c c1 c2 s s3 a dt _ _ Tf Fr2 _ M23 _ _ _); [| discriminate | discriminate |].
    - intros H2. unfold is_connecting in H2 |- *. destruct Hpq as [-> | ->]; [rewrite S; reflexivity|].
      pose proof (in_phase_state _ _ _ (Hnx true)) as S2. cbn [sy_client hs_next phase_state] in S2.
      rewrite S2 in H2. discriminate H2.
    - pose proof (server_conn_id _ _ _ _ _ _ (static_table _ _ _ _ St) Hconn0) as Ei. rewrite <- Hidt in Ei.
      destruct Hconn3 as (_ & (Hi3 & _) & _). destruct K3 as ((_ & _ & _ & _ & _ & _ & Kto) & Ksq & _ & Klr).
      apply (conn_frame_entry c s s3 a dt slot sc3 (srv_static_table _ _ _ _ Ss3) Ea3); [congruence | |].
      { rewrite (srv_conn_seq_found c s a slot sc Ea), Ksq. exact Hsq2. }
      left. exists slot, sc. split; [exact Ei|]. split; [congruence|].
      clear - Klr Hlr2 Hn2 Hlr0. change (ns_now (nserver_update s dt)) with (ns_now s + dt) in Hn2.
      destruct Klr as [-> | ->]; lia. }
  split; [exact Hnx | exact (eq_trans Cn3 Cn2)].
Qed.

Lemma round_srv_connected c s a t p dt fc fs :
  sys_static (mk c s a) t -> p = Acc \/ p = Conn -> in_phase p (mk c s a) t -> round_ok (mk c s a) dt = true ->
  tick_sim p (mk c s a) t dt fc fs.
Proof.
  intros St Hpq Ph Hok.
  pose proof (proj1 (sys_static_split _ _ _ _) St) as (Ss & _ & Hdest & Hinv).
  pose proof (static_id _ _ _ _ St) as Hidt.
  apply round_ok_iff in Hok. destruct Hok as (Hconn & (Hto & Hsto) & Hs).
  destruct (seq_room_one _ _ _ Hs) as (_ & _ & _ & Hsq). clear Hs. cbn [sy_client sy_server] in Hsto.
  pose proof (in_phase_state _ _ _ Ph) as S. cbn [sy_client] in S.
  assert (Hsh : exists slot sc, server_conn s a (cl_token c) t slot sc).
  { destruct Hpq as [-> | ->]; [destruct Ph as (_ & _ & _ & slot & sc & Hc0) | destruct Ph as (_ & slot & sc & Hc0 & _)];
      exists slot, sc; exact Hc0. }
  destruct Hsh as (slot & sc & Hconn0).
  assert (Hst : is_connecting c = true \/ is_connected c = true).
  { unfold is_connecting, is_connected. rewrite S. destruct Hpq as [-> | ->]; [left | right]; reflexivity. }
  assert (Hnotreq : cl_state c <> CSendingRequest) by (rewrite S; destruct Hpq as [-> | ->]; discriminate).
  assert (Hseq : nc_seq sc < U64).
  { rewrite (srv_conn_seq_found c s a slot sc (proj1 Hconn0)) in Hsq. clear - Hsq. lia. }
  (* the server's tick, the client's tick *)
  rewrite Hidt in Hsto.
  destruct (srv_tick_conn s a (cl_token c) t slot sc dt Ss Hconn0 Hsto Hseq)
    as (s2 & k & sc2 & Huc & Tk & Hks & Hkc & Hkne).
  rewrite <- Hidt in Huc. pose proof Tk as (_ & _ & _ & _ & _ & _ & _ & _ & _ & Sm2).
  destruct (live_update c dt Hinv Hst (fun Hc => proj1 (Hconn Hc)) Hto (fun E => False_ind _ (Hnotreq E)))
    as (pk & d & Hcp & Henc & _ & Hcu).
  set (sent := send_due (cl_tick c dt)) in Hcu.
  pose proof (tick_frame_ticked c dt sent) as Tf. pose proof (client_inv_ticked c dt sent Hinv) as Hinv1.
  set (c1 := cl_ticked c dt sent) in *.
  destruct (handed_feed s2 a fc sent d _ (dest_ok_same (nserver_update s dt) s2 _ Sm2 Hdest)) as (n & Hh & _).
  (* the client's datagram at the server, the keep-alive at the client *)
  destruct (connected_tick_end c s a t p dt fs slot sc c1 s2 sc2 [k] pk d n St Hconn0 Hpq Ph Tf Hinv1 Tk Hks Hcp Henc)
    as (s3 & c2 & Hf & Ec2 & St2 & Fr & Hph & Cn3).
  rewrite Hf in Hh.
  exists (mk c2 s3 a), (k :: repeat SRNone n), (0 <? length (flat_map (reply_to a) [k]))%nat. cbv zeta.
  assert (Hacc : forall p', accepts p p' = 0%nat) by (intros p'; destruct Hpq as [-> | ->]; reflexivity).
  rewrite Hacc.
  split; [rewrite Ec2; exact (round_stages c s a dt fc fs _ _ _ _ _ _ Huc Hcu Hh)|].
  split; [exact St2|]. split; [exact Fr|].
  split.
  { intros [Hdt|Hls]; [|destruct Hpq as [-> | ->]; contradiction Hls].
    generalize (Hkne Hdt). destruct (flat_map (reply_to a) [k]); [congruence | reflexivity]. }
  split; [exact (Hph _)|].
  split; [exact (eq_trans (count_connected_app [k] _) (f_equal2 Nat.add Hkc (count_connected_repeat_none n)))|].
  split; [rewrite N.add_0_r; exact Cn3|].
  intros E. destruct Hpq as [-> | ->]; discriminate E.
Qed.

(* one tick of the system is one step of the machine, whatever the network does *)
Theorem round_sim y t p dt fc fs :
  sys_static y t -> in_phase p y t -> round_ok y dt = true -> tick_sim p y t dt fc fs.
Proof.
  destruct y as [c s a]. intros St Ph Hok. destruct p.
  - exact (round_request c s a t dt fc fs St Ph Hok).
  - exact (round_response c s a t dt fc fs St Ph Hok).
  - exact (round_srv_connected c s a t Acc dt fc fs St (or_introl eq_refl) Ph Hok).
  - exact (round_srv_connected c s a t Conn dt fc fs St (or_intror eq_refl) Ph Hok).
Qed.

Lemma inv_step_with y t dt fc fs :
  hs_inv_with y t -> round_ok y dt = true ->
  exists y' rs, round y dt fc fs = Ok (y', rs) /\ hs_inv_with y' t /\ sys_frame y y' dt.
Proof.
  intros H Hok. apply hs_inv_phase in H. destruct H as (St & p & Hp).
  destruct (round_sim y t p dt fc fs St Hp Hok) as (y' & rs & go & Hr & St' & Fr & _ & Hp' & _).
  exists y', rs. split; [exact Hr|]. split; [exact (in_phase_inv _ _ _ St' Hp') | exact Fr].
Qed.

Theorem handshake_inv_preserved y dt fc fs :
  hs_inv y -> round_ok y dt = true ->
  exists y' rs, round y dt fc fs = Ok (y', rs) /\ hs_inv y' /\ sys_frame y y' dt.
Proof.
  intros (t & H) Hok. destruct (inv_step_with y t dt fc fs H Hok) as (y' & rs & Hr & H' & Fr).
  exists y', rs. split; [exact Hr|]. split; [exists t; exact H' | exact Fr].
Qed.
Print Assumptions handshake_inv_preserved.

Theorem connected_preserved y dt fc fs :
  sys_connected y -> round_ok y dt = true ->
  exists y' rs, round y dt fc fs = Ok (y', rs) /\ sys_connected y' /\ sys_frame y y' dt /\
                count_connected rs = 0%nat /\ connected_count (sy_server y') = connected_count (sy_server y).
Proof.
  intros (t & St & P4) Hok.
  destruct (round_sim y t Conn dt fc fs St P4 Hok) as (y' & rs & go & Hr & St' & Fr & _ & P4' & Hcnt & Hcc & _).
  exists y', rs. split; [exact Hr|]. split; [exists t; exact (conj St' P4')|]. split; [exact Fr|].
  split; [exact Hcnt|]. rewrite Hcc. apply N.add_0_r.
Qed.

Lemma rank_zero_connected y : hs_inv y -> hs_rank y = 0%nat -> sys_connected y.
Proof.
  intros (t & H) Hr. apply hs_inv_phase in H. destruct H as (St & p & Hp). exists t. split; [exact St|].
  rewrite (in_phase_rank p y t Hp) in Hr. destruct p; try discriminate Hr. exact Hp.
Qed.

Lemma good_round_rank y dt :
  hs_inv y -> round_ok y dt = true -> SEND_RATE_NS <= dt ->
  exists y' rs, good_round y dt = Ok (y', rs) /\ hs_inv y' /\ sys_frame y y' dt /\
                (hs_rank y' <= hs_rank y - 1)%nat.
Proof.
  intros (t & H) Hok Hdt. apply hs_inv_phase in H. destruct H as (St & p & Hp). unfold good_round.
  destruct (round_sim y t p dt Once Once St Hp Hok) as (y' & rs & go & Hr & St' & Fr & Hgo & Hp' & _).
  rewrite (Hgo (or_introl Hdt)) in Hp'.
  exists y', rs. split; [exact Hr|]. split; [exists t; exact (in_phase_inv _ _ _ St' Hp')|].
  split; [exact Fr|]. rewrite (in_phase_rank _ _ _ Hp), (in_phase_rank _ _ _ Hp'). destruct p; cbn; lia.
Qed.

Lemma hs_rank_le2 y : (hs_rank y <= 2)%nat.
Proof. unfold hs_rank. destruct (cl_state (sy_client y)); lia. Qed.

Lemma run_rounds_cons y dt fc fs y1 rs l y2 rss :
  round y dt fc fs = Ok (y1, rs) -> run_rounds y1 l = Ok (y2, rss) ->
  run_rounds y ((dt, fc, fs) :: l) = Ok (y2, rs :: rss).
Proof. intros E1 E2. cbn [run_rounds]. rewrite E1. cbn [bind]. rewrite E2. reflexivity. Qed.

Lemma rounds_ok_cons y dt fc fs y1 rs l :
  round_ok y dt = true -> round y dt fc fs = Ok (y1, rs) -> rounds_ok y1 l = true ->
  rounds_ok y ((dt, fc, fs) :: l) = true.
Proof. intros Ho E Hl. cbn [rounds_ok]. rewrite Ho, E. exact Hl. Qed.

(* two good ticks from any state of the invariant connect both sides, at the address the client is talking to *)
Lemma two_good_rounds y dt1 dt2 :
  hs_inv y -> SEND_RATE_NS <= dt1 -> SEND_RATE_NS <= dt2 ->
  rounds_ok y [(dt1, Once, Once); (dt2, Once, Once)] = true ->
  exists y2 rs1 rs2,
    run_rounds y [(dt1, Once, Once); (dt2, Once, Once)] = Ok (y2, [rs1; rs2]) /\ sys_connected y2 /\
    cl_server_addr (sy_client y2) = cl_server_addr (sy_client y).
Proof.
  intros Hinv H1 H2 Hok. cbn [rounds_ok] in Hok. apply andb_true_iff in Hok. destruct Hok as [Ho1 Hok].
  destruct (good_round_rank y dt1 Hinv Ho1 H1) as (y1 & rs1 & Hr1 & Hinv1 & Fr1 & Hrk1).
  unfold good_round in Hr1. rewrite Hr1 in Hok. apply andb_true_iff in Hok. destruct Hok as [Ho2 _].
  destruct (good_round_rank y1 dt2 Hinv1 Ho2 H2) as (y2 & rs2 & Hr2 & Hinv2 & Fr2 & Hrk2).
  exists y2, rs1, rs2.
  split; [exact (run_rounds_cons _ _ _ _ _ _ _ _ _ Hr1 (run_rounds_cons _ _ _ _ _ _ [] _ _ Hr2 eq_refl))|].
  split.
  - apply rank_zero_connected; [exact Hinv2|]. pose proof (hs_rank_le2 y) as L. clear - L Hrk1 Hrk2. lia.
  - destruct (sys_frame_client _ _ _ Fr1) as (_ & _ & F1 & _). destruct (sys_frame_client _ _ _ Fr2) as (_ & _ & F2 & _).
    exact (eq_trans F2 F1).
Qed.

Theorem handshake_completes_after_loss y dt1 dt2 :
  hs_inv y -> SEND_RATE_NS <= dt1 -> SEND_RATE_NS <= dt2 ->
  rounds_ok y [(dt1, Once, Once); (dt2, Once, Once)] = true ->
  exists y2 rss, run_rounds y [(dt1, Once, Once); (dt2, Once, Once)] = Ok (y2, rss) /\ sys_connected y2.
Proof.
  intros Hinv H1 H2 Hok. destruct (two_good_rounds y dt1 dt2 Hinv H1 H2 Hok) as (y2 & rs1 & rs2 & Hr & Hc & _).
  exists y2, [rs1; rs2]. exact (conj Hr Hc).
Qed.
Print Assumptions handshake_completes_after_loss.

Lemma rounds_ok_app l1 : forall y l2,
  rounds_ok y (l1 ++ l2) = rounds_ok y l1 && match run_rounds y l1 with Ok (y1, _) => rounds_ok y1 l2 | _ => false end.
Proof.
  induction l1 as [|[[dt fc] fs] l1 IH]; intros y l2; cbn [app rounds_ok run_rounds].
  - destruct (rounds_ok y l2); reflexivity.
  - destruct (round_ok y dt); [|reflexivity]. cbn [andb].
    destruct (round y dt fc fs) as [[y1 rs]|e|site]; cbn [bind]; try reflexivity.
    rewrite IH. destruct (rounds_ok y1 l1); [|reflexivity]. cbn [andb].
    destruct (run_rounds y1 l1) as [[y2 rss]|e|site]; reflexivity.
Qed.

(* run_rounds is the run (Proofs/RunP.v) of the tick.  The closed examples use run_rounds_cons above, not the lemmas
   of RunP: to unify a closed run_rounds with run, Coq would evaluate it. *)
Definition round_step (y : nsys) (x : N * fate * fate) : nres (nsys * list sresult) :=
  let '(dt, fc, fs) := x in round y dt fc fs.

Lemma run_rounds_run l : forall y, run_rounds y l = run round_step y l.
Proof.
  induction l as [|[[dt fc] fs] l IH]; intros y; cbn [run_rounds run round_step]; [reflexivity|].
  destruct (round y dt fc fs) as [[y1 rs]|e|site]; cbn [bind]; [rewrite IH|..]; reflexivity.
Qed.

Lemma run_rounds_app l1 l2 y y1 rss1 y2 rss2 :
  run_rounds y l1 = Ok (y1, rss1) -> run_rounds y1 l2 = Ok (y2, rss2) ->
  run_rounds y (l1 ++ l2) = Ok (y2, rss1 ++ rss2).
Proof. rewrite !run_rounds_run. apply run_app_intro. Qed.

Theorem run_inv_preserved l : forall y,
  hs_inv y -> rounds_ok y l = true -> exists y' rss, run_rounds y l = Ok (y', rss) /\ hs_inv y'.
Proof.
  induction l as [|[[dt fc] fs] l IH]; intros y Hinv Hok; cbn [rounds_ok run_rounds] in *.
  - exists y, []. split; [reflexivity | exact Hinv].
  - apply andb_true_iff in Hok. destruct Hok as [Ho Hok].
    destruct (handshake_inv_preserved y dt fc fs Hinv Ho) as (y1 & rs & Hr & Hinv1 & _).
    rewrite Hr in *. cbn [bind]. destruct (IH y1 Hinv1 Hok) as (y2 & rss & Hrun & Hinv2).
    rewrite Hrun. cbn [bind]. exists y2, (rs :: rss). split; [reflexivity | exact Hinv2].
Qed.

(* whatever the network did before (loss, duplication), two good ticks connect both sides *)
Corollary handshake_eventually y l dt1 dt2 :
  hs_inv y -> SEND_RATE_NS <= dt1 -> SEND_RATE_NS <= dt2 ->
  rounds_ok y (l ++ [(dt1, Once, Once); (dt2, Once, Once)]) = true ->
  exists y' rss, run_rounds y (l ++ [(dt1, Once, Once); (dt2, Once, Once)]) = Ok (y', rss) /\ sys_connected y'.
Proof.
  intros Hinv H1 H2 Hok. rewrite rounds_ok_app in Hok. apply andb_true_iff in Hok. destruct Hok as [Hok1 Hok2].
  destruct (run_inv_preserved l y Hinv Hok1) as (y1 & rss1 & Hrun1 & Hinv1).
  rewrite Hrun1 in Hok2.
  destruct (handshake_completes_after_loss y1 dt1 dt2 Hinv1 H1 H2 Hok2) as (y2 & rss2 & Hrun2 & Hc).
  exists y2, (rss1 ++ rss2). split; [exact (run_rounds_app _ _ _ _ _ _ _ Hrun1 Hrun2) | exact Hc].
Qed.
Print Assumptions handshake_eventually.

(* the server's connected entry for the client id is the one of the invariant *)
Lemma inv_conn_by_id y t slot sc :
  hs_inv_with y t -> find_by_id (sy_server y) (cl_id (sy_client y)) = Some (slot, sc) -> nc_timeout sc = pt_timeout t.
Proof.
  destruct y as [c s a]. intros (St & Hph) E. cbn [sy_client sy_server] in E.
  rewrite (static_id _ _ _ _ St) in E. pose proof (static_table _ _ _ _ St) as T.
  assert (Hc : forall slot0 sc0, server_conn s a (cl_token c) t slot0 sc0 -> nc_timeout sc = pt_timeout t).
  { intros slot0 sc0 Hconn. rewrite (server_conn_id _ _ _ _ _ _ T Hconn) in E. injection E as _ <-. apply Hconn. }
  destruct Hph as [(_ & _ & (_ & Ei & _) & _)|[(_ & _ & (_ & Ei & _) & _)|[(_ & _ & _ & slot0 & sc0 & H)|(_ & slot0 & sc0 & H & _)]]];
    cbn [sy_client sy_server sy_addr] in *; try congruence; apply (Hc _ _ H).
Qed.

Lemma time_budget_split y t T :
  time_budget y t T <-> exp_ok y T /\ to_ok y T /\ ((pt_timeout t <= 0)%Z \/ T <= Z.to_N (pt_timeout t) * NS_PER_SEC).
Proof. unfold time_budget, exp_ok, to_ok. tauto. Qed.

Lemma exp_ok_le y dt T : exp_ok y T -> dt <= T -> exp_ok y dt.
Proof.
  unfold exp_ok, cl_expired, srv_expired. intros E Hle Hc. destruct (E Hc) as [B1 B2]. apply N.leb_gt in B1, B2.
  split; [refine (before_expiry _ _ _ _ B1) | refine (before_expiry _ _ _ _ B2)]; clear - Hle; lia.
Qed.

Lemma to_ok_le y dt T : to_ok y T -> dt <= T -> to_ok y dt.
Proof.
  unfold to_ok, cl_timed_out, srv_timed_out. intros [B1 B2] Hle. split.
  - revert B1. apply timed_out_mono; [apply N.le_refl | clear - Hle; lia].
  - destruct (find_by_id _ _) as [[slot sc]|]; [|reflexivity].
    revert B2. apply timed_out_mono; [apply N.le_refl | clear - Hle; lia].
Qed.

Lemma exp_ok_step y y' dt T : sys_frame y y' dt -> exp_ok y (dt + T) -> exp_ok y' T.
Proof.
  intros Fr E Hc'. destruct (sys_frame_client _ _ _ Fr) as (Ft & _ & _ & Fcs & Fnow & Fsn & _).
  destruct (E (sys_frame_connecting _ _ _ Fr Hc')) as [B1 B2]. unfold cl_expired, srv_expired in *.
  rewrite Ft, Fnow, Fcs, Fsn, <- !N.add_assoc. exact (conj B1 B2).
Qed.

(* T within the token's time-out covers a connection made in this tick: its entry carries that time-out *)
Lemma to_ok_step y y' t dt T :
  hs_inv_with y' t -> sys_frame y y' dt -> to_ok y (dt + T) ->
  (pt_timeout t <= 0)%Z \/ T <= Z.to_N (pt_timeout t) * NS_PER_SEC -> to_ok y' T.
Proof.
  destruct y as [c s a], y' as [c' s' a']. intros Hinv' Fr (Bto & Bsto) Bt.
  destruct (sys_frame_client _ _ _ Fr) as (Ft & Fi & _ & Fcs & Fnow & Fsn & Flr).
  destruct (sys_frame_entry _ _ _ _ _ _ _ Fr) as [_ Fsrv].
  cbn [sy_client sy_server sy_addr] in *. split; cbn [sy_client sy_server].
  - unfold cl_timed_out in *. rewrite Ft, Fnow. revert Bto. apply timed_out_mono; [exact Flr | clear; lia].
  - unfold srv_timed_out in *. rewrite Fi.
    destruct (find_by_id s' (cl_id c)) as [[slot' sc']|] eqn:E'; [|reflexivity].
    destruct (Fsrv slot' sc' eq_refl) as [(slot & sc & E & Hto & Hlr')|(E & Hlr')].
    + rewrite E in Bsto. rewrite Hto, Fsn. revert Bsto. apply timed_out_mono; [exact Hlr' | clear; lia].
    + rewrite (inv_conn_by_id (mk c' s' a') t slot' sc' Hinv'), Fsn by (cbn [sy_client sy_server]; rewrite Fi; exact E').
      apply not_timed_out. clear - Bt Hlr'. lia.
Qed.

Lemma to_ok_heard c s a dt :
  cl_last_recv c = cl_now c -> find_by_id s (cl_id c) = None ->
  (ct_timeout (cl_token c) <= 0)%Z \/ dt <= Z.to_N (ct_timeout (cl_token c)) * NS_PER_SEC -> to_ok (mk c s a) dt.
Proof.
  intros Hlr Ei Hto. unfold to_ok, cl_timed_out, srv_timed_out. cbn [sy_client sy_server]. rewrite Hlr, Ei.
  split; [apply not_timed_out; clear - Hto; lia | reflexivity].
Qed.

Lemma time_budget_le y t T T' : time_budget y t T -> T' <= T -> time_budget y t T'.
Proof.
  rewrite !time_budget_split. intros (E & To & Bt) Hle.
  split; [exact (exp_ok_le _ _ _ E Hle)|]. split; [exact (to_ok_le _ _ _ To Hle)|].
  clear - Bt Hle. destruct Bt as [Bt|Bt]; [left; exact Bt | right; lia].
Qed.

Lemma budget_round_ok y t dt T' n :
  time_budget y t (dt + T') -> seq_room y (1 + n) = true -> round_ok y dt = true.
Proof.
  intros Hb Hs. apply time_budget_split in Hb. destruct Hb as (E & To & _). apply round_ok_iff.
  split; [apply (exp_ok_le _ _ _ E); clear; lia|]. split; [apply (to_ok_le _ _ _ To); clear; lia|].
  apply (seq_room_le _ _ _ Hs). clear. lia.
Qed.

Lemma budget_step y t y' dt T' :
  hs_inv_with y' t -> sys_frame y y' dt -> time_budget y t (dt + T') -> time_budget y' t T'.
Proof.
  intros Hinv' Fr Hb. apply time_budget_split in Hb. destruct Hb as (E & To & Bt). apply time_budget_split.
  assert (Bt' : (pt_timeout t <= 0)%Z \/ T' <= Z.to_N (pt_timeout t) * NS_PER_SEC).
  { clear - Bt. destruct Bt as [Bt|Bt]; [left; exact Bt | right; lia]. }
  exact (conj (exp_ok_step _ _ _ _ Fr E) (conj (to_ok_step y y' t dt T' Hinv' Fr To Bt') Bt')).
Qed.

(* the closed side conditions imply the tick-by-tick ones, whatever the network does *)
Theorem budget_rounds_ok l : forall y t,
  hs_inv_with y t -> time_budget y t (total_time l) -> seq_room y (len l) = true -> rounds_ok y l = true.
Proof.
  induction l as [|[[dt fc] fs] l IH]; intros y t Hinv Hb Hs; cbn [rounds_ok]; [reflexivity|].
  rewrite len_cons in Hs.
  assert (Hb' : time_budget y t (dt + total_time l)) by exact Hb.
  pose proof (budget_round_ok y t dt (total_time l) (len l) Hb' Hs) as Hok.
  rewrite Hok. cbn [andb].
  destruct (inv_step_with y t dt fc fs Hinv Hok) as (y' & rs & Hr & Hinv' & Fr).
  rewrite Hr. apply (IH y' t Hinv').
  - apply (budget_step y t y' dt (total_time l) Hinv' Fr Hb').
  - apply (seq_room_step y y' dt (len l) Fr Hs).
Qed.
Print Assumptions budget_rounds_ok.

(* handshake_eventually with closed side conditions: any lossy run followed by two good ticks, all within the budget *)
Theorem handshake_eventually_closed y t l dt1 dt2 :
  hs_inv_with y t -> SEND_RATE_NS <= dt1 -> SEND_RATE_NS <= dt2 ->
  let run := l ++ [(dt1, Once, Once); (dt2, Once, Once)] in
  time_budget y t (total_time run) -> seq_room y (len run) = true ->
  exists y' rss, run_rounds y run = Ok (y', rss) /\ sys_connected y'.
Proof.
  intros Hinv H1 H2 run Hb Hs.
  apply (handshake_eventually y l dt1 dt2 (ex_intro _ t Hinv) H1 H2).
  apply (budget_rounds_ok run y t Hinv Hb Hs).
Qed.
Print Assumptions handshake_eventually_closed.

Lemma waiting_split c s a t :
  hs_waiting (mk c s a) t <->
  (srv_static s a (cl_token c) t /\ cl_id c = ct_client_id (cl_token c) /\ client_inv c) /\
  is_connecting c = true /\ cl_replay c = replay_new /\ slot_open s a t /\ pend_room s a (cl_token c) t.
Proof.
  unfold hs_waiting, srv_static, pend_room. cbn [sy_client sy_server sy_addr]. pose proof (client_wf_inv c). tauto.
Qed.

(* no dest_ok among the hypotheses: the client may be talking to an address that is not the server's *)
Lemma initial_waiting s tok a now t nowc c :
  table_inv s -> server_sizes s -> token_for_server_with s tok a now t -> nclient_new nowc tok = Ok c ->
  hs_waiting (mk c s a) t.
Proof.
  intros T Hsz (W & Wt & Hcons & Hv & Ei & Ea & Ep & Hen & Hc & Hff & Hpl) Hnew.
  destruct (validates_static s now tok t W Hv) as (Hpr & Hpd & Hh & Hnow).
  assert (L32 : length (ct_addrs tok) = 32%nat).
  { destruct W as (_ & _ & _ & _ & _ & _ & (addrs & -> & H1 & Hle & _) & _). exact (proj1 (padded_slots addrs H1 Hle)). }
  pose proof (client_inv_init nowc tok c L32 Hnew) as Hinv.
  unfold nclient_new in Hnew. destruct (ct_addrs tok) as [|[a0|] rest]; try discriminate. injection Hnew as <-.
  rewrite waiting_split. cbn [cl_token cl_id cl_replay].
  split; [split; [exact (conj W (conj Wt (conj Hcons (conj Hpr (conj Hpd (conj Hh (conj Hen (conj T Hsz))))))))|]; split; [reflexivity | exact Hinv]|].
  split; [reflexivity|]. split; [reflexivity|]. split; [exact (conj Ea (conj Ei (conj Hc Hff)))|].
  unfold pend_room. rewrite Ep. exact Hpl.
Qed.

Lemma initial_sys s tok a now t nowc c :
  table_inv s -> server_sizes s -> token_for_server_with s tok a now t ->
  nclient_new nowc tok = Ok c -> dest_ok s (cl_server_addr c) = true ->
  sys_static (mk c s a) t /\ ph_request (mk c s a) t /\ cl_last_send c = None /\ cl_token c = tok /\
  (forall T, ns_now s + T <= now -> as_secs T < ct_expire tok - ct_create tok -> exp_ok (mk c s a) T) /\
  (forall dt, (ct_timeout tok <= 0)%Z \/ dt <= Z.to_N (ct_timeout tok) * NS_PER_SEC -> to_ok (mk c s a) dt) /\
  (forall n, ns_global_seq s + 2 * n < U64 -> ns_chal_seq s + 2 * n < U64 -> n < U64 -> seq_room (mk c s a) n = true).
Proof.
  intros T Hsz Htok Hnew Hdest.
  destruct (proj1 (waiting_split _ _ _ _) (initial_waiting s tok a now t nowc c T Hsz Htok Hnew))
    as ((Ss & Hid & Hinv) & _ & Hrp & So & Hp).
  destruct Htok as (W & _ & _ & Hv & _). destruct (validates_static s now tok t W Hv) as (_ & _ & _ & Hnow).
  assert (St : sys_static (mk c s a) t) by (rewrite sys_static_split; exact (conj Ss (conj Hid (conj Hdest Hinv)))).
  pose proof (static_id _ _ _ _ St) as Hidt. pose proof So as (Ea & Ei & _).
  unfold nclient_new in Hnew. destruct (ct_addrs tok) as [|[a0|] rest]; try discriminate. injection Hnew as <-.
  split; [exact St|]. split; [exact (conj eq_refl (conj Hrp (conj So Hp)))|]. split; [reflexivity|].
  split; [reflexivity|]. split; [|split].
  - intros T' Hle Hexp _. unfold cl_expired, srv_expired. cbn [sy_client sy_server cl_token cl_now cl_connect_start].
    split; [apply (before_expiry _ T'); [clear; lia | exact Hexp] | exact (before_expiry _ _ _ Hle Hnow)].
  - intros dt Hto. apply to_ok_heard; [reflexivity | rewrite Hidt; exact Ei | exact Hto].
  - intros n Hg Hcs Hn. unfold seq_room, srv_conn_seq. cbn [sy_client sy_server sy_addr cl_seq]. rewrite Ea.
    clear - Hg Hcs Hn. lia.
Qed.

Theorem handshake_two_good_rounds s tok a t nowc c dt1 dt2 :
  table_inv s -> server_sizes s ->
  token_for_server_with s tok a (ns_now s + dt1 + dt2) t ->
  nclient_new nowc tok = Ok c -> dest_ok s (cl_server_addr c) = true ->
  as_secs (dt1 + dt2) < ct_expire tok - ct_create tok ->
  ((ct_timeout tok <= 0)%Z \/
   (dt1 <= Z.to_N (ct_timeout tok) * NS_PER_SEC /\ dt2 <= Z.to_N (ct_timeout tok) * NS_PER_SEC)) ->
  ns_global_seq s + 4 < U64 -> ns_chal_seq s + 4 < U64 ->
  exists y1 rs1 y2 rs2,
    good_round (mk c s a) dt1 = Ok (y1, rs1) /\ good_round y1 dt2 = Ok (y2, rs2) /\
    cl_state (sy_client y2) = CConnected /\
    (exists slot sc,
       find_by_id (sy_server y2) (ct_client_id tok) = Some (slot, sc) /\
       find_by_addr (sy_server y2) a = Some (slot, sc) /\
       nc_user sc = pt_user t /\ cl_client_index (sy_client y2) = slot) /\
    user_data (sy_server y2) (ct_client_id tok) = Some (pt_user t) /\
    count_connected rs1 = 0%nat /\ count_connected rs2 = 1%nat /\
    connected_count (sy_server y2) = connected_count s + 1 /\
    sys_connected y2.
Proof.
  intros T Hsz Htok Hnew Hdest Hexp Htmo Hg Hcs.
  assert (Hcid : ct_client_id tok = pt_client_id t) by (destruct Htok as (_ & _ & (H & _) & _); exact H).
  destruct (initial_sys s tok a _ t nowc c T Hsz Htok Hnew Hdest) as (St0 & P1 & Hls0 & Etok & E0 & To0 & Sq0).
  specialize (E0 (dt1 + dt2)). rewrite N.add_assoc in E0. specialize (E0 (N.le_refl _) Hexp).
  pose proof (static_id _ _ _ _ St0) as Hidt. clear Htok Hnew.
  assert (Hs : seq_room (mk c s a) (1 + 1) = true) by (apply Sq0; [clear - Hg; lia | clear - Hcs; lia | reflexivity]).
  (* first tick: the request goes out at once, the challenge comes back *)
  assert (Ho1 : round_ok (mk c s a) dt1 = true).
  { apply round_ok_iff. split; [apply (exp_ok_le _ _ _ E0); clear; lia|]. split; [apply To0; clear - Htmo; lia|].
    apply (seq_room_le _ _ _ Hs). discriminate. }
  destruct (round_sim _ t Req dt1 Once Once St0 P1 Ho1)
    as ([c1 s1 a1] & rs1 & go1 & Hr1 & St1 & Fr1 & Hgo1 & P2 & Hcnt1 & Hcc1 & Hfresh1).
  specialize (Hgo1 (or_intror Hls0)). subst go1. destruct (Hfresh1 eq_refl eq_refl) as (Hls1 & Hlr1).
  change (ph_response (mk c1 s1 a1) t) in P2. change (connected_count s1 = connected_count s + 0) in Hcc1.
  assert (a1 = a) by exact (proj1 Fr1). subst a1.
  destruct (sys_frame_client _ _ _ Fr1) as (Ft & Fi & _ & _ & Fnow & _).
  cbn [sy_client sy_server] in Ft, Fi, Fnow, Hls1, Hlr1.
  pose proof P2 as (_ & _ & (_ & Ei1 & _) & _). cbn [sy_server] in Ei1.
  (* second tick: the client has just heard from the server, the response goes out at once *)
  assert (Ho2 : round_ok (mk c1 s1 a) dt2 = true).
  { apply round_ok_iff. split; [exact (exp_ok_step _ _ _ _ Fr1 E0)|].
    split; [|exact (proj2 (seq_room_step _ _ dt1 1 Fr1 Hs))].
    apply to_ok_heard; [congruence | rewrite Fi, Hidt; exact Ei1 | rewrite Ft, Etok; clear - Htmo; lia]. }
  destruct (round_sim _ t Resp dt2 Once Once St1 P2 Ho2)
    as ([c2 s2 a2] & rs2 & go2 & Hr2 & St2 & Fr2 & Hgo2 & P4 & Hcnt2 & Hcc2 & _).
  specialize (Hgo2 (or_intror Hls1)). subst go2.
  change (ph_connected (mk c2 s2 a2) t) in P4. change (connected_count s2 = connected_count s1 + 1) in Hcc2.
  assert (a2 = a) by exact (proj1 Fr2). subst a2.
  exists (mk c1 s1 a), rs1, (mk c2 s2 a), rs2. unfold good_round.
  split; [exact Hr1|]. split; [exact Hr2|]. cbn [sy_client sy_server].
  pose proof P4 as (S2 & slot & sc & Hconn2 & Hidx). cbn [sy_client sy_server sy_addr] in S2, Hconn2, Hidx.
  pose proof (server_conn_id _ _ _ _ _ _ (static_table _ _ _ _ St2) Hconn2) as Ei2. rewrite <- Hcid in Ei2.
  destruct Hconn2 as (Ea2 & (_ & Hu2 & _) & _).
  split; [exact S2|].
  split; [exists slot, sc; auto|].
  split; [unfold user_data; rewrite Ei2; cbn [option_map snd]; rewrite Hu2; reflexivity|].
  split; [exact Hcnt1|]. split; [exact Hcnt2|].
  split; [rewrite Hcc2, Hcc1, N.add_0_r; reflexivity|].
  exists t. split; [exact St2 | exact P4].
Qed.
Print Assumptions handshake_two_good_rounds.

(* from the very beginning: a new client, a server that accepts its token until the end of
   the run; the network may lose and duplicate whatever it likes in the ticks of l *)
Theorem handshake_liveness s tok a t nowc c l dt1 dt2 :
  let run := l ++ [(dt1, Once, Once); (dt2, Once, Once)] in
  let T := total_time run in
  table_inv s -> server_sizes s ->
  token_for_server_with s tok a (ns_now s + T) t ->
  nclient_new nowc tok = Ok c -> dest_ok s (cl_server_addr c) = true ->
  SEND_RATE_NS <= dt1 -> SEND_RATE_NS <= dt2 ->
  as_secs T < ct_expire tok - ct_create tok ->
  ((ct_timeout tok <= 0)%Z \/ T <= Z.to_N (ct_timeout tok) * NS_PER_SEC) ->
  ((pt_timeout t <= 0)%Z \/ T <= Z.to_N (pt_timeout t) * NS_PER_SEC) ->
  ns_global_seq s + 2 * len run < U64 -> ns_chal_seq s + 2 * len run < U64 -> len run < U64 ->
  exists y' rss, run_rounds (mk c s a) run = Ok (y', rss) /\ sys_connected y'.
Proof.
  intros run T Tinv Hsz Htok Hnew Hdest H1 H2 Hexp Hct Hpt Hg Hcs Hlen.
  destruct (initial_sys s tok a _ t nowc c Tinv Hsz Htok Hnew Hdest) as (St0 & P1 & _ & _ & E0 & To0 & Sq0).
  apply (handshake_eventually_closed (mk c s a) t l dt1 dt2 (conj St0 (or_introl P1)) H1 H2).
  - apply time_budget_split. exact (conj (E0 T (N.le_refl _) Hexp) (conj (To0 T Hct) Hpt)).
  - exact (Sq0 _ Hg Hcs Hlen).
Qed.
Print Assumptions handshake_liveness.

(* The tick read literally keeps phase (3): without update_client the server has nothing to send, and it
   ignores the response that the client repeats. *)
Lemma round_lit_accepted c s a t dt fc fs :
  sys_static (mk c s a) t -> ph_accepted (mk c s a) t -> round_ok (mk c s a) dt = true ->
  exists c' s' rs,
    round_lit (mk c s a) dt fc fs = Ok (mk c' s' a, rs) /\
    sys_static (mk c' s' a) t /\ ph_accepted (mk c' s' a) t /\ sys_frame (mk c s a) (mk c' s' a) dt.
Proof.
  intros St Ph Hok.
  pose proof Ph as (S & _ & _ & slot & sc & Hconn0). cbn [sy_client sy_server sy_addr] in S, Hconn0.
  pose proof (proj1 (sys_static_split _ _ _ _) St) as (Ss & _ & Hdest & Hinv).
  apply round_ok_iff in Hok. destruct Hok as (Hconn & (Hto & _) & _).
  assert (Hc : is_connecting c = true) by (unfold is_connecting; rewrite S; reflexivity).
  destruct (live_update c dt Hinv (or_introl Hc) (fun H => proj1 (Hconn H)) Hto (fun E => ltac:(congruence)))
    as (p & d & Hcp & Henc & _ & Hcu).
  set (sent := send_due (cl_tick c dt)) in Hcu.
  pose proof (tick_frame_ticked c dt sent) as Tf. pose proof (client_inv_ticked c dt sent Hinv) as Hinv1.
  set (c1 := cl_ticked c dt sent) in *.
  destruct (handed_feed (nserver_update s dt) a fc sent d _ Hdest) as (n & Hh & _).
  (* the server has nothing to send: the client stays as its tick left it *)
  destruct (connected_tick_end c s a t Acc dt fs slot sc c1 _ sc [] p d n St Hconn0 (or_introl eq_refl) Ph Tf Hinv1
              (srv_ticked_update s a _ t slot sc dt Ss Hconn0) (Forall_nil _) Hcp Henc)
    as (s3 & c2 & Hf & Ec2 & St2 & Fr & Hph & _).
  rewrite Hf in Hh. cbn [app] in Ec2. rewrite flat_map_repeat_none in Ec2. change (c2 = c1) in Ec2. subst c2.
  exists c1, s3, (repeat SRNone n).
  split; [rewrite (round_lit_stages c s a dt fc fs _ _ _ _ Hcu Hh), flat_map_repeat_none; reflexivity|].
  split; [exact St2|]. split; [exact (Hph true) | exact Fr].
Qed.

(* ... tick after tick, for as long as the time budget lasts *)
Theorem run_lit_accepted l : forall y t,
  sys_static y t -> ph_accepted y t -> time_budget y t (total_time l) -> seq_room y (len l) = true ->
  exists y' rss, run_rounds_lit y l = Ok (y', rss) /\ sys_static y' t /\ ph_accepted y' t.
Proof.
  induction l as [|[[dt fc] fs] l IH]; intros y t St Ph Hb Hs; cbn [run_rounds_lit].
  - exists y, []. split; [reflexivity|]. split; assumption.
  - rewrite len_cons in Hs.
    pose proof (budget_round_ok y t dt (total_time l) (len l) Hb Hs) as Hok.
    destruct y as [c s a].
    destruct (round_lit_accepted c s a t dt fc fs St Ph Hok) as (c' & s' & rs & Hr & St' & Ph' & Fr).
    rewrite Hr. cbn [bind].
    destruct (IH (mk c' s' a) t St' Ph') as (y2 & rss & Hrun & H2).
    + apply (budget_step _ t _ dt (total_time l) (conj St' (or_intror (or_intror (or_introl Ph')))) Fr Hb).
    + apply (seq_room_step _ _ dt (len l) Fr Hs).
    + rewrite Hrun. cbn [bind]. exists y2, (rs :: rss). split; [reflexivity | exact H2].
Qed.

Lemma accepted_is_connected y t :
  sys_static y t -> ph_accepted y t -> is_client_connected (sy_server y) (pt_client_id t) = true.
Proof.
  destruct y as [c s a]. intros St (_ & _ & _ & slot & sc & Hconn). cbn [sy_client sy_server sy_addr] in *.
  unfold is_client_connected. rewrite (server_conn_id _ _ _ _ _ _ (static_table _ _ _ _ St) Hconn). reflexivity.
Qed.

Lemma inv_waiting y t : hs_inv_with y t -> ph_request y t \/ ph_response y t -> hs_waiting y t.
Proof.
  destruct y as [c s a]. intros (St & _) Hph. rewrite sys_static_split in St. destruct St as (Ss & Hid & _ & Hinv).
  rewrite waiting_split. split; [exact (conj Ss (conj Hid Hinv))|].
  destruct Hph as [(S & Hrp & So & Hp)|(S & Hrp & So & pc & Epc & Hok & _)]; cbn [sy_client sy_server sy_addr] in *;
    unfold is_connecting; rewrite S; (split; [reflexivity|]); (split; [exact Hrp|]); (split; [exact So|]).
  - exact Hp.
  - exact (pend_room_found _ _ _ _ _ Epc Hok).
Qed.

Theorem failover_round y t dt fc fs a2 :
  hs_waiting y t ->
  cl_timed_out (sy_client y) dt = true -> cl_expired (sy_client y) dt = false ->
  srv_expired (sy_server y) (cl_token (sy_client y)) dt = false ->
  next_server (sy_client y) = Some a2 -> dest_ok (sy_server y) a2 = true ->
  seq_room y 1 = true ->
  exists y' rs,
    round y dt fc fs = Ok (y', rs) /\ hs_inv_with y' t /\
    (ph_request y' t \/ ph_response y' t) /\
    cl_server_addr (sy_client y') = a2 /\
    cl_addr_index (sy_client y') = cl_addr_index (sy_client y) + 1 /\
    cl_connect_start (sy_client y') = cl_now (sy_client y) + dt /\
    cl_now (sy_client y') = cl_now (sy_client y) + dt /\
    cl_now (sy_client y) + dt <= cl_last_recv (sy_client y') /\
    ns_now (sy_server y') = ns_now (sy_server y) + dt.
Proof.
  destruct y as [c s a]. cbn [sy_client sy_server]. intros Hw Hto Hex Hsex Hnx Hdest2 Hroom.
  rewrite waiting_split in Hw. destruct Hw as ((Ss & Hid & Hinv) & Hc & Hrp & So & Hp).
  assert (Hidt : cl_id c = pt_client_id t) by (destruct Ss as (_ & _ & (Hi & _) & _); congruence).
  assert (Hsz : token_sizes_ok (cl_token c)) by (apply token_wf_sizes; apply Ss).
  destruct (seq_room_one _ _ _ Hroom) as (_ & Hgs & Hcs & _). clear Hroom.
  destruct (srv_tick_open s a (cl_token c) t dt Ss So Hp Hsex) as (Huc & Ss1 & _ & Hp1 & Hnow1).
  rewrite <- Hidt in Huc.
  set (s1 := nserver_update s dt) in *.
  assert (Hnth : nth_opt (ct_addrs (cl_token c)) (N.to_nat (cl_addr_index c + 1)) = Some (Some a2)).
  { unfold next_server in Hnx. destruct (nth_opt _ _) as [[x|]|]; try discriminate. congruence. }
  pose proof (client_failover_eq c dt a2 Hinv Hc Hex Hto Hnth Hsz) as Hcu.
  set (c1 := cl_over c dt a2) in *.
  assert (Hinv1 : client_inv c1) by (apply (client_inv_step_update c dt c1 _ Hinv Hcu)).
  clear Hto Hex Hsex.
  destruct (feed_requests a (cl_token c) t (copies fc) s1 Ss1 So Hp1 Hnow1)
    as (s3 & rs & Hf & Ss3 & So3 & Hp3 & Hds & _ & _ & _ & _ & M3).
  { pose proof (copies_le2 fc) as Hfc. clear - Hfc Hcs. change (ns_chal_seq s1) with (ns_chal_seq s). lia. }
  { pose proof (copies_le2 fc) as Hfc. clear - Hfc Hgs. change (ns_global_seq s1) with (ns_global_seq s). lia. }
  pose proof M3 as (_ & _ & Hn3 & Sm3).
  assert (St13 : sys_static (mk c1 s3 a) t).
  { rewrite sys_static_split. split; [exact Ss3|]. split; [exact Hid|].
    split; [exact (dest_ok_same s1 s3 _ Sm3 Hdest2) | exact Hinv1]. }
  assert (P0 : req_or_resp s3 a t c1 c1).
  { split; [exact St13|]. split; [apply cl_frame_refl|]. left. split; [|reflexivity].
    exact (conj eq_refl (conj Hrp (conj So3 Hp3))). }
  destruct (deliver_all_reach (req_or_resp s3 a t c1) (got_challenge s3 a t c1) (chal_dgram_ok s3 a t) (copies fs)
              (recv_challenge_step s3 a t c1) (flat_map (reply_to a) rs) c1 P0 Hds) as [(St2 & Fr2 & Hph2) _].
  set (c2 := deliver_all (copies fs) c1 (flat_map (reply_to a) rs)) in *.
  exists (mk c2 s3 a), (SRNone :: rs).
  split.
  { apply (round_stages c s a dt fc fs _ _ _ _ _ _ Huc Hcu). cbn [handed].
    change (dest_ok s1 a2) with (dest_ok s a2). rewrite Hdest2. exact Hf. }
  assert (Hph : ph_request (mk c2 s3 a) t \/ ph_response (mk c2 s3 a) t).
  { destruct Hph2 as [[Hr _]|(Hr & _)]; [left | right]; exact Hr. }
  split; [split; [exact St2|]; destruct Hph as [H|H]; [left; exact H | right; left; exact H]|].
  split; [exact Hph|].
  destruct Fr2 as (_ & _ & Fa & Fi & Fcs & Fnow & _ & Flr). cbn [sy_client sy_server].
  split; [rewrite Fa; reflexivity|]. split; [rewrite Fi; reflexivity|]. split; [rewrite Fcs; reflexivity|].
  split; [rewrite Fnow; reflexivity|]. split; [exact Flr|]. rewrite Hn3. reflexivity.
Qed.
Print Assumptions failover_round.

(* while the client talks to an address that is not the server's (or while the network loses every
   datagram), nothing happens on the server but its clock *)
Theorem waiting_round y t dt fc fs :
  hs_waiting y t ->
  dest_ok (sy_server y) (cl_server_addr (sy_client y)) = false \/ fc = Lost ->
  cl_timed_out (sy_client y) dt = false -> cl_expired (sy_client y) dt = false ->
  srv_expired (sy_server y) (cl_token (sy_client y)) dt = false ->
  exists y',
    round y dt fc fs = Ok (y', [SRNone]) /\ hs_waiting y' t /\
    sy_server y' = nserver_update (sy_server y) dt /\ tick_frame (sy_client y) (sy_client y') dt /\
    cl_last_send (sy_client y') <> None.
Proof.
  destruct y as [c s a]. cbn [sy_client sy_server]. intros Hw Hlost Hto Hex Hsex.
  rewrite waiting_split in Hw. destruct Hw as ((Ss & Hid & Hinv) & Hc & Hrp & So & Hp).
  assert (Hidt : cl_id c = pt_client_id t) by (destruct Ss as (_ & _ & (Hi & _) & _); congruence).
  assert (Hsz : token_sizes_ok (cl_token c)) by (apply token_wf_sizes; apply Ss).
  destruct (srv_tick_open s a (cl_token c) t dt Ss So Hp Hsex) as (Huc & Ss1 & _ & Hp1 & _).
  set (s1 := nserver_update s dt) in *.
  assert (Hres : forall c1, tick_frame c c1 dt -> client_inv c1 -> hs_waiting (mk c1 s1 a) t).
  { intros c1 (T1 & T2 & _ & _ & _ & _ & _ & _ & T9 & T10 & _) I1. rewrite waiting_split. rewrite T1, T2, T10.
    unfold is_connecting in *. rewrite T9. auto. }
  destruct (live_update c dt Hinv (or_introl Hc) (fun _ => Hex) Hto (fun _ => Hsz)) as (p & d & _ & _ & _ & Hcu).
  exists (mk (cl_ticked c dt (send_due (cl_tick c dt))) s1 a).
  split.
  { rewrite <- Hidt in Huc. apply (round_stages c s a dt fc fs s1 SRNone _ _ s1 [] Huc Hcu).
    destruct (send_due (cl_tick c dt)); [|reflexivity]. cbn [handed].
    change (dest_ok s1 (cl_server_addr c)) with (dest_ok s (cl_server_addr c)).
    destruct Hlost as [-> | ->]; [reflexivity|]. destruct (dest_ok s (cl_server_addr c)); reflexivity. }
  split; [exact (Hres _ (tick_frame_ticked c dt _) (client_inv_ticked c dt _ Hinv))|]. split; [reflexivity|].
  split; [apply tick_frame_ticked | apply ticked_has_sent].
Qed.
Print Assumptions waiting_round.

Lemma waiting_round_at y t dt fc fs y1 rs :
  hs_waiting y t ->
  dest_ok (sy_server y) (cl_server_addr (sy_client y)) = false \/ fc = Lost ->
  cl_timed_out (sy_client y) dt = false -> cl_expired (sy_client y) dt = false ->
  srv_expired (sy_server y) (cl_token (sy_client y)) dt = false ->
  round y dt fc fs = Ok (y1, rs) -> hs_waiting y1 t.
Proof.
  intros W D A1 A2 A3 E. destruct (waiting_round y t dt fc fs W D A1 A2 A3) as (y' & R & W' & _).
  rewrite E in R. injection R as <- _. exact W'.
Qed.

(* the time-out fires on a waiting client, the token lists a next address and that address is the
   server's: the client restarts there and two good ticks later both sides are connected *)
Theorem failover_then_connects y t dt fc fs a2 dt1 dt2 :
  hs_waiting y t ->
  cl_timed_out (sy_client y) dt = true -> cl_expired (sy_client y) dt = false ->
  srv_expired (sy_server y) (cl_token (sy_client y)) dt = false ->
  next_server (sy_client y) = Some a2 -> dest_ok (sy_server y) a2 = true ->
  seq_room y 1 = true ->
  SEND_RATE_NS <= dt1 -> SEND_RATE_NS <= dt2 ->
  (* the side conditions of handshake_completes_after_loss for the two good ticks, on the state the fail-over tick leads to *)
  match round y dt fc fs with
  | Ok (y1, _) => rounds_ok y1 [(dt1, Once, Once); (dt2, Once, Once)] = true
  | _ => False
  end ->
  exists y' rss,
    run_rounds y [(dt, fc, fs); (dt1, Once, Once); (dt2, Once, Once)] = Ok (y', rss) /\ sys_connected y' /\
    cl_server_addr (sy_client y') = a2.
Proof.
  intros Hw Hto Hex Hsex Hnx Hd Hroom H1 H2 Hok.
  destruct (failover_round y t dt fc fs a2 Hw Hto Hex Hsex Hnx Hd Hroom) as (y1 & rs & Hr & Hinv1 & _ & Ha2 & _).
  rewrite Hr in Hok.
  destruct (two_good_rounds y1 dt1 dt2 (ex_intro _ _ Hinv1) H1 H2 Hok) as (y3 & rs1 & rs2 & Hrun & Hc & Ha).
  exists y3, [rs; rs1; rs2]. split; [exact (run_rounds_cons _ _ _ _ _ _ _ _ _ Hr Hrun)|].
  split; [exact Hc | exact (eq_trans Ha Ha2)].
Qed.
Print Assumptions failover_then_connects.

Definition nv_user : list N := repeatN 1 256.
Definition nv_c2s : list N := repeatN 17 32.
Definition nv_s2c : list N := repeatN 34 32.
Definition nv_xnonce : list N := repeatN 9 24.

Definition nv_private : private_token :=
  {| pt_client_id := 9; pt_timeout := 15%Z; pt_addrs := pad_slots (map Some [NServerP.ex_addr]);
     pt_c2s := nv_c2s; pt_s2c := nv_s2c; pt_user := nv_user |}.

(* ConnectToken::generate with the server's connect key: protocol 42, valid for 300 s, time-out 15 s *)
Definition nv_generated : nres connect_token :=
  token_generate 0 42 300 9 15%Z [NServerP.ex_addr] nv_user NServerP.ex_key nv_xnonce nv_c2s nv_s2c.

Definition nv_token : connect_token :=
  match nv_generated with
  | Ok t => t
  | _ => {| ct_client_id := 0; ct_version := []; ct_protocol := 0; ct_create := 0; ct_expire := 0; ct_xnonce := [];
            ct_addrs := []; ct_c2s := []; ct_s2c := []; ct_private := []; ct_timeout := 0%Z |}
  end.

(* nv_token and nv_client are stated through the calls that make them; nv_tok and nv_cl are the same values
   written out, and the examples below rewrite to them before they read a field (a tactic that unfolds nv_token
   or nv_client runs the cipher again) *)
Definition nv_tok : connect_token := ltac:(evaluated nv_generated).
Lemma nv_generated_eq : nv_generated = Ok nv_tok.
Proof. evaluates. Qed.
Lemma nv_token_eq : nv_token = nv_tok.
Proof. unfold nv_token. rewrite nv_generated_eq. reflexivity. Qed.

Definition nv_client : nclient :=
  match nclient_new 0 nv_token with
  | Ok c => c
  | _ => {| cl_state := CDisconnected CRDenied; cl_id := 0; cl_connect_start := 0; cl_last_send := None; cl_last_recv := 0;
            cl_now := 0; cl_seq := 0; cl_server_addr := NServerP.ex_addr; cl_addr_index := 0; cl_token := nv_token;
            cl_chal_seq := 0; cl_chal_data := []; cl_max_clients := 0; cl_client_index := 0; cl_replay := replay_new |}
  end.

Definition nv_cl : nclient := ltac:(evaluated (nclient_new 0 nv_tok)).
Lemma nv_client_eq : nv_client = nv_cl.
Proof. unfold nv_client. rewrite nv_token_eq. reflexivity. Qed.

Lemma nv_client_new : nclient_new 0 nv_token = Ok nv_client.
Proof. rewrite nv_client_eq, nv_token_eq. reflexivity. Qed.

(* the server of NAuthP.sc_server: nserver_new 0 2 42 [127.0.0.1:5000] (Some key) chal_key *)
Definition nv_sys : nsys := mk nv_client sc_server NServerP.ex_peer.

Lemma nv_sys_eq : nv_sys = mk nv_cl sc_server NServerP.ex_peer.
Proof. unfold nv_sys. rewrite nv_client_eq. reflexivity. Qed.

Lemma sc_server_sizes : server_sizes sc_server.
Proof. split; vm_compute; discriminate. Qed.

Lemma sc_server_open mac :
  find_by_id sc_server 9 = None /\ find_by_addr sc_server NServerP.ex_peer = None /\
  pend_find NServerP.ex_peer (ns_pending sc_server) = None /\ entry_free_or_bound sc_server NServerP.ex_peer mac /\
  connected_count sc_server < ns_max sc_server /\ first_free (ns_clients sc_server) 0 <> None /\
  len (ns_pending sc_server) < NC_MAX_CLIENTS * NC_MAX_PENDING_FACTOR.
Proof.
  split; [reflexivity|]. split; [reflexivity|]. split; [reflexivity|].
  split; [unfold entry_free_or_bound; cbn [sc_server ns_entries]; rewrite last_match_repeat_none; exact I|].
  split; [reflexivity|]. split; [discriminate | reflexivity].
Qed.

(* token_for_server_with is satisfiable: a token generated at time 0 for 300 s and client 9 under the server's
   connect key, the new server, any time before the expiry *)
Lemma sc_token_for_server now timeout addrs tok :
  token_generate 0 42 300 9 timeout addrs nv_user NServerP.ex_key nv_xnonce nv_c2s nv_s2c = Ok tok ->
  (-2147483648 <= timeout < 2147483648)%Z -> Forall addr_wf addrs -> as_secs now < 300 ->
  let t := {| pt_client_id := 9; pt_timeout := timeout; pt_addrs := pad_slots (map Some addrs);
              pt_c2s := nv_c2s; pt_s2c := nv_s2c; pt_user := nv_user |} in
  in_host_list sc_server t = true -> token_for_server_with sc_server tok NServerP.ex_peer now t.
Proof.
  intros G Hto F Hnow t Hh.
  destruct (generated_validates sc_server now 0 300 9 timeout addrs nv_user nv_xnonce nv_c2s nv_s2c tok G) as (W & Wt & Hc & Hv);
    [reflexivity | reflexivity | reflexivity | exact Hto | exact F | reflexivity | reflexivity | reflexivity | reflexivity
     | exact Hnow | intros _; exact Hh |].
  exact (conj W (conj Wt (conj Hc (conj Hv (sc_server_open _))))).
Qed.

Example nv_token_for_server_at now :
  as_secs now < 300 -> token_for_server_with sc_server nv_token NServerP.ex_peer now nv_private.
Proof.
  intros Hnow. rewrite nv_token_eq. apply (sc_token_for_server now 15%Z [NServerP.ex_addr] nv_tok nv_generated_eq); [lia | | exact Hnow | reflexivity].
  repeat constructor; apply bytes_ok_dec_true; reflexivity.
Qed.

Example nv_token_for_server : token_for_server_with sc_server nv_token NServerP.ex_peer 0 nv_private.
Proof. apply nv_token_for_server_at. reflexivity. Qed.

Lemma nv_sys_request : sys_static nv_sys nv_private /\ ph_request nv_sys nv_private.
Proof.
  destruct (initial_sys sc_server nv_token NServerP.ex_peer 0 nv_private 0 nv_client
              sc_server_inv sc_server_sizes nv_token_for_server nv_client_new) as (St & P1 & _).
  { rewrite nv_client_eq. reflexivity. }
  exact (conj St P1).
Qed.

Lemma nv_hs_inv_with : hs_inv_with nv_sys nv_private.
Proof. exact (in_phase_inv Req _ _ (proj1 nv_sys_request) (proj2 nv_sys_request)). Qed.

Example nv_hs_inv : hs_inv nv_sys.
Proof. exists nv_private. exact nv_hs_inv_with. Qed.

(* 300 ms ticks: the first request is lost, the second arrives twice (two challenges come back, the
   client takes the first), then two good ticks *)
Definition nv_dt : N := 300000000.
Definition nv_run : list (N * fate * fate) :=
  [(nv_dt, Lost, Once); (nv_dt, Twice, Once); (nv_dt, Once, Once); (nv_dt, Once, Once)].

Lemma nv_sys_ok : round_ok nv_sys nv_dt = true.
Proof. rewrite nv_sys_eq. vm_compute. reflexivity. Qed.

(* the ticks of nv_run, each evaluated once: the state reached and the server's results *)
Definition nv_a1 : nsys * list sresult := ltac:(evaluated (round (mk nv_cl sc_server NServerP.ex_peer) nv_dt Lost Once)).
Lemma nv_a1_eq : round nv_sys nv_dt Lost Once = Ok (fst nv_a1, snd nv_a1).
Proof. rewrite nv_sys_eq. evaluates. Qed.

Definition nv_a2 : nsys * list sresult := ltac:(evaluated (round (fst nv_a1) nv_dt Twice Once)).
Lemma nv_a2_eq : round (fst nv_a1) nv_dt Twice Once = Ok (fst nv_a2, snd nv_a2).
Proof. evaluates. Qed.

Definition nv_a3 : nsys * list sresult := ltac:(evaluated (round (fst nv_a2) nv_dt Once Once)).
Lemma nv_a3_eq : round (fst nv_a2) nv_dt Once Once = Ok (fst nv_a3, snd nv_a3).
Proof. evaluates. Qed.

Definition nv_a4 : nsys * list sresult := ltac:(evaluated (round (fst nv_a3) nv_dt Once Once)).
Lemma nv_a4_eq : round (fst nv_a3) nv_dt Once Once = Ok (fst nv_a4, snd nv_a4).
Proof. evaluates. Qed.

Lemma nv_run_eq : run_rounds nv_sys nv_run = Ok (fst nv_a4, [snd nv_a1; snd nv_a2; snd nv_a3; snd nv_a4]).
Proof.
  apply (run_rounds_cons _ _ _ _ _ _ _ _ _ nv_a1_eq), (run_rounds_cons _ _ _ _ _ _ _ _ _ nv_a2_eq),
    (run_rounds_cons _ _ _ _ _ _ _ _ _ nv_a3_eq), (run_rounds_cons _ _ _ _ _ _ _ _ _ nv_a4_eq).
  reflexivity.
Qed.

(* the side conditions of run_inv_preserved and handshake_eventually hold along this run *)
Example nv_rounds_ok : rounds_ok nv_sys nv_run = true.
Proof.
  apply (rounds_ok_cons _ _ _ _ _ _ _ nv_sys_ok nv_a1_eq).
  apply (rounds_ok_cons _ _ _ _ _ _ _) with (2 := nv_a2_eq); [vm_compute; reflexivity|].
  apply (rounds_ok_cons _ _ _ _ _ _ _) with (2 := nv_a3_eq); [vm_compute; reflexivity|].
  apply (rounds_ok_cons _ _ _ _ _ _ _) with (2 := nv_a4_eq); [vm_compute; reflexivity|].
  reflexivity.
Qed.

Example nv_run_connects :
  match run_rounds nv_sys nv_run with
  | Ok (y, rss) =>
      cl_state (sy_client y) = CConnected /\ cl_client_index (sy_client y) = 0 /\
      is_client_connected (sy_server y) 9 = true /\
      user_data (sy_server y) 9 = Some (repeatN 1 256) /\
      client_addr (sy_server y) 9 = Some (AddrV4 [10; 0; 0; 1] 4000) /\
      connected_count (sy_server y) = 1 /\
      map count_connected rss = [0; 0; 1; 0]%nat /\
      map (@length sresult) rss = [1; 3; 2; 2]%nat
  | _ => False
  end.
Proof. rewrite nv_run_eq. vm_compute. repeat split. Qed.

Print Assumptions nv_token_for_server.
Print Assumptions nv_hs_inv.
Print Assumptions nv_run_connects.

(* the theorems apply to this system: handshake_eventually from its initial state, its side conditions from the budget *)
Example nv_by_theorem :
  exists y rss, run_rounds nv_sys ([(nv_dt, Lost, Once); (nv_dt, Twice, Lost)] ++ [(nv_dt, Once, Once); (nv_dt, Once, Once)]) = Ok (y, rss) /\
                sys_connected y.
Proof.
  apply handshake_eventually; [exact nv_hs_inv | vm_compute; discriminate | vm_compute; discriminate |].
  apply (budget_rounds_ok _ nv_sys nv_private nv_hs_inv_with); rewrite nv_sys_eq.
  - split; [intros _; split; vm_compute; reflexivity|]. split; [vm_compute; reflexivity|].
    split; [vm_compute; reflexivity|]. right. vm_compute. discriminate.
  - vm_compute. reflexivity.
Qed.

(* the hypotheses of handshake_two_good_rounds and of handshake_liveness are satisfiable: both apply to this system *)
Example nv_t1_applies :
  exists y1 rs1 y2 rs2,
    good_round nv_sys nv_dt = Ok (y1, rs1) /\ good_round y1 nv_dt = Ok (y2, rs2) /\
    cl_state (sy_client y2) = CConnected /\ user_data (sy_server y2) 9 = Some nv_user /\
    count_connected rs1 = 0%nat /\ count_connected rs2 = 1%nat /\
    connected_count (sy_server y2) = connected_count sc_server + 1.
Proof.
  destruct (handshake_two_good_rounds sc_server nv_token NServerP.ex_peer nv_private 0 nv_client nv_dt nv_dt
              sc_server_inv sc_server_sizes) as (y1 & rs1 & y2 & rs2 & H1 & H2 & H3 & _ & H5 & H6 & H7 & H8 & _).
  - (* the server accepts the token *) apply nv_token_for_server_at. vm_compute. reflexivity.
  - (* the client is new *) exact nv_client_new.
  - (* it talks to the server's address *) rewrite nv_client_eq. reflexivity.
  - (* the token does not expire *) rewrite nv_token_eq. vm_compute. reflexivity.
  - (* no time-out *) right. rewrite nv_token_eq. vm_compute. split; discriminate.
  - (* the global counter has room *) vm_compute. reflexivity.
  - (* the challenge counter has room *) vm_compute. reflexivity.
  - rewrite nv_token_eq in H5. exists y1, rs1, y2, rs2.
    exact (conj H1 (conj H2 (conj H3 (conj H5 (conj H6 (conj H7 H8)))))).
Qed.

Example nv_liveness_applies :
  exists y rss, run_rounds nv_sys nv_run = Ok (y, rss) /\ sys_connected y.
Proof.
  apply (handshake_liveness sc_server nv_token NServerP.ex_peer nv_private 0 nv_client
           [(nv_dt, Lost, Once); (nv_dt, Twice, Once)] nv_dt nv_dt sc_server_inv sc_server_sizes).
  - (* the server accepts the token *) apply nv_token_for_server_at. vm_compute. reflexivity.
  - (* the client is new *) exact nv_client_new.
  - (* it talks to the server's address *) rewrite nv_client_eq. reflexivity.
  - (* the send rate fits dt1 *) vm_compute. discriminate.
  - (* the send rate fits dt2 *) vm_compute. discriminate.
  - (* the token does not expire *) rewrite nv_token_eq. vm_compute. reflexivity.
  - (* no time-out at the client *) right. rewrite nv_token_eq. vm_compute. discriminate.
  - (* no time-out at the server *) right. vm_compute. discriminate.
  - (* the global counter has room *) vm_compute. reflexivity.
  - (* the challenge counter has room *) vm_compute. reflexivity.
  - (* the run is shorter than 2^64 *) vm_compute. reflexivity.
Qed.

Definition sys_of (r : nres (nsys * list (list sresult))) (d : nsys) : nsys :=
  match r with Ok (y, _) => y | _ => d end.

(* The state after: request and challenge delivered, response delivered, the keep-alive that announces the
   connection LOST.  It satisfies hs_inv (phase 3: the server has the connected entry, the client is still
   answering).  From there, ticks that only call NetcodeServer::update never connect the client: the server
   ignores the retransmitted responses of a connected address and sends nothing. *)
Definition stuck_sys : nsys := sys_of (run_rounds nv_sys [(nv_dt, Once, Once); (nv_dt, Once, Lost)]) nv_sys.

(* How stuck_sys is reached, by the theorems (its body is a run through the cipher, nothing below evaluates it):
   the good tick takes the new client to phase (2); in the next the server accepts the response and its
   keep-alive is lost; a budget for 20 more ticks is left. *)
Lemma stuck_run :
  exists y1 rs1 rs2,
    round nv_sys nv_dt Once Once = Ok (y1, rs1) /\ round y1 nv_dt Once Lost = Ok (stuck_sys, rs2) /\
    sys_static y1 nv_private /\ ph_response y1 nv_private /\ round_ok y1 nv_dt = true /\
    sys_static stuck_sys nv_private /\ ph_accepted stuck_sys nv_private /\
    time_budget stuck_sys nv_private (20 * nv_dt) /\ seq_room stuck_sys 20 = true.
Proof.
  destruct nv_sys_request as (St0 & P0).
  assert (B0 : time_budget nv_sys nv_private (nv_dt + (nv_dt + 20 * nv_dt))).
  { rewrite nv_sys_eq. split; [intros _; split; vm_compute; reflexivity|]. split; [vm_compute; reflexivity|].
    split; [vm_compute; reflexivity|]. right. vm_compute. discriminate. }
  assert (S0 : seq_room nv_sys (1 + (1 + 20)) = true) by (rewrite nv_sys_eq; vm_compute; reflexivity).
  assert (Hrate : SEND_RATE_NS <= nv_dt) by (vm_compute; discriminate).
  destruct (round_sim nv_sys nv_private Req nv_dt Once Once St0 P0 (budget_round_ok _ _ _ _ _ B0 S0))
    as (y1 & rs1 & go1 & Hr1 & St1 & Fr1 & Hgo1 & P1 & _).
  rewrite (Hgo1 (or_introl Hrate)) in P1. change (ph_response y1 nv_private) in P1.
  pose proof (budget_step _ _ _ _ _ (in_phase_inv Resp _ _ St1 P1) Fr1 B0) as B1.
  pose proof (proj2 (seq_room_step _ _ _ _ Fr1 S0)) as S1.
  pose proof (budget_round_ok _ _ _ _ _ B1 S1) as Ho1.
  destruct (round_sim y1 nv_private Resp nv_dt Once Lost St1 P1 Ho1)
    as (y2 & rs2 & go2 & Hr2 & St2 & Fr2 & Hgo2 & P2 & _).
  rewrite (Hgo2 (or_introl Hrate)) in P2. change (ph_accepted y2 nv_private) in P2.
  assert (E : stuck_sys = y2).
  { unfold stuck_sys. rewrite (run_rounds_cons _ _ _ _ _ _ _ _ _ Hr1 (run_rounds_cons _ _ _ _ _ _ [] _ _ Hr2 eq_refl)).
    reflexivity. }
  rewrite E. exists y1, rs1, rs2.
  split; [exact Hr1|]. split; [exact Hr2|]. split; [exact St1|]. split; [exact P1|]. split; [exact Ho1|].
  split; [exact St2|]. split; [exact P2|].
  split; [exact (budget_step _ _ _ _ _ (in_phase_inv Acc _ _ St2 P2) Fr2 B1)|].
  exact (proj2 (seq_room_step _ _ _ _ Fr2 S1)).
Qed.

Lemma stuck_accepted : ph_accepted stuck_sys nv_private.
Proof. destruct stuck_run as (_ & _ & _ & _ & _ & _ & _ & _ & _ & P & _). exact P. Qed.

Lemma stuck_sys_inv_with : hs_inv_with stuck_sys nv_private.
Proof. destruct stuck_run as (_ & _ & _ & _ & _ & _ & _ & _ & St & P & _). exact (in_phase_inv Acc _ _ St P). Qed.

Lemma stuck_budget l :
  total_time l <= 20 * nv_dt -> len l <= 20 ->
  time_budget stuck_sys nv_private (total_time l) /\ seq_room stuck_sys (len l) = true.
Proof.
  intros Ht Hl. destruct stuck_run as (_ & _ & _ & _ & _ & _ & _ & _ & _ & _ & B & S).
  split; [exact (time_budget_le _ _ _ _ B Ht) | exact (seq_room_le _ _ _ S Hl)].
Qed.

Lemma stuck_stays l :
  time_budget stuck_sys nv_private (total_time l) -> seq_room stuck_sys (len l) = true ->
  exists y rss, run_rounds_lit stuck_sys l = Ok (y, rss) /\
                cl_state (sy_client y) = CSendingResponse /\ is_client_connected (sy_server y) 9 = true.
Proof.
  intros Hb Hs. pose proof (proj1 stuck_sys_inv_with) as St.
  destruct (run_lit_accepted l stuck_sys nv_private St stuck_accepted Hb Hs) as (y & rss & Hr & St' & Ph').
  exists y, rss. split; [exact Hr|]. split; [apply Ph' | exact (accepted_is_connected y nv_private St' Ph')].
Qed.

(* handshake_completes_after_loss read with round_lit (only nserver_update on the server side) is FALSE *)
Theorem handshake_completes_after_loss_lit_refuted :
  ~ (forall y dt1 dt2,
       hs_inv y -> SEND_RATE_NS <= dt1 -> SEND_RATE_NS <= dt2 ->
       rounds_ok y [(dt1, Once, Once); (dt2, Once, Once)] = true ->
       exists y2 rss, run_rounds_lit y [(dt1, Once, Once); (dt2, Once, Once)] = Ok (y2, rss) /\ sys_connected y2).
Proof.
  intros H.
  destruct (stuck_budget [(nv_dt, Once, Once); (nv_dt, Once, Once)]) as [Hb Hs];
    [vm_compute; discriminate | vm_compute; discriminate |].
  destruct (H stuck_sys nv_dt nv_dt (ex_intro _ _ stuck_sys_inv_with)) as (y2 & rss & Hr & (t & _ & (S & _))).
  - vm_compute. discriminate.
  - vm_compute. discriminate.
  - exact (budget_rounds_ok _ stuck_sys nv_private stuck_sys_inv_with Hb Hs).
  - destruct (stuck_stays _ Hb Hs) as (y & rss' & Hr' & S' & _).
    rewrite Hr' in Hr. injection Hr as <- _. rewrite S' in S. discriminate S.
Qed.
Print Assumptions handshake_completes_after_loss_lit_refuted.

(* ... and it stays stuck for as long as the client keeps trying (here 20 more good ticks, 6 s), while
   the real tick connects in one *)
Example stuck_for_long :
  match run_rounds_lit stuck_sys (repeat (nv_dt, Once, Once) 20) with
  | Ok (y, _) => cl_state (sy_client y) = CSendingResponse /\ is_client_connected (sy_server y) 9 = true
  | _ => False
  end.
Proof.
  destruct (stuck_budget (repeat (nv_dt, Once, Once) 20)) as [Hb Hs];
    [vm_compute; discriminate | vm_compute; discriminate |].
  destruct (stuck_stays _ Hb Hs) as (y & rss & Hr & H). rewrite Hr. exact H.
Qed.

Example unstuck_by_update_client :
  match run_rounds stuck_sys [(nv_dt, Once, Once)] with
  | Ok (y, _) => cl_state (sy_client y) = CConnected
  | _ => False
  end.
Proof.
  destruct (stuck_budget [(nv_dt, Once, Once)]) as [Hb Hs]; [vm_compute; discriminate | vm_compute; discriminate |].
  destruct (round_sim stuck_sys nv_private Acc nv_dt Once Once (proj1 stuck_sys_inv_with) stuck_accepted
              (budget_round_ok stuck_sys nv_private nv_dt 0 0 Hb Hs)) as (y & rs & go & Hr & _ & _ & Hgo & P & _).
  rewrite Hgo in P by (left; vm_compute; discriminate).
  rewrite (run_rounds_cons _ _ _ _ _ _ [] _ _ Hr eq_refl). exact (in_phase_state Conn _ _ P).
Qed.

Lemma response_known_no_phase y :
  cl_state (sy_client y) = CSendingResponse -> find_by_addr (sy_server y) (sy_addr y) <> None ->
  ~ (exists t, sys_static y t /\ (ph_request y t \/ ph_response y t \/ ph_connected y t)).
Proof. intros S Ea (t & _ & [(S' & _)|[(_ & _ & (Ea' & _) & _)|(S' & _)]]); congruence. Qed.

(* the invariant without phase (3), three cases only, is not preserved: the lost
   keep-alive leads from phase 2 to a state that is in none of the three *)
Theorem three_phase_inv_refuted :
  exists y dt fc fs y' rs,
    (exists t, sys_static y t /\ ph_response y t) /\ round_ok y dt = true /\ round y dt fc fs = Ok (y', rs) /\
    ~ (exists t, sys_static y' t /\ (ph_request y' t \/ ph_response y' t \/ ph_connected y' t)).
Proof.
  destruct stuck_run as (y1 & rs1 & rs2 & _ & Hr2 & St1 & P1 & Ho1 & _ & P2 & _).
  exists y1, nv_dt, Once, Lost, stuck_sys, rs2.
  split; [exists nv_private; exact (conj St1 P1)|]. split; [exact Ho1|]. split; [exact Hr2|].
  destruct P2 as (S & _ & _ & slot & sc & Ea & _). apply response_known_no_phase; [exact S|]. rewrite Ea. discriminate.
Qed.
Print Assumptions three_phase_inv_refuted.

(* handshake_two_good_rounds read as "two good ticks with ANY dt that keep the token unexpired" is FALSE:
   a first tick longer than the token's time-out (here 20 s against 15 s; the token is valid for 300 s on both clocks) makes the
   client give up before it has sent anything - the time-out hypothesis of handshake_two_good_rounds is
   needed *)
Definition nv_e1 : nsys * list sresult :=
  ltac:(evaluated (round (mk nv_cl sc_server NServerP.ex_peer) 20000000000 Once Once)).
Lemma nv_e1_eq : round nv_sys 20000000000 Once Once = Ok (fst nv_e1, snd nv_e1).
Proof. rewrite nv_sys_eq. evaluates. Qed.

Definition nv_e2 : nsys * list sresult := ltac:(evaluated (round (fst nv_e1) nv_dt Once Once)).
Lemma nv_e2_eq : round (fst nv_e1) nv_dt Once Once = Ok (fst nv_e2, snd nv_e2).
Proof. evaluates. Qed.

Theorem two_good_rounds_any_dt_refuted :
  exists s tok a t nowc c dt1 dt2,
    table_inv s /\ server_sizes s /\ token_for_server_with s tok a (ns_now s + dt1 + dt2) t /\
    nclient_new nowc tok = Ok c /\ dest_ok s (cl_server_addr c) = true /\
    as_secs (dt1 + dt2) < ct_expire tok - ct_create tok /\
    match run_rounds (mk c s a) [(dt1, Once, Once); (dt2, Once, Once)] with
    | Ok (y, rss) => cl_state (sy_client y) = CDisconnected CRRequestTimedOut /\
                     is_client_connected (sy_server y) (ct_client_id tok) = false /\ map count_connected rss = [0; 0]%nat
    | _ => False
    end.
Proof.
  exists sc_server, nv_token, NServerP.ex_peer, nv_private, 0, nv_client, 20000000000, nv_dt.
  split; [exact sc_server_inv|]. split; [exact sc_server_sizes|].
  split; [apply nv_token_for_server_at; vm_compute; reflexivity|].
  split; [exact nv_client_new|]. split; [rewrite nv_client_eq; reflexivity|].
  split; [rewrite nv_token_eq; vm_compute; reflexivity|].
  rewrite (run_rounds_cons _ _ _ _ _ _ _ _ _ nv_e1_eq (run_rounds_cons _ _ _ _ _ _ [] _ _ nv_e2_eq eq_refl)
           : run_rounds (mk nv_client sc_server NServerP.ex_peer) _ = _), nv_token_eq.
  vm_compute. repeat split.
Qed.
Print Assumptions two_good_rounds_any_dt_refuted.

Definition nv_silent : addr := AddrV4 [192; 168; 0; 1] 5000.

(* the same token, but the server's address is listed second and the time-out is 2 s *)
Definition nv2_private : private_token :=
  {| pt_client_id := 9; pt_timeout := 2%Z; pt_addrs := pad_slots (map Some [nv_silent; NServerP.ex_addr]);
     pt_c2s := nv_c2s; pt_s2c := nv_s2c; pt_user := nv_user |}.

Definition nv2_generated : nres connect_token :=
  token_generate 0 42 300 9 2%Z [nv_silent; NServerP.ex_addr] nv_user NServerP.ex_key nv_xnonce nv_c2s nv_s2c.

Definition token_of (r : nres connect_token) : connect_token :=
  match r with
  | Ok t => t
  | _ => {| ct_client_id := 0; ct_version := []; ct_protocol := 0; ct_create := 0; ct_expire := 0; ct_xnonce := [];
            ct_addrs := []; ct_c2s := []; ct_s2c := []; ct_private := []; ct_timeout := 0%Z |}
  end.
Definition nv2_token : connect_token := token_of nv2_generated.

Definition nv2_tok : connect_token := ltac:(evaluated nv2_generated).
Lemma nv2_generated_eq : nv2_generated = Ok nv2_tok.
Proof. evaluates. Qed.
Lemma nv2_token_eq : nv2_token = nv2_tok.
Proof. unfold nv2_token. rewrite nv2_generated_eq. reflexivity. Qed.

Definition client_of (r : nres nclient) (tok : connect_token) : nclient :=
  match r with
  | Ok c => c
  | _ => {| cl_state := CDisconnected CRDenied; cl_id := 0; cl_connect_start := 0; cl_last_send := None; cl_last_recv := 0;
            cl_now := 0; cl_seq := 0; cl_server_addr := NServerP.ex_addr; cl_addr_index := 0; cl_token := tok;
            cl_chal_seq := 0; cl_chal_data := []; cl_max_clients := 0; cl_client_index := 0; cl_replay := replay_new |}
  end.
Definition nv2_client : nclient := client_of (nclient_new 0 nv2_token) nv2_token.
Definition nv2_cl : nclient := ltac:(evaluated (nclient_new 0 nv2_tok)).
Lemma nv2_client_eq : nv2_client = nv2_cl.
Proof. unfold nv2_client. rewrite nv2_token_eq. reflexivity. Qed.

Lemma nv2_client_new : nclient_new 0 nv2_token = Ok nv2_client.
Proof. rewrite nv2_client_eq, nv2_token_eq. reflexivity. Qed.

Definition nv2_sys : nsys := mk nv2_client sc_server NServerP.ex_peer.

Lemma nv2_sys_eq : nv2_sys = mk nv2_cl sc_server NServerP.ex_peer.
Proof. unfold nv2_sys. rewrite nv2_client_eq. reflexivity. Qed.

Example nv2_token_for_server : token_for_server_with sc_server nv2_token NServerP.ex_peer 0 nv2_private.
Proof.
  rewrite nv2_token_eq. apply (sc_token_for_server 0 2%Z [nv_silent; NServerP.ex_addr] nv2_tok nv2_generated_eq); [lia | | reflexivity | reflexivity].
  repeat constructor; apply bytes_ok_dec_true; reflexivity.
Qed.

(* the client starts on 192.168.0.1:5000, which is not the server: a waiting state, not covered by hs_inv *)
Example nv2_waiting :
  hs_waiting nv2_sys nv2_private /\ dest_ok (sy_server nv2_sys) (cl_server_addr (sy_client nv2_sys)) = false.
Proof.
  split; [|rewrite nv2_sys_eq; reflexivity].
  apply (initial_waiting sc_server nv2_token NServerP.ex_peer 0 nv2_private 0 nv2_client
           sc_server_inv sc_server_sizes nv2_token_for_server nv2_client_new).
Qed.

Definition nv_sec : N := 1000000000.

(* two ticks of 1 s into the void, the third fires the 2 s time-out: fail-over to 127.0.0.1:5000, the
   request is answered in the same tick; two good ticks connect *)
Definition nv2_run : list (N * fate * fate) :=
  [(nv_sec, Once, Once); (nv_sec, Once, Once); (nv_sec, Once, Once); (nv_dt, Once, Once); (nv_dt, Once, Once)].

Definition nv_m1 : nsys * list sresult := ltac:(evaluated (round (mk nv2_cl sc_server NServerP.ex_peer) nv_sec Once Once)).
Lemma nv_m1_eq : round nv2_sys nv_sec Once Once = Ok (fst nv_m1, snd nv_m1).
Proof. rewrite nv2_sys_eq. evaluates. Qed.

Definition nv_m2 : nsys * list sresult := ltac:(evaluated (round (fst nv_m1) nv_sec Once Once)).
Lemma nv_m2_eq : round (fst nv_m1) nv_sec Once Once = Ok (fst nv_m2, snd nv_m2).
Proof. evaluates. Qed.

Definition nv_m3 : nsys * list sresult := ltac:(evaluated (round (fst nv_m2) nv_sec Once Once)).
Lemma nv_m3_eq : round (fst nv_m2) nv_sec Once Once = Ok (fst nv_m3, snd nv_m3).
Proof. evaluates. Qed.

Definition nv_m4 : nsys * list sresult := ltac:(evaluated (round (fst nv_m3) nv_dt Once Once)).
Lemma nv_m4_eq : round (fst nv_m3) nv_dt Once Once = Ok (fst nv_m4, snd nv_m4).
Proof. evaluates. Qed.

Definition nv_m5 : nsys * list sresult := ltac:(evaluated (round (fst nv_m4) nv_dt Once Once)).
Lemma nv_m5_eq : round (fst nv_m4) nv_dt Once Once = Ok (fst nv_m5, snd nv_m5).
Proof. evaluates. Qed.

Lemma nv_m5_run : run_rounds (fst nv_m2) [(nv_sec, Once, Once); (nv_dt, Once, Once); (nv_dt, Once, Once)] =
                    Ok (fst nv_m5, [snd nv_m3; snd nv_m4; snd nv_m5]).
Proof.
  apply (run_rounds_cons _ _ _ _ _ _ _ _ _ nv_m3_eq), (run_rounds_cons _ _ _ _ _ _ _ _ _ nv_m4_eq),
    (run_rounds_cons _ _ _ _ _ _ _ _ _ nv_m5_eq).
  reflexivity.
Qed.

Example nv2_run_fails_over :
  match run_rounds nv2_sys nv2_run with
  | Ok (y, rss) =>
      cl_state (sy_client y) = CConnected /\ cl_server_addr (sy_client y) = AddrV4 [127; 0; 0; 1] 5000 /\
      cl_addr_index (sy_client y) = 1 /\ is_client_connected (sy_server y) 9 = true /\
      map count_connected rss = [0; 0; 0; 1; 0]%nat /\ map (@length sresult) rss = [1; 1; 2; 2; 2]%nat
  | _ => False
  end.
Proof.
  rewrite (run_rounds_cons _ _ _ _ _ _ _ _ _ nv_m1_eq (run_rounds_cons _ _ _ _ _ _ _ _ _ nv_m2_eq nv_m5_run)
           : run_rounds nv2_sys nv2_run = _).
  vm_compute. repeat split.
Qed.

(* the same by the theorems: two waiting ticks (waiting_round), then failover_then_connects *)
Example nv2_by_theorem :
  exists y rss, run_rounds nv2_sys nv2_run = Ok (y, rss) /\ sys_connected y /\
                cl_server_addr (sy_client y) = NServerP.ex_addr.
Proof.
  destruct nv2_waiting as [W0 D0].
  assert (W1 : hs_waiting (fst nv_m1) nv2_private).
  { refine (waiting_round_at _ _ _ _ _ _ _ W0 (or_introl D0) _ _ _ nv_m1_eq); rewrite nv2_sys_eq; reflexivity. }
  assert (W2 : hs_waiting (fst nv_m2) nv2_private).
  { refine (waiting_round_at _ _ _ _ _ _ _ W1 (or_introl _) _ _ _ nv_m2_eq); vm_compute; reflexivity. }
  destruct (failover_then_connects (fst nv_m2) nv2_private nv_sec Once Once NServerP.ex_addr nv_dt nv_dt W2)
    as (y5 & rss & R & C & A).
  - (* the time-out fires *) vm_compute. reflexivity.
  - (* the token has not expired at the client *) vm_compute. reflexivity.
  - (* ... nor at the server *) vm_compute. reflexivity.
  - (* the token lists a next address *) vm_compute. reflexivity.
  - (* it is the server's *) vm_compute. reflexivity.
  - (* the counters have room *) vm_compute. reflexivity.
  - (* the send rate fits dt1 *) vm_compute. discriminate.
  - (* the send rate fits dt2 *) vm_compute. discriminate.
  - (* the side conditions of the two good ticks *) rewrite nv_m3_eq.
    refine (rounds_ok_cons _ _ _ _ _ _ _ _ nv_m4_eq (rounds_ok_cons _ _ _ _ _ _ [] _ nv_m5_eq eq_refl));
      vm_compute; reflexivity.
  - exists y5, (snd nv_m1 :: snd nv_m2 :: rss). split; [|exact (conj C A)].
    exact (run_rounds_cons _ _ _ _ _ _ _ _ _ nv_m1_eq (run_rounds_cons _ _ _ _ _ _ _ _ _ nv_m2_eq R)).
Qed.
Print Assumptions nv2_run_fails_over.
Print Assumptions nv2_by_theorem.

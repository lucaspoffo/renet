(* ConnP.v - the connection level (RenetClient): the connection invariant is kept by every call,
   hostile input is safe, packets fit, the budget and the priority order are respected,
   acknowledgements, channel isolation, and closed examples. *)
From RenetV Require Import Base Consts Varint Packet Channels Conn.
From RenetV Require Import CodecSpec RecvSpec SendSpec ConnSpec ConnInvSpec.
From RenetV Require Import SMapP ConnBaseP ConnProcP ConnFlushP ConnCountP BaseP.
From RenetV Require AcksP PacketP RecvRelP RecvUnrelP SMapSendP SendRelP SendUnrelP DisconnectP ConnEncP.
Require Import Lia ZifyBool ZifyN ZifyNat.
Open Scope N_scope.

Local Opaque SLICE_SIZE MAX_ACK_RANGES SER_BUFFER NC_MAX_PAYLOAD_BYTES DISCARD_PACKET_SECS VARINT_MAX.

Theorem conn_inv_init : forall budget scfg rcfg c,
  conn_new budget scfg rcfg = Ok c -> conn_inv c.
Proof.
  intros budget scfg rcfg c E. pose proof (conn_new_cases budget scfg rcfg) as H.
  rewrite E in H. apply H.
Qed.

Theorem conn_new_panics_only_on_duplicates : forall budget scfg rcfg site,
  conn_new budget scfg rcfg = Panic site -> site = SITE_DUP_CHANNEL.
Proof.
  intros budget scfg rcfg site E. pose proof (conn_new_cases budget scfg rcfg) as H.
  rewrite E in H. exact H.
Qed.

(* any byte string is processed without panic and the invariant (hence the memory
   accounting of every channel, within its limit) is kept *)

Theorem process_packet_total : forall c bytes,
  conn_inv c -> bytes_ok bytes -> exists c', process_packet c bytes = Ok c' /\ conn_inv c'.
Proof. exact process_packet_safe. Qed.

Definition no_release (sr sr' : list (N * send_rel)) : Prop :=
  forall ch s s' id, sm_find ch sr = Some s -> sm_find ch sr' = Some s' ->
                     kind_of s id <> None -> kind_of s' id <> None.

Lemma no_release_refl sr : no_release sr sr.
Proof. intros ch s s' id H1 H2. rewrite H1 in H2. inversion H2; subst. auto. Qed.

Lemma send_rel_no_release c ch m s s' :
  conn_inv c -> sm_find ch (c_sr c) = Some s -> sr_send s m = Ok s' -> no_release (c_sr c) (sm_insert ch s' (c_sr c)).
Proof.
  intros Hi Hs Es c0 s0 s0' id H0 H0' Hk. rewrite sm_find_insert in H0'.
  destruct (N.eqb_spec c0 ch) as [->|Hne]; [|rewrite H0 in H0'; injection H0' as <-; exact Hk].
  rewrite Hs in H0. injection H0 as <-. injection H0' as <-.
  pose proof (SendRelP.sr_send_safe (c_now c) s m (proj1 (inv_find_sr _ _ _ Hi Hs))) as H. rewrite Es in H.
  destruct H as (_ & _ & _ & Hother & Hnew).
  destruct (N.eq_dec id (sr_next_id s)) as [->|Hid]; [rewrite Hnew; discriminate|].
  now rewrite (kind_of_ext s s' id (Hother id Hid)).
Qed.

Lemma send_message_total c ch m :
  conn_inv c -> has_send_channel c ch = true -> exists c', send_message c ch m = Ok c'.
Proof.
  intros Hi Hch. unfold send_message. destruct (is_disconnected c); [eauto|].
  destruct (sm_find ch (c_sr c)) as [s|] eqn:Hs.
  - pose proof (SendRelP.sr_send_safe (c_now c) s m (proj1 (inv_find_sr _ _ _ Hi Hs))) as H.
    destruct (sr_send s m) as [s'|e|st]; [eauto|eauto|contradiction].
  - destruct (sm_find ch (c_su c)) as [s|] eqn:Hu; [eauto|].
    unfold has_send_channel, sm_mem in Hch. rewrite Hs, Hu in Hch. discriminate.
Qed.

Lemma receive_message_total c ch :
  conn_inv c -> has_recv_channel c ch = true -> exists c' m, receive_message c ch = Ok (c', m).
Proof.
  intros Hi Hch. unfold receive_message. destruct (is_disconnected c); [eauto|].
  destruct (sm_find ch (c_rr c)) as [r|] eqn:Hr.
  - pose proof (RecvRelP.rr_receive_safe r (inv_find_rr _ _ _ Hi Hr)) as H.
    destruct (rr_receive r) as [[r' m]|e|st]; [eauto|contradiction|contradiction].
  - destruct (sm_find ch (c_ru c)) as [r|] eqn:Hu.
    + pose proof (RecvUnrelP.ru_receive_safe (c_now c) r (inv_find_ru _ _ _ Hi Hu)) as H.
      destruct (ru_receive r) as [[r' m]|e|st]; [eauto|contradiction|contradiction].
    + unfold has_recv_channel, sm_mem in Hch. rewrite Hr, Hu in Hch. discriminate.
Qed.

Lemma discard_all_spec now now' : now <= now' -> forall l,
  Forall (fun e : N * recv_unrel => ru_inv now (snd e)) l ->
  exists l', discard_all now' l = Ok l' /\ Forall (fun e : N * recv_unrel => ru_inv now' (snd e)) l'.
Proof.
  intros Hle. induction l as [|[ch r] t IH]; intros H; cbn [discard_all].
  - exists []. split; [reflexivity|constructor].
  - inversion H as [|? ? Hr Ht]; subst. cbn [snd] in Hr.
    pose proof (RecvUnrelP.ru_discard_old_safe now now' r Hr Hle) as Hd.
    destruct (ru_discard_old r now') as [r'|e|st]; [|contradiction|contradiction].
    destruct (IH Ht) as (t' & E & Hf). rewrite E. cbn [bind].
    exists ((ch, r') :: t'). split; [reflexivity|]. constructor; [apply Hd|exact Hf].
Qed.

Lemma discard_all_keys now : forall l l', discard_all now l = Ok l' -> map fst l' = map fst l.
Proof.
  induction l as [|[ch r] t IH]; intros l' E; cbn [discard_all] in E; [now injection E as <-|].
  destruct (ru_discard_old r now) as [r'|e|st]; [|discriminate..].
  apply bind_ok in E as (t' & Et & [= <-]). cbn [map fst]. now rewrite (IH t' Et).
Qed.

Lemma discard_all_find now : forall l l', discard_all now l = Ok l' ->
  forall ch, match sm_find ch l' with
             | Some r' => exists r, sm_find ch l = Some r /\ ru_discard_old r now = Ok r'
             | None => sm_find ch l = None
             end.
Proof.
  induction l as [|[c r] t IH]; intros l' E ch; cbn [discard_all] in E.
  - injection E as <-. reflexivity.
  - destruct (ru_discard_old r now) as [r1| |] eqn:Er; try discriminate.
    destruct (discard_all now t) as [t'| |] eqn:Et; cbn [bind] in E; try discriminate.
    injection E as <-. cbn [sm_find]. destruct (ch =? c); [eauto|now apply IH].
Qed.

Lemma drop_lost_spec now : forall l,
  Forall (fun e : N * (N * sent_info) => fst (snd e) <= now) l ->
  exists pre l', drop_lost now l = Ok l' /\ l = pre ++ l'.
Proof.
  induction l as [|[s [t i]] l IH]; intros H; cbn [drop_lost].
  - exists [], []. split; reflexivity.
  - inversion H as [|? ? Ht Hl]; subst. cbn [fst snd] in Ht.
    unfold sub_chk. destruct (N.leb_spec t now); [|lia]. cbn [bind].
    destruct (DISCARD_PACKET_SECS * 1000000000 <=? now - t).
    + destruct (IH Hl) as (pre & l' & E & ->). exists ((s, (t, i)) :: pre), l'. split; [exact E|reflexivity].
    + exists [], ((s, (t, i)) :: l). split; reflexivity.
Qed.

Lemma sent_times_le c dt :
  conn_inv c -> Forall (fun e : N * (N * sent_info) => fst (snd e) <= c_now c + dt) (c_sent c).
Proof. intros Hi. eapply Forall_impl; [|exact (ci_sent c Hi)]. intros e (_ & H & _). lia. Qed.

Lemma drop_lost_sub c dt sent : conn_inv c -> drop_lost (c_now c + dt) (c_sent c) = Ok sent ->
  forall k v, sm_find k sent = Some v -> sm_find k (c_sent c) = Some v.
Proof.
  intros Hi E k v Hf.
  destruct (drop_lost_spec (c_now c + dt) (c_sent c) (sent_times_le c dt Hi)) as (pre & l' & E' & Hpre).
  rewrite E in E'. injection E' as <-. rewrite Hpre. apply sm_find_suffix; [|exact Hf].
  rewrite <- Hpre. exact (ci_sent_sorted c Hi).
Qed.

Lemma update_total c dt : conn_inv c -> exists c', update c dt = Ok c'.
Proof.
  intros Hi. unfold update.
  destruct (discard_all_spec (c_now c) (c_now c + dt) ltac:(lia) (c_ru c) (ci_ru c Hi)) as (ru & -> & _).
  destruct (drop_lost_spec (c_now c + dt) (c_sent c) (sent_times_le c dt Hi)) as (pre & sent & -> & _).
  cbn [bind]. eauto.
Qed.

(* a flush cannot fail, and it panics only at the encoder's unreachable!(), which needs a counter
   above 2^62 - 1 *)
Lemma flush_total c :
  conn_inv c ->
  match get_packets_to_send c with
  | Ok (c', _) => conn_inv c'
  | Err _ => False
  | Panic site => site = SITE_VARINT_TOO_LARGE /\ ~ counters_small c
  end.
Proof.
  intros Hi. destruct (is_disconnected c) eqn:Hd.
  - rewrite (DisconnectP.get_packets_to_send_disconnected_noop c Hd). exact Hi.
  - destruct (flush_cases c Hi Hd) as (c1 & av & pk & Hrel & Hi3 & Hack & _ & E). rewrite E.
    pose proof (serialize_all_cases _ Hack) as HS.
    destruct (serialize_all (flush_pkts c1 pk)) as [bs|e|s].
    + exact Hi3.
    + now apply inv_disconnect_with.
    + destruct HS as [-> HS]. split; [reflexivity|].
      intros Hsmall. exact (HS (flush_varints_ok c c1 av pk Hi Hsmall Hrel)).
Qed.

Lemma flush_safe c :
  conn_inv c ->
  match get_packets_to_send c with
  | Ok (c', _) => conn_inv c'
  | Err _ => False
  | Panic site => site = SITE_VARINT_TOO_LARGE
  end.
Proof.
  intros Hi. pose proof (flush_total c Hi) as H.
  destruct (get_packets_to_send c) as [[c' p]|e|s]; [exact H..|apply H].
Qed.

Theorem flush_no_overflow : forall c,
  conn_inv c -> counters_small c -> exists c' pk, get_packets_to_send c = Ok (c', pk).
Proof.
  intros c Hi Hsmall. pose proof (flush_total c Hi) as H.
  destruct (get_packets_to_send c) as [[c' p]|e|s]; [eauto|contradiction|]. destruct H as [_ H]. contradiction.
Qed.

Lemma conn_step_keeps_inv c op c' out :
  conn_inv c -> (forall b p, op = CProcess b -> from_bytes b = Ok p -> packet_wf p) -> conn_step c op c' out ->
  conn_inv c'.
Proof.
  intros Hi Hb S.
  destruct S as [op0 st _|ch m s s' _ Hs Es|ch m s _ _ Hu|ch r r' mo _ Hr Er|ch r r' mo _ _ Hu Er
                |dt ru sent Eru Es|c2 bytes _ Ef|b p c2 _ Hp PS].
  - now apply inv_set_status.
  - destruct (inv_find_sr _ _ _ Hi Hs) as [Hsi Hc].
    pose proof (SendRelP.sr_send_safe (c_now c) s m Hsi) as H. rewrite Es in H.
    destruct H as (Hs' & Hn & _ & Hother & _).
    apply (inv_with_sr c ch s s'); auto.
    + destruct (SendRelP.sr_send_config _ _ _ Es) as (A & _). congruence.
    + split; [lia|]. intros id Hid. left. apply kind_of_ext. apply Hother. lia.
  - destruct (inv_find_su _ _ _ Hi Hu) as [Hsi Hc].
    destruct (SendUnrelP.su_send_safe s m Hsi) as [Hs' Hcase].
    apply inv_with_su; [exact Hi|exact Hs'|].
    destruct (su_max s <? su_mem s + len m); [rewrite Hcase; exact Hc|].
    destruct Hcase as (_ & _ & _ & _ & A). rewrite A. exact Hc.
  - apply inv_with_rr; [exact Hi|].
    pose proof (RecvRelP.rr_receive_safe r (inv_find_rr _ _ _ Hi Hr)) as H. rewrite Er in H. apply H.
  - apply inv_with_ru; [exact Hi|].
    pose proof (RecvUnrelP.ru_receive_safe (c_now c) r (inv_find_ru _ _ _ Hi Hu)) as H. rewrite Er in H. apply H.
  - (* update: the clock advances, stale slice buffers and a prefix of the tracked packets go *)
    destruct (discard_all_spec (c_now c) (c_now c + dt) ltac:(lia) (c_ru c) (ci_ru c Hi)) as (ru1 & E1 & Hru).
    rewrite Eru in E1. injection E1 as <-.
    destruct (drop_lost_spec (c_now c + dt) (c_sent c) (sent_times_le c dt Hi)) as (pre & sent1 & E2 & Hsplit).
    rewrite Es in E2. injection E2 as <-.
    destruct Hi as [S1 S2 S3 S4 S5 Isr Isu Irr Iru Iord A1 A2 A3 Isent].
    constructor; cbn [with_sent with_ru with_now c_sr c_su c_rr c_ru c_sent c_now c_order c_acks c_seq]; auto.
    + unfold sorted_keys. rewrite (discard_all_keys _ _ _ Eru). exact S4.
    + unfold sorted_keys in *. rewrite Hsplit, map_app in S5. now apply asc_app_r in S5.
    + eapply Forall_impl; [|exact Isr]. intros e [A B]. split; [|exact B].
      eapply SendRelP.sr_inv_mono; [exact A|lia].
    + rewrite Hsplit in Isent. apply Forall_app in Isent. destruct Isent as [_ Isent].
      eapply Forall_impl; [|exact Isent]. intros e (A & B & C). split; [exact A|]. split; [lia|exact C].
  - pose proof (flush_total c Hi) as H. rewrite Ef in H. exact H.
  - pose proof (Hb b p eq_refl Hp) as Hwf. exact (parsed_step_keeps_inv _ _ _ PS (inv_note_seq c p Hi Hwf) Hwf).
Qed.

Lemma cstep_total c o :
  conn_inv c -> cop_ok c o -> (forall b, o = CProcess b -> bytes_ok b) ->
  match cstep c o with
  | Ok (c', _) => conn_inv c'
  | Err _ => False
  | Panic site => site = SITE_VARINT_TOO_LARGE /\ ~ counters_small c
  end.
Proof.
  intros Hi Hok Hb.
  assert (T : match cstep c o with
              | Ok _ => True | Err _ => False | Panic site => site = SITE_VARINT_TOO_LARGE /\ ~ counters_small c
              end).
  { destruct o as [ch m|ch|dt|b| | | | |]; cbn [cstep cop_ok] in *; try exact I.
    - destruct (send_message_total c ch m Hi Hok) as (c' & ->). exact I.
    - destruct (receive_message_total c ch Hi Hok) as (c' & m & ->). exact I.
    - destruct (update_total c dt Hi) as (c' & ->). exact I.
    - destruct (process_packet_safe c b Hi (Hb b eq_refl)) as (c' & -> & _). exact I.
    - pose proof (flush_total c Hi) as H.
      destruct (get_packets_to_send c) as [[c' p]|e|s]; cbn [bind]; [exact I|exact H|exact H]. }
  destruct (cstep c o) as [[c' out]|e|s] eqn:E; [|exact T|exact T].
  apply (conn_step_keeps_inv c o c' out Hi); [|now apply cstep_inv].
  intros b p -> Hp. exact (PacketP.from_bytes_wf b p (Hb b eq_refl) Hp).
Qed.

Theorem cstep_safe : forall c o,
  conn_inv c -> cop_ok c o -> (forall b, o = CProcess b -> bytes_ok b) ->
  match cstep c o with
  | Ok (c', _) => conn_inv c'
  | Err _ => False
  | Panic site => site = SITE_VARINT_TOO_LARGE
  end.
Proof.
  intros c o Hi Hok Hb. pose proof (cstep_total c o Hi Hok Hb) as H.
  destruct (cstep c o) as [[c' out]|e|s]; [exact H..|apply H].
Qed.

Corollary cstep_no_panic : forall c o,
  conn_inv c -> counters_small c -> cop_ok c o -> (forall b, o = CProcess b -> bytes_ok b) ->
  exists c' out, cstep c o = Ok (c', out) /\ conn_inv c'.
Proof.
  intros c o Hi Hsmall Hok Hb. pose proof (cstep_total c o Hi Hok Hb) as H.
  destruct (cstep c o) as [[c' out]|e|s]; [eauto|contradiction|]. destruct H as [_ H]. contradiction.
Qed.

Definition same_channels (c c' : conn) : Prop :=
  forall ch, sm_mem ch (c_sr c') = sm_mem ch (c_sr c) /\ sm_mem ch (c_su c') = sm_mem ch (c_su c) /\
             sm_mem ch (c_rr c') = sm_mem ch (c_rr c) /\ sm_mem ch (c_ru c') = sm_mem ch (c_ru c).

Lemma same_channels_refl c : same_channels c c.
Proof. intros ch. auto. Qed.

Lemma same_channels_trans c1 c2 c3 : same_channels c1 c2 -> same_channels c2 c3 -> same_channels c1 c3.
Proof.
  intros H1 H2 ch. destruct (H1 ch) as (A1 & A2 & A3 & A4). destruct (H2 ch) as (B1 & B2 & B3 & B4).
  repeat split; congruence.
Qed.

Lemma sc_set_status c st : same_channels c (set_status c st).
Proof. intros ch. auto. Qed.

Lemma sc_with_sr c ch s s' : sm_find ch (c_sr c) = Some s -> same_channels c (with_sr c (sm_insert ch s' (c_sr c))).
Proof. intros H k. cbn [with_sr c_sr c_su c_rr c_ru]. rewrite (sm_mem_insert_present _ _ _ _ _ H). auto. Qed.
Lemma sc_with_su c ch s s' : sm_find ch (c_su c) = Some s -> same_channels c (with_su c (sm_insert ch s' (c_su c))).
Proof. intros H k. cbn [with_su c_sr c_su c_rr c_ru]. rewrite (sm_mem_insert_present _ _ _ _ _ H). auto. Qed.
Lemma sc_with_rr c ch s s' : sm_find ch (c_rr c) = Some s -> same_channels c (with_rr c (sm_insert ch s' (c_rr c))).
Proof. intros H k. cbn [with_rr c_sr c_su c_rr c_ru]. rewrite (sm_mem_insert_present _ _ _ _ _ H). auto. Qed.
Lemma sc_with_ru c ch s s' : sm_find ch (c_ru c) = Some s -> same_channels c (with_ru c (sm_insert ch s' (c_ru c))).
Proof. intros H k. cbn [with_ru c_sr c_su c_rr c_ru]. rewrite (sm_mem_insert_present _ _ _ _ _ H). auto. Qed.

Definition packet_ch (p : packet) : N :=
  match p with
  | SmallReliable _ ch _ | SmallUnreliable _ ch _ | ReliableSlice _ ch _ | UnreliableSlice _ ch _ => ch
  | Ack _ _ => 0
  end.
Definition is_rel_packet (p : packet) : bool :=
  match p with SmallReliable _ _ _ | ReliableSlice _ _ _ => true | _ => false end.

Lemma pkt_ok_is_rel ch st p : SendRelP.pkt_ok ch st p -> is_rel_packet p = true.
Proof. destruct p; cbn [SendRelP.pkt_ok is_rel_packet]; tauto. Qed.

Lemma unrel_pkt_not_rel ch p : SendUnrelP.unrel_pkt_ch ch p -> is_rel_packet p = false.
Proof. destruct p; cbn [SendUnrelP.unrel_pkt_ch is_rel_packet]; tauto. Qed.

Lemma gather_su_keys ord c avail c1 av pk :
  gather_rel ord c avail c1 av pk -> forall ch, sm_mem ch (c_su c1) = sm_mem ch (c_su c).
Proof.
  induction 1 as [c avail|ch t c avail s s' pk seq' avail1 c2 avail2 pk2 _ _ _ IH
                         |ch t c avail s s' pk seq' avail1 c2 avail2 pk2 Hs _ _ IH]; intros k.
  - reflexivity.
  - exact (IH k).
  - rewrite IH. cbn [with_seq with_su c_su]. now apply (sm_mem_insert_present _ _ _ s).
Qed.

(* a flush never fails for lack of buffer: a packet that fits a netcode payload fits SER_BUFFER *)
Lemma flush_spec c c' bytes :
  conn_inv c -> is_disconnected c = false -> get_packets_to_send c = Ok (c', bytes) ->
  exists c1 av pk pkts,
    pkts = pk ++ ack_part (c_seq c + len pk) (c_acks c) /\
    gather_rel (c_order c) c (c_budget c) c1 av pk /\ c' = flushed c c1 pkts /\
    Forall2 (fun p b => to_bytes SER_BUFFER p = Ok b) pkts bytes /\
    Forall pkt_fits pkts /\ Forall ConnEncP.varints_ok pkts /\ Forall ConnEncP.ack_ok pkts.
Proof.
  intros Hi Hd E.
  destruct (flush_cases c Hi Hd) as (c1 & av & pk & Hrel & Hi3 & Hack & Hfits & E'). rewrite E' in E.
  rewrite (proj1 (flush_eqs c c1 av pk Hi Hrel)) in *.
  exists c1, av, pk, (pk ++ ack_part (c_seq c + len pk) (c_acks c)). split; [reflexivity|]. split; [exact Hrel|].
  pose proof (serialize_all_cases _ Hack) as HS.
  destruct (serialize_all (pk ++ ack_part (c_seq c + len pk) (c_acks c))) as [bs|e|s]; [| |discriminate].
  + injection E as <- <-. destruct HS as [H1 H2]. exact (conj eq_refl (conj H1 (conj Hfits (conj H2 Hack)))).
  + exfalso. destruct HS as (_ & p & Hp & Hlen). rewrite Forall_forall in Hfits.
    specialize (Hfits p Hp). unfold pkt_fits in Hfits. pose proof payload_le_buffer. lia.
Qed.

Lemma flush_same_kinds c c' bytes :
  conn_inv c -> get_packets_to_send c = Ok (c', bytes) -> sr_same_kinds (c_sr c) (c_sr c').
Proof.
  intros Hi E. destruct (is_disconnected c) eqn:Hd.
  - rewrite (DisconnectP.get_packets_to_send_disconnected_noop c Hd) in E. injection E as <- <-.
    apply sr_same_kinds_refl.
  - destruct (flush_spec c c' bytes Hi Hd E) as (c1 & av & pk & pkts & _ & Hrel & -> & _).
    exact (g_kinds (gather_facts _ _ _ _ _ _ Hrel Hi)).
Qed.

Lemma flush_channels c c' bytes : conn_inv c -> get_packets_to_send c = Ok (c', bytes) -> same_channels c c'.
Proof.
  intros Hi E ch. split; [exact (sm_rel_mem same_kinds _ _ ch (flush_same_kinds c c' bytes Hi E))|].
  destruct (is_disconnected c) eqn:Hd.
  - rewrite (DisconnectP.get_packets_to_send_disconnected_noop c Hd) in E. injection E as <- <-. auto.
  - destruct (flush_spec c c' bytes Hi Hd E) as (c1 & av & pk & pkts & _ & Hrel & -> & _).
    cbn [flushed c_su c_rr c_ru]. split; [eapply gather_su_keys; eauto|auto].
Qed.

Lemma ack_step_channels c seq info c' : ack_step c seq info c' -> same_channels c c'.
Proof.
  intros [|ch ids s s' Hs _|ch id idx s s' Hs _|largest].
  - intros k. auto.
  - exact (sc_with_sr (with_sent c _) ch s s' Hs).
  - exact (sc_with_sr (with_sent c _) ch s s' Hs).
  - intros k. auto.
Qed.

Lemma apply_acks_channels seqs c c' : apply_acks c seqs = Ok c' -> same_channels c c'.
Proof.
  exact (apply_acks_chain same_channels same_channels_refl same_channels_trans ack_step_channels seqs c c').
Qed.

Lemma parsed_step_channels c1 p c' : parsed_step c1 p c' -> same_channels c1 c'.
Proof.
  intros [p0 r0 _|sq ch ms r r' Hr _|sq ch ms r Hr|sq ch sl r r' Hr _|sq ch sl r r' Hr _|sq rs l c2 _ Ea].
  - apply sc_set_status.
  - now apply (sc_with_rr _ _ r).
  - now apply (sc_with_ru _ _ r).
  - now apply (sc_with_rr _ _ r).
  - now apply (sc_with_ru _ _ r).
  - exact (apply_acks_channels _ _ _ Ea).
Qed.

(* only the flush needs the invariant *)
Lemma conn_step_channels c o c2 out : conn_inv c -> conn_step c o c2 out -> same_channels c c2.
Proof.
  intros Hi [op st _|ch m s s' _ Hs _|ch m s _ _ Hs|ch r r' mo _ Hr _|ch r r' mo _ _ Hr _|dt ru sent Er _
            |c' bytes _ Ef|b p c' _ _ PS].
  - apply sc_set_status.
  - now apply (sc_with_sr _ _ s).
  - now apply (sc_with_su _ _ s).
  - now apply (sc_with_rr _ _ r).
  - now apply (sc_with_ru _ _ r).
  - intros ch. cbn [with_sent with_ru with_now c_sr c_su c_rr c_ru]. repeat split.
    apply sm_mem_keys_eq. exact (discard_all_keys _ _ _ Er).
  - exact (flush_channels _ _ _ Hi Ef).
  - exact (parsed_step_channels (note_seq c (packet_seq p)) p c' PS).
Qed.

Lemma cstep_channels c o c' out : conn_inv c -> cstep c o = Ok (c', out) -> same_channels c c'.
Proof. intros Hi E. exact (conn_step_channels c o c' out Hi (cstep_inv _ _ _ _ E)). Qed.

Lemma cop_ok_channels c c' o : same_channels c c' -> cop_ok c o -> cop_ok c' o.
Proof.
  intros H. destruct o; cbn [cop_ok]; auto; unfold has_send_channel, has_recv_channel;
    destruct (H ch) as (A1 & A2 & A3 & A4); congruence.
Qed.

(* the operations name channels of the initial connection *)
Definition ops_ok (c : conn) (ops : list cop) : Prop :=
  Forall (fun o => cop_ok c o /\ forall b, o = CProcess b -> bytes_ok b) ops.

Theorem crun_safe : forall ops c,
  conn_inv c -> ops_ok c ops ->
  match crun c ops with
  | Ok (c', _) => conn_inv c'
  | Err _ => False
  | Panic site => site = SITE_VARINT_TOO_LARGE
  end.
Proof.
  induction ops as [|o t IH]; intros c Hi Hops; cbn [crun]; [exact Hi|].
  inversion Hops as [|? ? [Ho Hb] Ht]; subst.
  pose proof (cstep_safe c o Hi Ho Hb) as Hs.
  destruct (cstep c o) as [[c1 out]|e|s] eqn:E; cbn [bind]; [|exact Hs|exact Hs].
  pose proof (cstep_channels c o c1 out Hi E) as Hsc.
  assert (Hops1 : ops_ok c1 t).
  { eapply Forall_impl; [|exact Ht]. intros o' [A B]. split; [|exact B]. eapply cop_ok_channels; eauto. }
  specialize (IH c1 Hs Hops1).
  destruct (crun c1 t) as [[c2 outs]|e|s]; cbn [bind]; exact IH.
Qed.

(* (C13) every serialised packet fits a netcode payload; serialisation never fails *)

Theorem renet_packets_fit : forall c c' pkts,
  conn_inv c -> get_packets_to_send c = Ok (c', pkts) ->
  Forall (fun p => len p <= NC_MAX_PAYLOAD_BYTES) pkts /\
  (forall e, c_status c' = Disconnected (RPacketSerialization e) ->
             c_status c = Disconnected (RPacketSerialization e)).
Proof.
  intros c c' pkts Hi E. destruct (is_disconnected c) eqn:Hd.
  - rewrite (DisconnectP.get_packets_to_send_disconnected_noop c Hd) in E. injection E as <- <-.
    split; [constructor|auto].
  - destruct (flush_spec c c' pkts Hi Hd E) as (c1 & av & pk & l & _ & _ & -> & HF2 & Hfits & _ & Hack).
    split; [|auto]. clear E. revert Hfits Hack.
    induction HF2 as [|p b l bs Hb _ IH]; intros Hfits Hack; [constructor|].
    inversion Hfits as [|? ? Hf1 Hf2]; subst. inversion Hack as [|? ? Ha1 Ha2]; subst.
    constructor; [|auto].
    pose proof (ConnEncP.to_bytes_cases SER_BUFFER p Ha1) as H. rewrite Hb in H.
    destruct H as (_ & -> & _). exact Hf1.
Qed.

(* (C14) budget and priority *)

Theorem priority_order : forall ord c avail c1 av pk,
  gather ord c avail [] = Ok (c1, av, pk) <-> gather_rel ord c avail c1 av pk.
Proof.
  intros ord c avail c1 av pk. split.
  - intros E. destruct (gather_rel_complete _ _ _ _ _ _ _ E) as (pk' & -> & H). exact H.
  - intros H. exact (gather_rel_sound _ _ _ _ _ _ H []).
Qed.

Theorem gather_spec : forall c c1 avail' pk,
  conn_inv c -> gather (c_order c) c (c_budget c) [] = Ok (c1, avail', pk) ->
  avail' + payload_total pk = c_budget c /\
  conn_inv c1 /\ frame_gather c c1 /\ sr_same_kinds (c_sr c) (c_sr c1) /\
  Forall (gathered_ok (c_sr c1)) pk /\
  seqs_from (c_seq c) pk /\ c_seq c1 = c_seq c + len pk.
Proof.
  intros c c1 av pk Hi E. apply priority_order in E.
  destruct (gather_facts _ _ _ _ _ _ E Hi) as [A B C D F G H].
  exact (conj D (conj A (conj F (conj G (conj H (conj C B)))))).
Qed.

Theorem gather_no_panic : forall c, conn_inv c ->
  exists c1 av pk, gather (c_order c) c (c_budget c) [] = Ok (c1, av, pk).
Proof.
  intros c Hi. destruct (gather_total (c_order c) c (c_budget c) Hi (ci_order c Hi)) as (c1 & av & pk & H).
  exists c1, av, pk. now apply priority_order.
Qed.

Theorem budget_respected : forall c c' bytes,
  conn_inv c -> get_packets_to_send c = Ok (c', bytes) ->
  bytes = [] \/
  exists c1 av pk,
    gather_rel (c_order c) c (c_budget c) c1 av pk /\
    av + payload_total pk = c_budget c /\ payload_total pk <= c_budget c /\
    Forall2 (fun p b => to_bytes SER_BUFFER p = Ok b)
            (pk ++ ack_part (c_seq c + len pk) (c_acks c)) bytes.
Proof.
  intros c c' bytes Hi E. destruct (is_disconnected c) eqn:Hd.
  - rewrite (DisconnectP.get_packets_to_send_disconnected_noop c Hd) in E. injection E as <- <-. now left.
  - right. destruct (flush_spec c c' bytes Hi Hd E) as (c1 & av & pk & pkts & -> & Hrel & _ & HF2 & _).
    pose proof (g_avail (gather_facts _ _ _ _ _ _ Hrel Hi)) as Hav.
    exists c1, av, pk. split; [exact Hrel|]. split; [exact Hav|]. split; [lia|exact HF2].
Qed.

(* (C08) acknowledgements *)

Theorem ack_only_parsed : forall c bytes c' e,
  process_packet c bytes = Ok c' -> from_bytes bytes = Err e -> c_acks c' = c_acks c.
Proof.
  intros c bytes c' e E He.
  destruct (process_packet_cases _ _ _ E) as [(st & _ & ->)|(p & _ & Hp & _)]; [reflexivity|congruence].
Qed.

(* a decoded packet adds no pending acknowledgement (its own sequence number was noted before) *)
Lemma parsed_step_acks c1 p c' : parsed_step c1 p c' -> conn_inv c1 -> packet_wf p ->
  forall x, in_ranges x (c_acks c') -> in_ranges x (c_acks c1).
Proof.
  intros [p0 r0 _| | | | |sq rs l c2 El Ea] Hi Hwf x Hx; try exact Hx.
  - destruct (process_ack_spec c1 rs l c2 Hi (packet_wf_ack_ranges _ _ Hwf) El Ea) as (_ & _ & Hacks). auto.
Qed.

Theorem acks_grow_only_by_parsed : forall c bytes c',
  conn_inv c -> bytes_ok bytes -> process_packet c bytes = Ok c' ->
  forall x, in_ranges x (c_acks c') ->
            in_ranges x (c_acks c) \/ exists p, from_bytes bytes = Ok p /\ x = packet_seq p.
Proof.
  intros c bytes c' Hi Hb E x Hx.
  destruct (process_packet_cases _ _ _ E) as [(st & _ & ->)|(p & _ & Hp & PS)]; [now left|].
  pose proof (PacketP.from_bytes_wf bytes p Hb Hp) as Hwf.
  apply (parsed_step_acks _ _ _ PS (inv_note_seq c p Hi Hwf) Hwf), (note_seq_sound c _ x Hi) in Hx.
  destruct Hx as [->|Hx]; [right; eauto|now left].
Qed.

(* the Ack packet of a flush carries exactly pending_acks, and it is the only Ack packet *)
Theorem flush_acks_subset : forall c c' bytes,
  conn_inv c -> is_disconnected c = false -> get_packets_to_send c = Ok (c', bytes) ->
  exists pk bs ba,
    bytes = bs ++ ba /\
    Forall2 (fun p b => to_bytes SER_BUFFER p = Ok b) pk bs /\
    Forall (fun p => is_ack p = false) pk /\
    match c_acks c with
    | [] => ba = []
    | acks => exists b, ba = [b] /\
                        to_bytes SER_BUFFER (Ack (c_seq c + len pk) acks) = Ok b /\
                        from_bytes b = Ok (Ack (c_seq c + len pk) acks)
    end.
Proof.
  intros c c' bytes Hi Hd E.
  destruct (flush_spec c c' bytes Hi Hd E) as (c1 & av & pk & pkts & -> & Hrel & _ & HF2 & _ & Hv & Hack).
  pose proof (g_pkts (gather_facts _ _ _ _ _ _ Hrel Hi)) as Hpk.
  apply Forall2_app_inv_l in HF2. destruct HF2 as (bs & ba & H1 & H2 & ->).
  exists pk, bs, ba. split; [reflexivity|]. split; [exact H1|].
  split; [eapply Forall_impl; [|exact Hpk]; intros p (_ & A & _); exact A|].
  apply Forall_app in Hv. destruct Hv as [_ Hv]. apply Forall_app in Hack. destruct Hack as [_ Hack].
  destruct (c_acks c) as [|ab t]; cbn [ack_part] in *.
  - inversion H2. reflexivity.
  - inversion H2 as [|? b ? ? Hb Hnil]; subst. inversion Hnil; subst.
    exists b. split; [reflexivity|]. split; [exact Hb|].
    inversion Hv as [|? ? Hv1 _]; subst. inversion Hack as [|? ? Ha1 _]; subst.
    cbn [ConnEncP.varints_ok ConnEncP.ack_ok] in Hv1, Ha1.
    eapply PacketP.packet_roundtrip'; [|exact Hb]. cbn [packet_wf]. tauto.
Qed.

Lemma apply_acks_release : forall seqs c c', conn_inv c -> NoDup seqs ->
  Forall (fun s => sm_mem s (c_sent c) = true) seqs -> apply_acks c seqs = Ok c' ->
  forall ch s s' id, sm_find ch (c_sr c) = Some s -> sm_find ch (c_sr c') = Some s' ->
    kind_of s id <> None -> kind_of s' id = None ->
    exists seq t info, In seq seqs /\ sm_find seq (c_sent c) = Some (t, info) /\ info_lists info ch id.
Proof.
  refine (apply_acks_ok_ind (fun seqs c c' => _) _ _).
  - intros c _ ch s s' id Hs Hs' Hk Hk'. congruence.
  - intros seq t c tm info c1 c' Hi _ Hf A _ _ Hack IH ch s s' id Hs Hs' Hk Hk'.
    specialize (Hack ch). rewrite Hs in Hack. destruct Hack as (s1 & Hs1 & _ & Hid).
    destruct (kind_of s1 id) as [k|] eqn:K1.
    + assert (Hk1 : kind_of s1 id <> None) by congruence.
      destruct (IH ch s1 s' id Hs1 Hs' Hk1 Hk') as (sq & tq & iq & Hin & Hfq & Hl).
      exists sq, tq, iq. split; [now right|]. split; [|exact Hl].
      rewrite (ack_step_sent _ _ _ _ A) in Hfq. now apply (sm_find_remove_some _ _ _ _ (ci_sent_sorted c Hi)) in Hfq.
    + exists seq, tm, info. split; [now left|]. split; [exact Hf|].
      destruct (Hid id) as (_ & Hrel & _). exact (released_by_lists s ch id info (Hrel Hk K1)).
Qed.

Lemma parsed_step_release c1 p c' : parsed_step c1 p c' -> conn_inv c1 -> packet_wf p ->
  no_release (c_sr c1) (c_sr c') \/
  exists sq rs, p = Ack sq rs /\
    forall ch s s' id, sm_find ch (c_sr c1) = Some s -> sm_find ch (c_sr c') = Some s' ->
      kind_of s id <> None -> kind_of s' id = None ->
      exists seq t info, in_ranges seq rs /\ sm_find seq (c_sent c1) = Some (t, info) /\ info_lists info ch id.
Proof.
  intros [p0 r0 _| | | | |sq rs l c2 El Ea] Hi Hwf; try (left; apply no_release_refl).
  - right. exists sq, rs. split; [reflexivity|]. intros ch s s' id Hs Hs' Hk Hk'.
    destruct (collect_new_acks_sent c1 rs l Hi (packet_wf_ack_ranges _ _ Hwf) El) as (Hnd & Hmem & Hl).
    destruct (apply_acks_release l c1 c2 Hi Hnd Hmem Ea ch s s' id Hs Hs' Hk Hk')
      as (seq & t & info & Hin & Hf & Hlists).
    exists seq, t, info. split; [now apply Hl|auto].
Qed.

(* a reliable message is released only by processing an acknowledgement that covers a tracked
   packet which carried it *)
Theorem release_needs_ack : forall c o c' out ch s s' id,
  conn_inv c -> cop_ok c o -> (forall b, o = CProcess b -> bytes_ok b) ->
  cstep c o = Ok (c', out) ->
  sm_find ch (c_sr c) = Some s -> sm_find ch (c_sr c') = Some s' ->
  kind_of s id <> None -> kind_of s' id = None ->
  exists bytes seq rs sq t info,
    o = CProcess bytes /\ from_bytes bytes = Ok (Ack sq rs) /\ in_ranges seq rs /\
    sm_find seq (c_sent c) = Some (t, info) /\ info_lists info ch id.
Proof.
  intros c o c' out ch s s' id Hi Hok Hb E Hs Hs' Hk Hk'.
  assert (Hnr : ~ no_release (c_sr c) (c_sr c')) by (intros H; exact (H ch s s' id Hs Hs' Hk Hk')).
  destruct (cstep_inv _ _ _ _ E) as [op st _|c0 m s0 s1 _ Hs0 Es0|c0 m s0 _ _ _|c0 r r' mo _ _ _|c0 r r' mo _ _ _ _
                                    |dt ru sent _ _|c' bytes _ Ef|b p c' _ Hp PS].
  8:{ pose proof (PacketP.from_bytes_wf b p (Hb b eq_refl) Hp) as Hwf.
      pose proof (inv_note_seq c p Hi Hwf) as Hi1.
      destruct (parsed_step_release _ _ _ PS Hi1 Hwf) as [H|(sq & rs & -> & Hrel)]; [contradiction|].
      destruct (Hrel ch s s' id Hs Hs' Hk Hk') as (seq & t & info & Hin & Hf & Hlists).
      exists b, seq, rs, sq, t, info. auto. }
  (* no other call releases a message: a send adds an id, a flush keeps the kinds, the rest leave c_sr alone *)
  all: destruct Hnr.
  2:{ exact (send_rel_no_release c c0 m s0 s1 Hi Hs0 Es0). }
  6:{ intros k s2 s3 j H1 H2. pose proof (flush_same_kinds c c' bytes Hi Ef k) as H. rewrite H1 in H.
      destruct H as (s4 & H4 & _ & Hkinds). rewrite H2 in H4. injection H4 as <-. now rewrite Hkinds. }
  all: apply no_release_refl.
Qed.

Theorem sent_info_faithful : forall c c' bytes,
  conn_inv c -> is_disconnected c = false -> get_packets_to_send c = Ok (c', bytes) ->
  exists pk,
    Forall2 (fun p b => to_bytes SER_BUFFER p = Ok b) pk bytes /\
    seqs_from (c_seq c) pk /\
    (forall p, In p pk -> sm_find (packet_seq p) (c_sent c') = Some (c_now c, pkt_info p)) /\
    (forall k v, sm_find k (c_sent c') = Some v ->
       sm_find k (c_sent c) = Some v \/
       exists p, In p pk /\ packet_seq p = k /\ v = (c_now c, pkt_info p)) /\
    (forall k, k < c_seq c -> sm_find k (c_sent c') = sm_find k (c_sent c)).
Proof.
  intros c c' bytes Hi Hd E.
  destruct (flush_spec c c' bytes Hi Hd E) as (c1 & av & pk & pkts & Epk & Hrel & -> & HF2 & _).
  pose proof (g_seqs (gather_facts _ _ _ _ _ _ Hrel Hi)) as Hseqs.
  exists pkts. split; [exact HF2|].
  assert (Hseqs2 : seqs_from (c_seq c) pkts).
  { subst pkts. apply SMapSendP.seqs_from_app. split; [exact Hseqs|].
    destruct (c_acks c); cbn [ack_part seqs_from packet_seq]; [exact I|]. split; [lia|exact I]. }
  split; [exact Hseqs2|]. cbn [flushed c_sent].
  split; [|split].
  - intros p Hp. apply rec_sent_find_new; [|exact Hp]. eapply seqs_from_nodup; eauto.
  - intros k v Hf. now apply rec_sent_find_inv in Hf.
  - intros k Hk. apply rec_sent_find_old. intros Hin. apply in_map_iff in Hin.
    destruct Hin as (p & <- & Hp). pose proof (seqs_from_bounds _ _ Hseqs2) as HB.
    rewrite Forall_forall in HB. specialize (HB p Hp). lia.
Qed.

(* (C11) channel isolation *)

(* sending on a channel touches that send channel only (and possibly the status) *)
Theorem channel_frame_send : forall c ch m c',
  send_message c ch m = Ok c' ->
  (forall ch', ch' <> ch ->
     sm_find ch' (c_sr c') = sm_find ch' (c_sr c) /\ sm_find ch' (c_su c') = sm_find ch' (c_su c)) /\
  c_rr c' = c_rr c /\ c_ru c' = c_ru c /\ c_acks c' = c_acks c /\ c_sent c' = c_sent c /\
  c_seq c' = c_seq c /\ c_now c' = c_now c.
Proof.
  intros c ch m c' E. apply send_message_inv in E.
  inversion E as [op st _|ch0 m0 s s' _ _ _|ch0 m0 s _ _ _| | | | |]; subst.
  - repeat split.
  - split; [|repeat split]. intros ch' Hne. split; [|reflexivity]. now apply sm_find_insert_other.
  - split; [|repeat split]. intros ch' Hne. split; [reflexivity|]. now apply sm_find_insert_other.
Qed.

Theorem channel_frame_receive : forall c ch c' m,
  receive_message c ch = Ok (c', m) ->
  (forall ch', ch' <> ch ->
     sm_find ch' (c_rr c') = sm_find ch' (c_rr c) /\ sm_find ch' (c_ru c') = sm_find ch' (c_ru c)) /\
  c_sr c' = c_sr c /\ c_su c' = c_su c /\ c_acks c' = c_acks c /\ c_sent c' = c_sent c /\
  c_seq c' = c_seq c /\ c_now c' = c_now c /\ c_status c' = c_status c.
Proof.
  intros c ch c' m E. apply receive_message_inv in E.
  inversion E as [op st S| | |ch0 r r' mo _ _ _|ch0 r r' mo _ _ _ _| | |]; subst.
  - (* a receive sets no status: the connection was dead *)
    destruct (status_only_dead _ _ _ S eq_refl) as (_ & _ & ->). repeat split.
  - split; [|repeat split]. intros ch' Hne. split; [|reflexivity]. now apply sm_find_insert_other.
  - split; [|repeat split]. intros ch' Hne. split; [reflexivity|]. now apply sm_find_insert_other.
Qed.

Lemma data_packet_frame c p c' :
  parsed_step c p c' -> is_ack p = false ->
  (forall ch', ch' <> packet_ch p ->
     sm_find ch' (c_rr c') = sm_find ch' (c_rr c) /\ sm_find ch' (c_ru c') = sm_find ch' (c_ru c)) /\
  (is_rel_packet p = true -> c_ru c' = c_ru c) /\ (is_rel_packet p = false -> c_rr c' = c_rr c) /\
  c_sr c' = c_sr c /\ c_su c' = c_su c /\ c_sent c' = c_sent c /\ c_acks c' = c_acks c.
Proof.
  intros [p0 r0 _|sq ch ms r r' _ _|sq ch ms r _|sq ch sl r r' _ _|sq ch sl r r' _ _|sq rs l c2 _ _] Hna;
    cbn [packet_ch is_rel_packet].
  - repeat split.
  - split; [|repeat split; congruence]. intros ch' Hne. split; [|reflexivity]. now apply sm_find_insert_other.
  - split; [|repeat split; congruence]. intros ch' Hne. split; [reflexivity|]. now apply sm_find_insert_other.
  - split; [|repeat split; congruence]. intros ch' Hne. split; [|reflexivity]. now apply sm_find_insert_other.
  - split; [|repeat split; congruence]. intros ch' Hne. split; [reflexivity|]. now apply sm_find_insert_other.
  - discriminate Hna.
Qed.

(* a data packet naming channel ch changes no other receive channel, no send channel and no
   tracked packet (pending_acks only learns its sequence number) *)
Theorem channel_frame_process : forall c bytes c' p,
  process_packet c bytes = Ok c' -> from_bytes bytes = Ok p -> is_ack p = false ->
  (forall ch', ch' <> packet_ch p ->
     sm_find ch' (c_rr c') = sm_find ch' (c_rr c) /\ sm_find ch' (c_ru c') = sm_find ch' (c_ru c)) /\
  (is_rel_packet p = true -> c_ru c' = c_ru c) /\ (is_rel_packet p = false -> c_rr c' = c_rr c) /\
  c_sr c' = c_sr c /\ c_su c' = c_su c /\ c_sent c' = c_sent c /\
  (c_acks c' = c_acks c \/ c_acks c' = add_pending_ack (c_acks c) (packet_seq p)).
Proof.
  intros c bytes c' p E Hp Hna.
  destruct (process_packet_cases _ _ _ E) as [(st & _ & ->)|(p0 & _ & Hp0 & PS)].
  - repeat split; auto.
  - rewrite Hp in Hp0. injection Hp0 as <-.
    destruct (data_packet_frame _ p c' PS Hna) as (A1 & A2 & A3 & A4 & A5 & A6 & A7).
    cbn [note_seq with_acks c_sr c_su c_rr c_ru c_sent c_acks] in *.
    exact (conj A1 (conj A2 (conj A3 (conj A4 (conj A5 (conj A6 (or_intror A7))))))).
Qed.

Lemma process_packet_su c bytes c' : process_packet c bytes = Ok c' -> c_su c' = c_su c.
Proof.
  intros Ep. destruct (process_packet_cases _ _ _ Ep) as [(st & _ & ->)|(p & _ & _ & PS)]; [reflexivity|]. clear Ep.
  remember (note_seq c (packet_seq p)) as c1 eqn:Ec1.
  destruct PS as [p r _| | | | |sq rs l c' _ Ea]; subst c1; try reflexivity.
  exact (af_su (apply_acks_frame _ _ _ Ea)).
Qed.

Theorem channel_frame :
  (forall c ch m c', send_message c ch m = Ok c' ->
     forall ch', ch' <> ch ->
       sm_find ch' (c_sr c') = sm_find ch' (c_sr c) /\ sm_find ch' (c_su c') = sm_find ch' (c_su c) /\
       sm_find ch' (c_rr c') = sm_find ch' (c_rr c) /\ sm_find ch' (c_ru c') = sm_find ch' (c_ru c)) /\
  (forall c ch c' m, receive_message c ch = Ok (c', m) ->
     forall ch', ch' <> ch ->
       sm_find ch' (c_sr c') = sm_find ch' (c_sr c) /\ sm_find ch' (c_su c') = sm_find ch' (c_su c) /\
       sm_find ch' (c_rr c') = sm_find ch' (c_rr c) /\ sm_find ch' (c_ru c') = sm_find ch' (c_ru c)) /\
  (forall c bytes c' p, process_packet c bytes = Ok c' -> from_bytes bytes = Ok p -> is_ack p = false ->
     forall ch', ch' <> packet_ch p ->
       sm_find ch' (c_sr c') = sm_find ch' (c_sr c) /\ sm_find ch' (c_su c') = sm_find ch' (c_su c) /\
       sm_find ch' (c_rr c') = sm_find ch' (c_rr c) /\ sm_find ch' (c_ru c') = sm_find ch' (c_ru c)).
Proof.
  split; [|split].
  - intros c ch m c' E ch' Hne. destruct (channel_frame_send c ch m c' E) as (A & B & C & _).
    destruct (A ch' Hne). rewrite B, C. auto.
  - intros c ch c' m E ch' Hne. destruct (channel_frame_receive c ch c' m E) as (A & B & C & _).
    destruct (A ch' Hne). rewrite B, C. auto.
  - intros c bytes c' p E Hp Hna ch' Hne.
    destruct (channel_frame_process c bytes c' p E Hp Hna) as (A & _ & _ & B & C & _).
    destruct (A ch' Hne). rewrite B, C. auto.
Qed.

(* non-vacuity: the three default channels, one message there and its acknowledgement back *)

Definition ex_cfg : list chan_config :=
  [ {| cc_id := 0; cc_max := 10000; cc_type := TUnreliable |};
    {| cc_id := 1; cc_max := 10000; cc_type := TReliableUnordered 300000000 |};
    {| cc_id := 2; cc_max := 10000; cc_type := TReliableOrdered 300000000 |} ].
Definition ex_msg : list N := [104; 105; 33].

Definition pending_ids (c : conn) (ch : N) : option (list N) :=
  match sm_find ch (c_sr c) with Some s => Some (map fst (sr_unacked s)) | None => None end.

Definition ex_conn : conn := ltac:(evaluated (conn_new 60000 ex_cfg ex_cfg)).
Lemma ex_conn_eq : conn_new 60000 ex_cfg ex_cfg = Ok ex_conn.
Proof. evaluates. Qed.

Lemma ex_conn_inv : conn_inv ex_conn.
Proof. exact (conn_inv_init _ _ _ _ ex_conn_eq). Qed.

Definition ex_sent : conn := ltac:(evaluated (do r <- crun ex_conn [CSend 2 ex_msg]; Ok (fst r))).
Lemma ex_sent_eq : crun ex_conn [CSend 2 ex_msg] = Ok (ex_sent, [ONone]).
Proof. evaluates. Qed.

Definition ex_p1 : list (list N) := [[0; 0; 2; 0; 1; 0; 3; 104; 105; 33]].
Definition ex_a1 : conn := ltac:(evaluated (do r <- crun ex_sent [CFlush]; Ok (fst r))).
Lemma ex_a1_eq : crun ex_conn [CSend 2 ex_msg; CFlush] = Ok (ex_a1, [ONone; OPkts ex_p1]).
Proof.
  assert (E : crun ex_sent [CFlush] = Ok (ex_a1, [OPkts ex_p1])) by evaluates.
  exact (DisconnectP.crun_app _ _ _ _ _ _ _ ex_sent_eq E).
Qed.

Definition ex_p2 : list (list N) := [[4; 0; 0; 0; 0]].
Definition ex_b1 : conn :=
  ltac:(evaluated (do r <- crun ex_conn (map CProcess ex_p1 ++ [CRecv 2; CFlush]); Ok (fst r))).
Lemma ex_b1_eq :
  crun ex_conn (map CProcess ex_p1 ++ [CRecv 2; CFlush]) = Ok (ex_b1, [ONone; OMsg (Some ex_msg); OPkts ex_p2]).
Proof. evaluates. Qed.

Definition ex_a2 : conn * list cout := ltac:(evaluated (crun ex_a1 (map CProcess ex_p2))).
Lemma ex_a2_eq : crun ex_a1 (map CProcess ex_p2) = Ok ex_a2.
Proof. evaluates. Qed.

Lemma crun_inv c ops c' outs : conn_inv c -> ops_ok c ops -> crun c ops = Ok (c', outs) -> conn_inv c'.
Proof. intros Hi Ho E. pose proof (crun_safe ops c Hi Ho) as H. rewrite E in H. exact H. Qed.

Lemma ops_ok_process c ps : Forall bytes_ok ps -> ops_ok c (map CProcess ps).
Proof.
  intros H. apply Forall_map. eapply Forall_impl; [|exact H].
  intros b Hb. split; [exact I|]. intros b' [= <-]. exact Hb.
Qed.

Example conn_roundtrip :
  exists a a1 p1 b1 p2 a2 outs2,
    conn_new 60000 ex_cfg ex_cfg = Ok a /\ conn_inv a /\
    (* the first connection sends on channel 2 and flushes *)
    crun a [CSend 2 ex_msg; CFlush] = Ok (a1, [ONone; OPkts p1]) /\
    pending_ids a1 2 = Some [0] /\ c_sent a1 = [(0, (0, SIReliableMessages 2 [0]))] /\
    (* a second connection processes those bytes, delivers the message and flushes its Ack *)
    crun a (map CProcess p1 ++ [CRecv 2; CFlush]) = Ok (b1, [ONone; OMsg (Some ex_msg); OPkts p2]) /\
    (* the first connection processes the Ack: the message is released *)
    crun a1 (map CProcess p2) = Ok (a2, outs2) /\
    pending_ids a2 2 = Some [] /\ c_sent a2 = [] /\
    conn_inv a1 /\ conn_inv b1 /\ conn_inv a2.
Proof.
  assert (Hp1 : Forall bytes_ok ex_p1) by (repeat constructor).
  assert (Hp2 : Forall bytes_ok ex_p2) by (repeat constructor).
  assert (Hia1 : conn_inv ex_a1).
  { refine (crun_inv _ _ _ _ ex_conn_inv _ ex_a1_eq).
    constructor; [split; [reflexivity|discriminate]|]. constructor; [split; [exact I|discriminate]|constructor]. }
  exists ex_conn, ex_a1, ex_p1, ex_b1, ex_p2, (fst ex_a2), (snd ex_a2).
  split; [exact ex_conn_eq|]. split; [exact ex_conn_inv|]. split; [exact ex_a1_eq|].
  split; [reflexivity|]. split; [reflexivity|]. split; [exact ex_b1_eq|]. split; [exact ex_a2_eq|].
  split; [reflexivity|]. split; [reflexivity|]. split; [exact Hia1|]. split.
  - refine (crun_inv _ _ _ _ ex_conn_inv _ ex_b1_eq).
    apply Forall_app. split; [now apply ops_ok_process|].
    constructor; [split; [reflexivity|discriminate]|]. constructor; [split; [exact I|discriminate]|constructor].
  - apply (crun_inv _ _ _ _ Hia1 (ops_ok_process _ _ Hp2) ex_a2_eq).
Qed.

(* the priority order is the order of the send configurations *)
Definition order_entry (cfg : chan_config) : bool * N :=
  (match cc_type cfg with TUnreliable => false | _ => true end, cc_id cfg).

Lemma build_send_order cfgs : forall su sr ord su' sr' ord',
  build_send cfgs su sr ord = Ok (su', sr', ord') -> ord' = ord ++ map order_entry cfgs.
Proof.
  induction cfgs as [|cfg t IH]; intros su sr ord su' sr' ord' E; cbn [build_send map] in *.
  - inversion E. now rewrite app_nil_r.
  - unfold order_entry at 1. destruct (cc_type cfg) as [|rt|rt].
    + destruct (sm_mem (cc_id cfg) su); [discriminate|]. apply IH in E. now rewrite <- app_assoc in E.
    + destruct (sm_mem (cc_id cfg) sr); [discriminate|]. apply IH in E. now rewrite <- app_assoc in E.
    + destruct (sm_mem (cc_id cfg) sr); [discriminate|]. apply IH in E. now rewrite <- app_assoc in E.
Qed.

Theorem conn_new_order : forall budget scfg rcfg c,
  conn_new budget scfg rcfg = Ok c -> c_order c = map order_entry scfg /\ c_budget c = budget.
Proof.
  intros budget scfg rcfg c E. split; [exact (build_send_order _ _ _ _ _ _ _ (conn_new_send _ _ _ _ E))|].
  pose proof (conn_new_cases budget scfg rcfg) as C. rewrite E in C. apply C.
Qed.

(* process_packet_total, read as the memory bound: whatever bytes arrive, every receive channel
   stays within its configured memory limit *)
Corollary process_packet_memory_bounded : forall c bytes c',
  conn_inv c -> bytes_ok bytes -> process_packet c bytes = Ok c' ->
  (forall ch r, sm_find ch (c_rr c') = Some r -> rr_mem r <= rr_max r) /\
  (forall ch r, sm_find ch (c_ru c') = Some r -> ru_mem r <= ru_max r) /\
  len (c_acks c') <= MAX_ACK_RANGES.
Proof.
  intros c bytes c' Hi Hb E. destruct (process_packet_total c bytes Hi Hb) as (c2 & E2 & Hi2).
  rewrite E in E2. inversion E2; subst c2. split; [|split].
  - intros ch r Hr. destruct (inv_find_rr _ _ _ Hi2 Hr) as (_ & H & _). exact H.
  - intros ch r Hr. destruct (inv_find_ru _ _ _ Hi2 Hr) as (_ & H & _). exact H.
  - exact (ci_acks_len c' Hi2).
Qed.

(* the first channel of the priority order is served as if it were alone, with the whole budget *)
Corollary first_channel_gets_full_budget : forall c ch t c1 av pk s,
  c_order c = (true, ch) :: t -> sm_find ch (c_sr c) = Some s ->
  gather (c_order c) c (c_budget c) [] = Ok (c1, av, pk) ->
  exists s' pk1 seq' av1 pk2,
    sr_get_packets s (c_seq c) (c_budget c) (c_now c) = Ok (s', pk1, seq', av1) /\ pk = pk1 ++ pk2.
Proof.
  intros c ch t c1 av pk s Hord Hs E. apply priority_order in E. rewrite Hord in E.
  inversion E as [| ? ? ? ? s0 s' pk1 seq' av1 ? ? pk2 Hs0 Eg _ |]; subst.
  rewrite Hs in Hs0. injection Hs0 as <-. exists s', pk1, seq', av1, pk2. split; [exact Eg | reflexivity].
Qed.

(* an observation on the model (and on remote_connection.rs, where add_pending_ack(packet.sequence())
   is called for every parsed packet, Ack packets included): Ack packets are themselves
   acknowledged, so after a single message two otherwise idle connections exchange one Ack
   packet per flush for ever, each consuming a sequence number. x flushes, y processes, swap. *)
Definition xfer (x y : conn) : option (conn * conn * list (list N)) :=
  match crun x [CUpdate 16000000; CFlush] with
  | Ok (x1, [_; OPkts p]) =>
      match crun y (map CProcess p) with Ok (y1, _) => Some (x1, y1, p) | _ => None end
  | _ => None
  end.
Fixpoint pingpong (n : nat) (x y : conn) (acc : list (list (list N))) : option (list (list (list N))) :=
  match n with
  | O => Some (List.rev acc)
  | S k => match xfer x y with Some (x1, y1, p) => pingpong k y1 x1 (p :: acc) | None => None end
  end.

Example ack_ping_pong :
  match conn_new 60000 ex_cfg ex_cfg with
  | Ok a => match crun a [CSend 2 ex_msg] with
            | Ok (a1, _) => pingpong 8 a1 a []
            | _ => None
            end
  | _ => None
  end =
  Some [ [[0; 0; 2; 0; 1; 0; 3; 104; 105; 33]];   (* the message *)
         [[4; 0; 0; 0; 0]];                        (* its acknowledgement *)
         [[4; 1; 0; 0; 0]]; [[4; 1; 1; 0; 0]];     (* and then acknowledgements of acknowledgements *)
         [[4; 2; 1; 0; 0]]; [[4; 2; 2; 0; 0]]; [[4; 3; 2; 0; 0]]; [[4; 3; 3; 0; 0]] ].
Proof. rewrite ex_conn_eq. cbv beta iota. rewrite ex_sent_eq. evaluates. Qed.

(* counters_small is satisfiable: the first connection of the example, after its send *)
Example counters_small_example :
  exists a a1 outs, conn_new 60000 ex_cfg ex_cfg = Ok a /\
    crun a [CSend 2 ex_msg] = Ok (a1, outs) /\ counters_small a1 /\ flush_pkt_bound a1 = 5.
Proof.
  exists ex_conn, ex_sent, [ONone]. split; [exact ex_conn_eq|]. split; [exact ex_sent_eq|].
  assert (Hb : flush_pkt_bound ex_sent = 5) by evaluates.
  split; [|exact Hb]. split; [rewrite Hb; vm_compute; discriminate|].
  unfold sr_small, su_small. split; repeat constructor; vm_compute; discriminate.
Qed.

Print Assumptions conn_inv_init.
Print Assumptions conn_new_panics_only_on_duplicates.
Print Assumptions process_packet_total.
Print Assumptions cstep_safe.
Print Assumptions crun_safe.
Print Assumptions flush_no_overflow.
Print Assumptions cstep_no_panic.
Print Assumptions renet_packets_fit.
Print Assumptions gather_spec.
Print Assumptions gather_no_panic.
Print Assumptions budget_respected.
Print Assumptions priority_order.
Print Assumptions ack_only_parsed.
Print Assumptions acks_grow_only_by_parsed.
Print Assumptions flush_acks_subset.
Print Assumptions release_needs_ack.
Print Assumptions sent_info_faithful.
Print Assumptions channel_frame_send.
Print Assumptions channel_frame_receive.
Print Assumptions channel_frame_process.
Print Assumptions channel_frame.
Print Assumptions conn_roundtrip.
Print Assumptions conn_new_order.
Print Assumptions process_packet_memory_bounded.
Print Assumptions counters_small_example.
Print Assumptions first_channel_gets_full_budget.
Print Assumptions ack_ping_pong.

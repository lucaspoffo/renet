(* SendUnrelP.v - SendChannelUnreliable: invariant, send, get_packets_to_send against an
   explicit specification function, sizes. *)
From RenetV Require Import Base Consts Varint Packet Channels RecvSpec SendSpec SMapSendP PackP BaseP.
Require Import Lia ZifyBool ZifyN ZifyNat.
Open Scope N_scope.
Local Opaque SLICE_SIZE.

Theorem su_inv_init : forall ch max, su_inv (send_unrel_new ch max).
Proof. intros. unfold su_inv, send_unrel_new; cbn [su_mem su_queue su_max]. split; [reflexivity|lia]. Qed.

Lemma su_send_cases s m :
  su_sliced_id (su_send s m) = su_sliced_id s /\
  (su_queue (su_send s m) = su_queue s \/ su_queue (su_send s m) = su_queue s ++ [m]).
Proof. unfold su_send. destruct (su_max s <? su_mem s + len m); cbn [su_sliced_id su_queue]; auto. Qed.

Theorem su_send_safe : forall s m, su_inv s ->
  su_inv (su_send s m) /\
  (if su_max s <? su_mem s + len m
   then su_send s m = s
   else su_queue (su_send s m) = su_queue s ++ [m] /\ su_mem (su_send s m) = su_mem s + len m /\
        su_sliced_id (su_send s m) = su_sliced_id s /\ su_max (su_send s m) = su_max s /\
        su_ch (su_send s m) = su_ch s).
Proof.
  intros s m [H1 H2]. unfold su_send.
  destruct (N.ltb_spec (su_max s) (su_mem s + len m)) as [Hfull|Hfit].
  - split; [split; assumption|reflexivity].
  - split; [|cbn [su_queue su_mem su_sliced_id su_max su_ch]; auto].
    unfold su_inv; cbn [su_mem su_queue su_max]. split; [|lia].
    rewrite map_app, sum_app. cbn [map]. rewrite sum_one. lia.
Qed.

(* budget decisions, in queue order: a message is dropped iff it exceeds what is left at its turn *)
Fixpoint su_kept (avail : N) (q : list (list N)) : list (list N) :=
  match q with
  | [] => []
  | m :: t => if avail <? len m then su_kept avail t else m :: su_kept (avail - len m) t
  end.

Fixpoint su_left (avail : N) (q : list (list N)) : N :=
  match q with
  | [] => avail
  | m :: t => if avail <? len m then su_left avail t else su_left (avail - len m) t
  end.

Definition is_large (m : list N) : bool := SLICE_SIZE <? len m.

Lemma is_large_pos m : is_large m = true -> 0 < len m.
Proof. unfold is_large. intros H. apply N.ltb_lt in H. pose proof SliceP.SLICE_SIZE_pos. lia. Qed.

Fixpoint uslices (ch sid : N) (m : list N) (seq : N) (idxs : list N) : list packet :=
  match idxs with
  | [] => []
  | i :: t => UnreliableSlice seq ch (slice_of m sid i) :: uslices ch sid m (seq + 1) t
  end.

Definition unrel_slice_pkts (ch sid : N) (m : list N) (seq : N) : list packet :=
  uslices ch sid m seq (iota (num_slices_of m)).

(* packing of the kept messages; [cur] = small messages waiting for the next SmallUnreliable packet *)
Fixpoint su_pack (ch : N) (kept : list (list N)) (sid seq : N) (cur : list (list N)) : list packet :=
  match kept with
  | [] => match cur with [] => [] | _ => [SmallUnreliable seq ch cur] end
  | m :: t =>
      if is_large m then
        unrel_slice_pkts ch sid m seq ++ su_pack ch t (sid + 1) (seq + num_slices_of m) cur
      else if SLICE_SIZE <? sum (map unrel_entry_size cur) + unrel_entry_size m then
        SmallUnreliable seq ch cur :: su_pack ch t sid (seq + 1) [m]
      else su_pack ch t sid seq (cur ++ [m])
  end.

Definition su_spec (s : send_unrel) (seq avail : N) : send_unrel * list packet * N * N :=
  let kept := su_kept avail (su_queue s) in
  let pkts := su_pack (su_ch s) kept (su_sliced_id s) seq [] in
  ({| su_ch := su_ch s; su_queue := [];
      su_sliced_id := su_sliced_id s + len (filter is_large kept);
      su_max := su_max s; su_mem := 0 |},
   pkts, seq + len pkts, su_left avail (su_queue s)).

Definition range (i : N) (fuel : nat) : list N := map N.of_nat (seq (N.to_nat i) fuel).

Lemma range_S i f : range i (S f) = i :: range (i + 1) f.
Proof.
  unfold range. cbn [List.seq map]. rewrite N2Nat.id. f_equal.
  replace (N.to_nat (i + 1)) with (S (N.to_nat i)) by lia. reflexivity.
Qed.

Lemma range_iota n : range 0 (N.to_nat n) = iota n.
Proof. reflexivity. Qed.

Lemma uslices_numbered ch sid m idxs : forall seq,
  uslices ch sid m seq idxs = numbered (fun q i => UnreliableSlice q ch (slice_of m sid i)) seq idxs.
Proof. induction idxs as [|i t IH]; intros seq; cbn [uslices numbered]; [reflexivity|]. now rewrite IH. Qed.

Lemma unrel_slice_pkts_numbered ch sid m seq :
  unrel_slice_pkts ch sid m seq =
  numbered (fun q i => UnreliableSlice q ch (slice_of m sid i)) seq (iota (num_slices_of m)).
Proof. apply uslices_numbered. Qed.

Lemma len_unrel_slice_pkts ch sid m seq : len (unrel_slice_pkts ch sid m seq) = num_slices_of m.
Proof. rewrite unrel_slice_pkts_numbered, len_numbered. apply len_iota. Qed.

Lemma unrel_slices_spec ch sid m (Hm : 0 < len m) : forall fuel i sq acc,
  N.of_nat fuel + i = num_slices_of m ->
  unrel_slices fuel i ch sid (num_slices_of m) m sq acc =
    Ok (acc ++ uslices ch sid m sq (range i fuel), sq + N.of_nat fuel).
Proof.
  induction fuel as [|f IH]; intros i sq acc Hk.
  - cbn [unrel_slices range List.seq map uslices]. rewrite app_nil_r, N.add_0_r. reflexivity.
  - cbn [unrel_slices].
    pose proof (slice_range_test m i Hm ltac:(lia)) as Hrt. cbv zeta in Hrt. rewrite Hrt.
    rewrite IH by lia. rewrite range_S. cbn [uslices]. rewrite <- app_assoc. cbn [app].
    do 2 f_equal. lia.
Qed.

Definition fin_pkts (ch : N) (a : uacc) : list packet :=
  match u_small a with [] => u_pkts a | sm => u_pkts a ++ [SmallUnreliable (u_seq a) ch sm] end.
Definition fin_seq (a : uacc) : N :=
  match u_small a with [] => u_seq a | _ => u_seq a + 1 end.

(* what the loop over the queue q leaves behind when it starts with the packets pk, the open body
   sm, the sequence number sq, the budget av, the slice id sid and the memory count mem *)
Definition su_post (ch : N) (pk : list packet) (sm : list (list N)) (sq av sid mem : N)
           (q : list (list N)) (a' : uacc) : Prop :=
  fin_pkts ch a' = pk ++ su_pack ch (su_kept av q) sid sq sm /\
  fin_seq a' = sq + len (su_pack ch (su_kept av q) sid sq sm) /\
  u_avail a' = su_left av q /\
  u_sliced_id a' = sid + len (filter is_large (su_kept av q)) /\
  u_mem a' = mem - sum (map len q).

Lemma su_post_drop ch pk sm sq av sid mem m t a' :
  av < len m -> su_post ch pk sm sq av sid (mem - len m) t a' -> su_post ch pk sm sq av sid mem (m :: t) a'.
Proof.
  intros H (P1 & P2 & P3 & P4 & P5). apply N.ltb_lt in H.
  unfold su_post. cbn [su_kept su_left map]. rewrite H, sum_cons. repeat split; auto. lia.
Qed.

Lemma su_post_large ch pk sm sq av sid mem m t a' :
  len m <= av -> is_large m = true ->
  su_post ch (pk ++ unrel_slice_pkts ch sid m sq) sm (sq + num_slices_of m) (av - len m) (sid + 1)
          (mem - len m) t a' ->
  su_post ch pk sm sq av sid mem (m :: t) a'.
Proof.
  intros H L (P1 & P2 & P3 & P4 & P5). apply N.ltb_ge in H.
  unfold su_post. cbn [su_kept su_left map]. rewrite H. cbn [su_pack filter]. rewrite L, sum_cons.
  split; [rewrite P1, <- app_assoc; reflexivity|].
  split; [rewrite P2, len_app, len_unrel_slice_pkts; lia|].
  split; [exact P3|]. split; [rewrite P4, len_cons; lia|lia].
Qed.

Lemma su_post_flush ch pk sm sq av sid mem m t a' :
  len m <= av -> is_large m = false -> SLICE_SIZE < sum (map unrel_entry_size sm) + unrel_entry_size m ->
  su_post ch (pk ++ [SmallUnreliable sq ch sm]) [m] (sq + 1) (av - len m) sid (mem - len m) t a' ->
  su_post ch pk sm sq av sid mem (m :: t) a'.
Proof.
  intros H L F (P1 & P2 & P3 & P4 & P5). apply N.ltb_ge in H. apply N.ltb_lt in F.
  unfold su_post. cbn [su_kept su_left map]. rewrite H. cbn [su_pack filter]. rewrite L, F, sum_cons.
  split; [rewrite P1, <- app_assoc; reflexivity|].
  split; [rewrite P2, len_cons; lia|]. repeat split; auto. lia.
Qed.

Lemma su_post_add ch pk sm sq av sid mem m t a' :
  len m <= av -> is_large m = false -> sum (map unrel_entry_size sm) + unrel_entry_size m <= SLICE_SIZE ->
  su_post ch pk (sm ++ [m]) sq (av - len m) sid (mem - len m) t a' ->
  su_post ch pk sm sq av sid mem (m :: t) a'.
Proof.
  intros H L F (P1 & P2 & P3 & P4 & P5). apply N.ltb_ge in H. apply N.ltb_ge in F.
  unfold su_post. cbn [su_kept su_left map]. rewrite H. cbn [su_pack filter]. rewrite L, F, sum_cons.
  repeat split; auto. lia.
Qed.

Lemma su_loop_spec ch : forall q a,
  sum (map len q) <= u_mem a ->
  u_small_bytes a = sum (map unrel_entry_size (u_small a)) ->
  exists a',
    su_loop ch q a = Ok a' /\
    su_post ch (u_pkts a) (u_small a) (u_seq a) (u_avail a) (u_sliced_id a) (u_mem a) q a'.
Proof.
  induction q as [|m t IH]; intros a Hmem Hbytes.
  - exists a. split; [reflexivity|]. unfold su_post, fin_pkts, fin_seq.
    cbn [su_kept su_left su_pack filter map]. rewrite sum_nil, len_nil.
    destruct (u_small a); rewrite ?app_nil_r, ?len_nil, ?len_one; repeat split; try reflexivity; lia.
  - cbn [map] in Hmem. rewrite sum_cons in Hmem.
    cbn [su_loop]. rewrite sub_chk_ok by lia. cbn [bind].
    (* in each case the loop goes on from an accumulator a1 to which the induction hypothesis
       applies; what is left to show is the matching case of the specification *)
    assert (Hcont : forall a1, u_mem a1 = u_mem a - len m ->
      u_small_bytes a1 = sum (map unrel_entry_size (u_small a1)) ->
      (forall a', su_post ch (u_pkts a1) (u_small a1) (u_seq a1) (u_avail a1) (u_sliced_id a1) (u_mem a1) t a' ->
                  su_post ch (u_pkts a) (u_small a) (u_seq a) (u_avail a) (u_sliced_id a) (u_mem a) (m :: t) a') ->
      exists a', su_loop ch t a1 = Ok a' /\
                 su_post ch (u_pkts a) (u_small a) (u_seq a) (u_avail a) (u_sliced_id a) (u_mem a) (m :: t) a').
    { intros a1 Hm Hb Hp. destruct (IH a1) as (a' & E & P); [lia|exact Hb|].
      exists a'. split; [exact E|exact (Hp a' P)]. }
    destruct (N.ltb_spec (u_avail a) (len m)) as [Hdrop|Hkeep].
    { apply Hcont; [reflexivity|exact Hbytes|]. intros a'. now apply su_post_drop. }
    fold (is_large m).
    destruct (is_large m) eqn:El.
    { pose proof (is_large_pos m El) as Hpos.
      change (div_ceil (len m) SLICE_SIZE) with (num_slices_of m).
      rewrite (unrel_slices_spec ch (u_sliced_id a) m Hpos (N.to_nat (num_slices_of m)) 0) by lia.
      cbn [bind]. rewrite range_iota, N2Nat.id. fold (unrel_slice_pkts ch (u_sliced_id a) m (u_seq a)).
      apply Hcont; [reflexivity|exact Hbytes|]. intros a'. now apply su_post_large. }
    fold (unrel_entry_size m). rewrite Hbytes.
    destruct (N.ltb_spec SLICE_SIZE (sum (map unrel_entry_size (u_small a)) + unrel_entry_size m)) as [Hflush|Hfits];
      apply Hcont; try reflexivity; try (symmetry; apply (bsize_snoc unrel_entry_size)); intros a'.
    + now apply su_post_flush.
    + now apply su_post_add.
Qed.

Theorem su_get_packets_spec : forall s seq avail, su_inv s ->
  su_get_packets s seq avail = Ok (su_spec s seq avail).
Proof.
  intros s seq avail [H1 H2]. unfold su_get_packets, su_spec.
  edestruct (su_loop_spec (su_ch s) (su_queue s)) as (a' & E & P1 & P2 & P3 & P4 & P5);
    [| |rewrite E]; [cbn [u_mem]; lia|reflexivity|].
  cbn [u_pkts u_small u_seq u_avail u_sliced_id u_mem app] in P1, P2, P3, P4, P5. cbn [bind].
  assert (Efin : (match u_small a' with
                  | [] => (u_pkts a', u_seq a')
                  | sm => (u_pkts a' ++ [SmallUnreliable (u_seq a') (su_ch s) sm], u_seq a' + 1)
                  end) = (fin_pkts (su_ch s) a', fin_seq a')).
  { unfold fin_pkts, fin_seq. destruct (u_small a'); reflexivity. }
  rewrite Efin. cbv beta iota zeta. rewrite P1, P2, P3, P4, P5.
  replace (su_mem s - sum (map len (su_queue s))) with 0 by lia. reflexivity.
Qed.

Lemma su_left_kept avail q : su_left avail q + sum (map len (su_kept avail q)) = avail.
Proof.
  revert avail; induction q as [|m t IH]; intros avail; cbn [su_left su_kept map].
  - rewrite sum_nil. lia.
  - destruct (N.ltb_spec avail (len m)); [apply IH|].
    cbn [map]. rewrite sum_cons. specialize (IH (avail - len m)). lia.
Qed.

Lemma su_kept_all avail q : sum (map len q) <= avail -> su_kept avail q = q.
Proof.
  revert avail; induction q as [|m t IH]; intros avail H; cbn [su_kept]; [reflexivity|].
  cbn [map] in H. rewrite sum_cons in H.
  destruct (N.ltb_spec avail (len m)); [lia|]. f_equal. apply IH. lia.
Qed.

Inductive subseq {A} : list A -> list A -> Prop :=
| subseq_nil : subseq [] []
| subseq_skip x l l' : subseq l l' -> subseq l (x :: l')
| subseq_keep x l l' : subseq l l' -> subseq (x :: l) (x :: l').

Lemma su_kept_subseq avail q : subseq (su_kept avail q) q.
Proof.
  revert avail; induction q as [|m t IH]; intros avail; cbn [su_kept]; [constructor|].
  destruct (avail <? len m); constructor; apply IH.
Qed.

Lemma subseq_Forall {A} (P : A -> Prop) l l' : subseq l l' -> Forall P l' -> Forall P l.
Proof. induction 1 as [|x l l' _ IH|x l l' _ IH]; intros F; [exact F| |]; inversion F; subst; auto. Qed.

Lemma subseq_sum_le {A} (f : A -> N) l l' : subseq l l' -> sum (map f l) <= sum (map f l').
Proof. induction 1 as [|x l l' _ IH|x l l' _ IH]; cbn [map]; rewrite ?sum_cons; lia. Qed.

Lemma subseq_filter_le {A} (p : A -> bool) l l' : subseq l l' -> (length (filter p l) <= length (filter p l'))%nat.
Proof. induction 1 as [|x l l' _ IH|x l l' _ IH]; cbn [filter]; [lia| |]; destruct (p x); cbn [length]; lia. Qed.

Lemma su_left_ge avail q : avail <= su_left avail q + sum (map len q).
Proof. pose proof (su_left_kept avail q). pose proof (subseq_sum_le len _ _ (su_kept_subseq avail q)). lia. Qed.

Lemma payload_su_pack ch : forall kept sid seq cur,
  payload_total (su_pack ch kept sid seq cur) = sum (map len kept) + sum (map len cur).
Proof.
  induction kept as [|m t IH]; intros sid seq cur; cbn [su_pack map].
  - rewrite sum_nil. destruct cur as [|x l]; [reflexivity|].
    unfold payload_total. cbn [map payload_bytes]. rewrite sum_one. lia.
  - rewrite sum_cons. destruct (is_large m) eqn:El.
    + rewrite payload_total_app, IH.
      rewrite unrel_slice_pkts_numbered, (payload_numbered _ (plen m)), sum_plen_all
        by (reflexivity || now apply is_large_pos).
      lia.
    + destruct (SLICE_SIZE <? _).
      * change (SmallUnreliable seq ch cur :: su_pack ch t sid (seq + 1) [m])
          with ([SmallUnreliable seq ch cur] ++ su_pack ch t sid (seq + 1) [m]).
        rewrite payload_total_app, IH. unfold payload_total. cbn [map payload_bytes].
        rewrite !sum_one. lia.
      * rewrite IH, map_app, sum_app. cbn [map]. rewrite sum_one. lia.
Qed.

Lemma seqs_su_pack ch : forall kept sid seq cur, seqs_from seq (su_pack ch kept sid seq cur).
Proof.
  induction kept as [|m t IH]; intros sid seq cur; cbn [su_pack].
  - destruct cur; cbn [seqs_from packet_seq]; auto.
  - destruct (is_large m).
    + apply seqs_from_app. rewrite len_unrel_slice_pkts. split; [|apply IH].
      rewrite unrel_slice_pkts_numbered. now apply seqs_numbered.
    + destruct (SLICE_SIZE <? _); [|apply IH].
      cbn [seqs_from packet_seq]. split; [reflexivity|apply IH].
Qed.

Theorem su_get_packets_safe : forall s seq avail, su_inv s ->
  exists s' pkts avail',
    su_get_packets s seq avail = Ok (s', pkts, seq + len pkts, avail') /\
    su_inv s' /\ su_mem s' = 0 /\ su_queue s' = [] /\
    avail' + payload_total pkts = avail /\ seqs_from seq pkts.
Proof.
  intros s seq avail Hinv. rewrite (su_get_packets_spec s seq avail Hinv). unfold su_spec.
  eexists _, _, _. split; [reflexivity|].
  split; [unfold su_inv; cbn [su_mem su_queue su_max]; split; [reflexivity|lia]|].
  split; [reflexivity|]. split; [reflexivity|].
  split; [|apply seqs_su_pack].
  rewrite payload_su_pack. cbn [map]. rewrite sum_nil.
  pose proof (su_left_kept avail (su_queue s)). lia.
Qed.

Definition small_msgs_of (pkts : list packet) : list (list N) :=
  flat_map (fun p => match p with SmallUnreliable _ _ ms => ms | _ => [] end) pkts.

Definition slices_of (pkts : list packet) : list slice :=
  flat_map (fun p => match p with UnreliableSlice _ _ sl => [sl] | _ => [] end) pkts.

Fixpoint all_slices (sid : N) (larges : list (list N)) : list slice :=
  match larges with
  | [] => []
  | m :: t => map (slice_of m sid) (iota (num_slices_of m)) ++ all_slices (sid + 1) t
  end.

Definition unrel_pkt_ch (ch : N) (p : packet) : Prop :=
  match p with SmallUnreliable _ c _ | UnreliableSlice _ c _ => c = ch | _ => False end.

Lemma small_msgs_of_app p q : small_msgs_of (p ++ q) = small_msgs_of p ++ small_msgs_of q.
Proof. unfold small_msgs_of. apply flat_map_app. Qed.

Lemma slices_of_app p q : slices_of (p ++ q) = slices_of p ++ slices_of q.
Proof. unfold slices_of. apply flat_map_app. Qed.

Lemma slices_uslices ch sid m seq idxs : slices_of (uslices ch sid m seq idxs) = map (slice_of m sid) idxs.
Proof.
  revert seq; induction idxs as [|i t IH]; intros seq; cbn [uslices map]; [reflexivity|].
  unfold slices_of in *. cbn [flat_map app]. now rewrite IH.
Qed.

Lemma small_msgs_su_pack ch : forall kept sid seq cur,
  small_msgs_of (su_pack ch kept sid seq cur) = cur ++ filter (fun m => negb (is_large m)) kept.
Proof.
  induction kept as [|m t IH]; intros sid seq cur; cbn [su_pack filter].
  - rewrite app_nil_r. destruct cur; [reflexivity|]. unfold small_msgs_of. cbn [flat_map]. now rewrite app_nil_r.
  - destruct (is_large m); cbn [negb].
    + rewrite small_msgs_of_app, unrel_slice_pkts_numbered, IH.
      unfold small_msgs_of at 1. now rewrite flat_map_numbered_nil.
    + destruct (SLICE_SIZE <? _).
      * unfold small_msgs_of in *. cbn [flat_map]. now rewrite IH.
      * rewrite IH, <- app_assoc. reflexivity.
Qed.

Lemma slices_su_pack ch : forall kept sid seq cur,
  slices_of (su_pack ch kept sid seq cur) = all_slices sid (filter is_large kept).
Proof.
  induction kept as [|m t IH]; intros sid seq cur; cbn [su_pack filter all_slices].
  - destruct cur; reflexivity.
  - destruct (is_large m); cbn [all_slices].
    + unfold unrel_slice_pkts. now rewrite slices_of_app, slices_uslices, IH.
    + destruct (SLICE_SIZE <? _); [|apply IH].
      unfold slices_of in *. cbn [flat_map app]. apply IH.
Qed.

Lemma ch_su_pack ch : forall kept sid seq cur, Forall (unrel_pkt_ch ch) (su_pack ch kept sid seq cur).
Proof.
  induction kept as [|m t IH]; intros sid seq cur; cbn [su_pack].
  - destruct cur; repeat constructor.
  - destruct (is_large m).
    + apply Forall_app. split; [|apply IH]. rewrite unrel_slice_pkts_numbered.
      apply Forall_numbered. reflexivity.
    + destruct (SLICE_SIZE <? _); [|apply IH]. constructor; [reflexivity|apply IH].
Qed.

(* every kept small message is carried exactly once, whole, in queue order; every kept large
   message is carried as exactly its slices 0..n-1 in order under a fresh slice id; dropped
   messages are not carried at all *)
Theorem su_carried : forall s seq avail s' pkts seq' avail',
  su_inv s -> su_get_packets s seq avail = Ok (s', pkts, seq', avail') ->
  let kept := su_kept avail (su_queue s) in
  subseq kept (su_queue s) /\
  small_msgs_of pkts = filter (fun m => negb (is_large m)) kept /\
  slices_of pkts = all_slices (su_sliced_id s) (filter is_large kept) /\
  su_sliced_id s' = su_sliced_id s + len (filter is_large kept) /\
  Forall (unrel_pkt_ch (su_ch s)) pkts /\
  avail' = su_left avail (su_queue s).
Proof.
  intros s seq avail s' pkts seq' avail' Hinv E kept.
  rewrite (su_get_packets_spec s seq avail Hinv) in E. unfold su_spec in E. inversion E; subst. clear E.
  split; [apply su_kept_subseq|].
  split; [apply (small_msgs_su_pack (su_ch s) _ _ _ [])|].
  split; [apply slices_su_pack|]. split; [reflexivity|].
  split; [apply ch_su_pack|reflexivity].
Qed.

Definition unrel_size_ok (p : packet) : Prop :=
  match p with
  | SmallUnreliable _ _ ms =>
      (sum (map unrel_entry_size ms) <= SLICE_SIZE \/ exists m, ms = [m]) /\
      sum (map unrel_entry_size ms) <= SLICE_SIZE + 8 /\
      len ms < 65536 /\
      Forall (fun m => len m <= SLICE_SIZE) ms
  | UnreliableSlice _ _ sl => 1 <= len (sl_payload sl) <= SLICE_SIZE /\ sl_index sl < sl_num sl
  | _ => False
  end.

Lemma unrel_entry_ge1 (ms : list (list N)) : len ms <= sum (map unrel_entry_size ms).
Proof.
  rewrite <- (N.mul_1_l (len ms)). apply (bsize_ge unrel_entry_size 1). intros m.
  unfold unrel_entry_size. pose proof (varint_len_bounds (len m)). lia.
Qed.

Lemma body_ok_pkt seq ch cur :
  body_ok unrel_entry_size cur -> Forall (fun m => len m <= SLICE_SIZE) cur ->
  unrel_size_ok (SmallUnreliable seq ch cur).
Proof.
  intros H1 H2. cbn [unrel_size_ok].
  assert (Hb : sum (map unrel_entry_size cur) <= SLICE_SIZE + 8).
  { apply (body_ok_bound unrel_entry_size 8 cur H1). intros m Hm.
    rewrite Forall_forall in H2. specialize (H2 _ Hm). unfold unrel_entry_size.
    pose proof (varint_len_bounds (len m)). lia. }
  pose proof (unrel_entry_ge1 cur) as Hge. pose proof SS_value as Hv.
  split; [exact H1|]. split; [exact Hb|]. split; [lia|exact H2].
Qed.

Lemma su_pack_sizes ch : forall kept sid seq cur,
  body_ok unrel_entry_size cur -> Forall (fun m => len m <= SLICE_SIZE) cur ->
  Forall unrel_size_ok (su_pack ch kept sid seq cur).
Proof.
  induction kept as [|m t IH]; intros sid seq cur Hc1 Hc2; cbn [su_pack].
  - destruct cur as [|x l]; [constructor|]. constructor; [|constructor]. now apply body_ok_pkt.
  - destruct (is_large m) eqn:El.
    + apply Forall_app. split; [|now apply IH].
      pose proof (is_large_pos m El) as Hpos. rewrite unrel_slice_pkts_numbered.
      apply Forall_numbered. intros q i Hi. apply in_iota in Hi.
      cbn [unrel_size_ok slice_of sl_payload sl_index sl_num]. split; [|exact Hi].
      exact (plen_bounds m i Hpos Hi).
    + unfold is_large in El. apply N.ltb_ge in El.
      assert (Hm : Forall (fun m => len m <= SLICE_SIZE) [m]) by (constructor; [exact El|constructor]).
      destruct (N.ltb_spec SLICE_SIZE (sum (map unrel_entry_size cur) + unrel_entry_size m)) as [Hflush|Hfits].
      * constructor; [now apply body_ok_pkt|]. apply IH; [right; now exists m|exact Hm].
      * apply IH; [left; now rewrite bsize_snoc|apply Forall_app; split; [exact Hc2|exact Hm]].
Qed.

Lemma su_run_pkts s seq avail s' pkts seq' avail' :
  su_inv s -> su_get_packets s seq avail = Ok (s', pkts, seq', avail') ->
  pkts = su_pack (su_ch s) (su_kept avail (su_queue s)) (su_sliced_id s) seq [].
Proof. intros Hinv E. rewrite (su_get_packets_spec s seq avail Hinv) in E. now inversion E. Qed.

Theorem su_get_packets_sizes : forall s seq avail s' pkts seq' avail',
  su_inv s -> su_get_packets s seq avail = Ok (s', pkts, seq', avail') ->
  Forall unrel_size_ok pkts.
Proof.
  intros s seq avail s' pkts seq' avail' Hinv E. rewrite (su_run_pkts _ _ _ _ _ _ _ Hinv E).
  apply su_pack_sizes; [apply (packing_nil unrel_entry_size)|constructor].
Qed.

Definition ubodies (ps : list packet) : list (list (list N)) :=
  flat_map (fun p => match p with SmallUnreliable _ _ ms => [ms] | _ => [] end) ps.

Lemma ubodies_app p q : ubodies (p ++ q) = ubodies p ++ ubodies q.
Proof. unfold ubodies. apply flat_map_app. Qed.

Lemma in_ubodies b pkts : In b (ubodies pkts) <-> exists sq c, In (SmallUnreliable sq c b) pkts.
Proof.
  unfold ubodies. rewrite in_flat_map. split.
  - intros (p & Hp & Hb). destruct p; cbn in Hb; try contradiction.
    destruct Hb as [<-|[]]. eauto.
  - intros (sq & c & H). exists (SmallUnreliable sq c b). split; [exact H|now left].
Qed.

Lemma concat_ubodies pk : concat (ubodies pk) = small_msgs_of pk.
Proof.
  induction pk as [|p t IH]; [reflexivity|].
  unfold small_msgs_of, ubodies in *. cbn [flat_map]. rewrite concat_app, IH.
  destruct p; cbn [concat app]; rewrite ?app_nil_r; reflexivity.
Qed.

Lemma su_pack_packing ch : forall kept sid seq F cur,
  packing unrel_entry_size F cur ->
  gshape unrel_entry_size (F ++ ubodies (su_pack ch kept sid seq cur)).
Proof.
  induction kept as [|m t IH]; intros sid seq F cur H; cbn [su_pack].
  - destruct H as [H _]. destruct cur; exact H.
  - destruct (is_large m).
    + rewrite ubodies_app, unrel_slice_pkts_numbered. unfold ubodies at 1.
      rewrite flat_map_numbered_nil by reflexivity. now apply IH.
    + destruct (N.ltb_spec SLICE_SIZE (sum (map unrel_entry_size cur) + unrel_entry_size m)) as [Hbig|Hfits].
      * specialize (IH sid (seq + 1) _ _ (packing_flush _ F cur m H Hbig)).
        rewrite <- app_assoc in IH. exact IH.
      * apply IH. now apply packing_add.
Qed.

(* the empty-packet quirk: a tick emits an empty SmallUnreliable packet exactly when the first kept small
   message does not fit a body alone (PackP.gshape, from which this is read off, also says that it is then
   the first SmallUnreliable packet and the only empty one) *)
Theorem su_empty_packet_iff : forall s seq avail s' pkts seq' avail',
  su_inv s -> su_get_packets s seq avail = Ok (s', pkts, seq', avail') ->
  ((exists sq c, In (SmallUnreliable sq c []) pkts) <->
   (exists m rest, small_msgs_of pkts = m :: rest /\ SLICE_SIZE < unrel_entry_size m)).
Proof.
  intros s seq avail s' pkts seq' avail' Hinv E. rewrite (su_run_pkts _ _ _ _ _ _ _ Hinv E).
  rewrite <- concat_ubodies, <- in_ubodies. apply (gshape_empty_iff unrel_entry_size).
  apply (su_pack_packing _ _ _ _ [] []), (packing_nil unrel_entry_size).
Qed.

Lemma su_kept_in avail q m : In m (su_kept avail q) -> In m q.
Proof.
  revert avail; induction q as [|x t IH]; intros avail; cbn [su_kept]; [tauto|].
  destruct (avail <? len x); cbn [In]; intros H; [right; eauto|].
  destruct H; [now left|right; eauto].
Qed.

Theorem su_no_empty_packet : forall s seq avail s' pkts seq' avail',
  su_inv s -> su_get_packets s seq avail = Ok (s', pkts, seq', avail') ->
  (forall m, In m (su_queue s) -> len m <= SLICE_SIZE -> unrel_entry_size m <= SLICE_SIZE) ->
  forall sq c, ~ In (SmallUnreliable sq c []) pkts.
Proof.
  intros s seq avail s' pkts seq' avail' Hinv E Hfit sq c Hin.
  destruct (proj1 (su_empty_packet_iff _ _ _ _ _ _ _ Hinv E)) as (m & rest & Hc & Hbig); [eauto|].
  destruct (su_carried _ _ _ _ _ _ _ Hinv E) as (_ & Hsm & _). rewrite Hsm in Hc.
  assert (Hm : In m (filter (fun m => negb (is_large m)) (su_kept avail (su_queue s)))) by (rewrite Hc; now left).
  apply filter_In in Hm. destruct Hm as [Hm Hs]. apply su_kept_in in Hm.
  unfold is_large in Hs. apply Bool.negb_true_iff, N.ltb_ge in Hs.
  specialize (Hfit m Hm Hs). lia.
Qed.

Definition udemo (ns : list nat) : send_unrel :=
  fold_left (fun s n => su_send s (repeatN 7 n)) ns (send_unrel_new 0 100000).

(* a 1199-byte message has entry size 1199 + 2 = 1201 > SLICE_SIZE: an EMPTY packet comes first *)
Example unrel_empty_packet_quirk :
  match su_get_packets (udemo [1199%nat]) 0 60000 with
  | Ok (_, pkts, seq', _) =>
      pkts = [SmallUnreliable 0 0 []; SmallUnreliable 1 0 [repeatN 7 1199]] /\ seq' = 2
  | _ => False
  end.
Proof. vm_compute. split; reflexivity. Qed.

Example unrel_no_empty_packet_1198 :
  match su_get_packets (udemo [1198%nat]) 0 60000 with
  | Ok (_, pkts, seq', _) => pkts = [SmallUnreliable 0 0 [repeatN 7 1198]] /\ seq' = 1
  | _ => False
  end.
Proof. vm_compute. split; reflexivity. Qed.

(* packets do not follow queue order across kinds: slices leave at once, small messages wait
   for their packet to fill up *)
Example unrel_order :
  match su_get_packets (udemo [3%nat; 1201%nat; 2%nat]) 5 60000 with
  | Ok (_, pkts, seq', _) =>
      map packet_seq pkts = [5; 6; 7] /\
      small_msgs_of pkts = [repeatN 7 3; repeatN 7 2] /\
      map sl_index (slices_of pkts) = [0; 1] /\
      match pkts with [UnreliableSlice _ _ _; UnreliableSlice _ _ _; SmallUnreliable _ _ _] => True | _ => False end
  | _ => False
  end.
Proof. vm_compute. repeat split; reflexivity. Qed.

Lemma in_all_slices larges : forall sid sl, In sl (all_slices sid larges) ->
  exists k m, nth_error larges k = Some m /\ sl_id sl = sid + N.of_nat k /\
              sl = slice_of m (sl_id sl) (sl_index sl) /\ sl_index sl < num_slices_of m.
Proof.
  induction larges as [|m t IH]; intros sid sl Hin; cbn [all_slices] in Hin; [destruct Hin|].
  apply in_app_or in Hin. destruct Hin as [Hin|Hin].
  - apply in_map_iff in Hin. destruct Hin as (i & <- & Hi). apply in_iota in Hi.
    exists 0%nat, m. cbn [nth_error slice_of sl_id sl_index]. split; [reflexivity|]. split; [lia|].
    split; [reflexivity|exact Hi].
  - destruct (IH _ _ Hin) as (k & m' & Hk & Hid & Hsl & Hidx).
    exists (S k), m'. cbn [nth_error]. split; [exact Hk|]. split; [lia|]. auto.
Qed.

Lemma in_filter_large m l : In m (filter is_large l) -> In m l /\ SLICE_SIZE < len m.
Proof.
  intros H. apply filter_In in H. destruct H as [H1 H2]. split; [exact H1|].
  unfold is_large in H2. lia.
Qed.

(* one turn of an unreliable channel in terms of its queue: small messages come from the queue, and a slice is
   slice [sl_index] of the queued large message that got the id [sl_id] *)
Lemma su_turn_ok s seq avail s' pk seq' avail' :
  su_inv s -> su_get_packets s seq avail = Ok (s', pk, seq', avail') ->
  su_queue s' = [] /\ su_sliced_id s <= su_sliced_id s' /\ su_ch s' = su_ch s /\
  Forall (unrel_pkt_ch (su_ch s)) pk /\
  (forall sq ch ms, In (SmallUnreliable sq ch ms) pk -> Forall (fun m => In m (su_queue s)) ms) /\
  exists f1 : N -> list N,
    forall sq ch sl, In (UnreliableSlice sq ch sl) pk ->
      su_sliced_id s <= sl_id sl /\ sl_id sl < su_sliced_id s' /\
      In (f1 (sl_id sl)) (su_queue s) /\ SLICE_SIZE < len (f1 (sl_id sl)) /\
      sl_index sl < num_slices_of (f1 (sl_id sl)) /\
      sl = slice_of (f1 (sl_id sl)) (sl_id sl) (sl_index sl).
Proof.
  intros Hinv E.
  destruct (su_carried s seq avail s' pk seq' avail' Hinv E) as (_ & Hsm & Hsl & Hsid & Hch & _).
  set (kept := su_kept avail (su_queue s)) in *.
  assert (Hs' : su_queue s' = [] /\ su_ch s' = su_ch s).
  { rewrite (su_get_packets_spec s seq avail Hinv) in E. unfold su_spec in E.
    inversion E; subst. split; reflexivity. }
  destruct Hs' as [Hq Hc].
  split; [exact Hq|]. split; [lia|]. split; [exact Hc|]. split; [exact Hch|]. split.
  - intros sq ch ms Hin. rewrite Forall_forall. intros m Hm.
    assert (Hm' : In m (small_msgs_of pk)).
    { unfold small_msgs_of. apply in_flat_map. exists (SmallUnreliable sq ch ms). auto. }
    rewrite Hsm in Hm'. apply filter_In in Hm'. destruct Hm' as [Hm' _].
    eapply su_kept_in. exact Hm'.
  - exists (fun sid => nth (N.to_nat (sid - su_sliced_id s)) (filter is_large kept) []).
    intros sq ch sl Hin.
    assert (Hsl' : In sl (slices_of pk)).
    { unfold slices_of. apply in_flat_map. exists (UnreliableSlice sq ch sl). split; [exact Hin|now left]. }
    rewrite Hsl in Hsl'. destruct (in_all_slices _ _ _ Hsl') as (k & m & Hk & Hid & Heq & Hidx).
    assert (Hklt : (k < length (filter is_large kept))%nat) by (apply nth_error_Some; congruence).
    replace (N.to_nat (sl_id sl - su_sliced_id s)) with k by lia.
    rewrite (nth_error_nth _ _ _ Hk).
    destruct (in_filter_large _ _ (nth_error_In _ _ Hk)) as [Hin' Hlarge].
    split; [lia|]. split; [unfold len in Hsid; lia|].
    split; [eapply su_kept_in; exact Hin'|]. auto.
Qed.

Print Assumptions su_inv_init.
Print Assumptions su_send_safe.
Print Assumptions su_get_packets_spec.
Print Assumptions su_get_packets_safe.
Print Assumptions su_carried.
Print Assumptions su_get_packets_sizes.
Print Assumptions su_no_empty_packet.
Print Assumptions su_empty_packet_iff.

(* ReplayP.v - the anti-replay window of renetcode (replay_protection.rs):
   every sequence number below the EMPTY sentinel is accepted at most once,
   fresh numbers inside the window are accepted, old ones are refused. *)
From RenetV Require Export BaseP.
From Coq Require Import NArith List Bool Lia ZifyBool ZifyN ZifyNat.
From RenetV Require Import Base Consts NPacket NetSpec.
Import ListNotations.
Open Scope N_scope.

Lemma replay_size_val : NC_REPLAY_SIZE = 256.
Proof. reflexivity. Qed.

(* the window arithmetic below needs only that the size is positive *)
Lemma replay_size_pos : 0 < NC_REPLAY_SIZE.
Proof. reflexivity. Qed.

Local Opaque NC_REPLAY_SIZE.

Lemma mod_size_lt s : (N.to_nat (s mod NC_REPLAY_SIZE) < N.to_nat NC_REPLAY_SIZE)%nat.
Proof.
  pose proof replay_size_pos as P. pose proof (N.mod_lt s NC_REPLAY_SIZE ltac:(lia)). lia.
Qed.

Lemma same_residue_far a b :
  a mod NC_REPLAY_SIZE = b mod NC_REPLAY_SIZE -> a < b -> a + NC_REPLAY_SIZE <= b.
Proof.
  intros E L. destruct (N.le_gt_cases (a + NC_REPLAY_SIZE) b) as [H|H]; [exact H|].
  pose proof (mod_window _ a b replay_size_pos E ltac:(lia) H). lia.
Qed.

Theorem replay_new_wf : rp_wf replay_new.
Proof. unfold rp_wf, replay_new. cbn [rp_slots]. apply repeatN_length. Qed.

Theorem advance_wf : forall r s, rp_wf r -> rp_wf (advance_sequence r s).
Proof.
  intros r s H. unfold rp_wf, advance_sequence in *. cbn [rp_slots].
  rewrite upd_length. exact H.
Qed.

(* r is a window that has accepted the numbers of A *)
Definition rp_inv (r : replay) (A : list N) : Prop :=
  rp_wf r /\
  (forall s, In s A -> s < U64MAX /\ s <= rp_most_recent r /\ already_received r s = true) /\
  (forall i, (i < N.to_nat NC_REPLAY_SIZE)%nat ->
     let v := nth i (rp_slots r) U64MAX in
     v = U64MAX \/ (In v A /\ N.to_nat (v mod NC_REPLAY_SIZE) = i)).

Lemma already_received_true r s :
  already_received r s = true <->
  (NC_REPLAY_SIZE <= rp_most_recent r /\ s + NC_REPLAY_SIZE <= rp_most_recent r) \/
  (let v := nth (N.to_nat (s mod NC_REPLAY_SIZE)) (rp_slots r) U64MAX in v <> U64MAX /\ s <= v).
Proof.
  unfold already_received. cbv zeta.
  destruct (NC_REPLAY_SIZE <=? rp_most_recent r) eqn:E1; cbn [andb].
  - destruct (s <=? rp_most_recent r - NC_REPLAY_SIZE) eqn:E2.
    + split; auto. intros _. left. lia.
    + destruct (nth _ _ _ =? U64MAX) eqn:E3.
      * split; [discriminate|]. intros [[_ H]|[H _]]; lia.
      * split; intro H.
        -- right. lia.
        -- destruct H as [[_ H]|[_ H]]; lia.
  - destruct (nth _ _ _ =? U64MAX) eqn:E3.
    + split; [discriminate|]. intros [[H _]|[H _]]; lia.
    + split; intro H.
      * right. lia.
      * destruct H as [[H _]|[_ H]]; lia.
Qed.

Lemma already_received_false r s :
  already_received r s = false <->
  ~ (NC_REPLAY_SIZE <= rp_most_recent r /\ s + NC_REPLAY_SIZE <= rp_most_recent r) /\
  (let v := nth (N.to_nat (s mod NC_REPLAY_SIZE)) (rp_slots r) U64MAX in v = U64MAX \/ v < s).
Proof. rewrite <- Bool.not_true_iff_false, already_received_true. cbv zeta. lia. Qed.

Theorem replay_inv_init : rp_inv replay_new [].
Proof.
  split; [apply replay_new_wf|]. split.
  - intros s [].
  - intros i _. left. unfold replay_new. cbn [rp_slots]. apply nth_repeatN.
Qed.

Lemma advance_most_recent r s :
  rp_most_recent (advance_sequence r s) = N.max (rp_most_recent r) s.
Proof.
  unfold advance_sequence. cbn [rp_most_recent].
  destruct (rp_most_recent r <? s) eqn:E; lia.
Qed.

Lemma advance_slot_same r s : rp_wf r ->
  nth (N.to_nat (s mod NC_REPLAY_SIZE)) (rp_slots (advance_sequence r s)) U64MAX = s.
Proof.
  intro W. unfold advance_sequence. cbn [rp_slots].
  apply nth_upd_same. rewrite W. apply mod_size_lt.
Qed.

Lemma advance_slot_other r s i : N.to_nat (s mod NC_REPLAY_SIZE) <> i ->
  nth i (rp_slots (advance_sequence r s)) U64MAX = nth i (rp_slots r) U64MAX.
Proof.
  intro H. unfold advance_sequence. cbn [rp_slots]. apply nth_upd_other. exact H.
Qed.

Theorem advance_then_received : forall r s, rp_wf r -> s <> U64MAX ->
  already_received (advance_sequence r s) s = true.
Proof.
  intros r s W Hs. apply already_received_true. right. cbv zeta.
  rewrite advance_slot_same by exact W. lia.
Qed.

Lemma received_stays r q q' :
  rp_wf r -> q' < U64MAX -> already_received r q = true -> already_received r q' = false ->
  already_received (advance_sequence r q') q = true.
Proof.
  intros W Hq' H1 H2.
  apply already_received_true in H1. apply already_received_false in H2. cbv zeta in H1, H2.
  apply already_received_true. cbv zeta. rewrite advance_most_recent.
  destruct H1 as [[H1 H1']|[H1 H1']]; [left; lia|].
  destruct H2 as [_ H2].
  destruct (Nat.eq_dec (N.to_nat (q' mod NC_REPLAY_SIZE)) (N.to_nat (q mod NC_REPLAY_SIZE))) as [E|E].
  - right. rewrite <- E in *. rewrite advance_slot_same by exact W.
    destruct H2 as [H2|H2]; [congruence|]. clear - Hq' H1' H2. set (x := nth _ _ _) in *. clearbody x. lia.
  - right. rewrite advance_slot_other by exact E. auto.
Qed.

Theorem replay_inv_step : forall r A s,
  rp_inv r A -> s < U64MAX -> already_received r s = false ->
  rp_inv (advance_sequence r s) (s :: A).
Proof.
  intros r A s (W & HA & HS) Hs Hnew.
  split; [apply advance_wf; exact W|]. split.
  - intros x Hx. rewrite advance_most_recent. destruct Hx as [<-|Hx].
    + split; [exact Hs|]. split; [lia|]. apply advance_then_received; [exact W | lia].
    + destruct (HA x Hx) as (X1 & X2 & X3).
      split; [exact X1|]. split; [lia|]. apply received_stays; assumption.
  - intros i Hi. cbv zeta.
    destruct (Nat.eq_dec (N.to_nat (s mod NC_REPLAY_SIZE)) i) as [E|E].
    + right. rewrite <- E, advance_slot_same by exact W. split; [left; reflexivity | reflexivity].
    + rewrite advance_slot_other by exact E.
      destruct (HS i Hi) as [X|[X Y]]; [left; exact X | right; split; [right; exact X | exact Y]].
Qed.

Theorem accepted_stays_received : forall r A s, rp_inv r A -> In s A -> already_received r s = true.
Proof. intros r A s (_ & HA & _) H. apply (HA s H). Qed.

Lemma rp_run_fresh : forall ss r A r' acc,
  rp_inv r A -> Forall (fun s => s < U64MAX) ss -> rp_run r ss = (r', acc) ->
  NoDup acc /\ (forall x, In x acc -> ~ In x A) /\ rp_inv r' (rev acc ++ A).
Proof.
  induction ss as [|s t IH]; intros r A r' acc I F R.
  - cbn [rp_run] in R. injection R as <- <-. split; [constructor|]. split; [intros x []|exact I].
  - cbn [rp_run] in R. unfold rp_accept in R.
    inversion F as [|? ? Fs Ft]; subst.
    destruct (already_received r s) eqn:E.
    + destruct (rp_run r t) as [r2 acc2] eqn:R2. injection R as <- <-.
      exact (IH _ _ _ _ I Ft R2).
    + destruct (rp_run (advance_sequence r s) t) as [r2 acc2] eqn:R2. injection R as <- <-.
      pose proof (replay_inv_step r A s I Fs E) as I2.
      destruct (IH _ _ _ _ I2 Ft R2) as (N2 & D2 & I3).
      split; [|split].
      * constructor; [|exact N2]. intro H. apply (D2 s H). left. reflexivity.
      * intros x [<-|Hx] HA.
        -- pose proof (accepted_stays_received r A s I HA) as X. congruence.
        -- apply (D2 x Hx). right. exact HA.
      * cbn [rev]. rewrite <- app_assoc. exact I3.
Qed.

Theorem replay_at_most_once : forall ss r acc,
  Forall (fun s => s < U64MAX) ss -> rp_run replay_new ss = (r, acc) -> NoDup acc.
Proof.
  intros ss r acc F R.
  exact (proj1 (rp_run_fresh ss replay_new [] r acc replay_inv_init F R)).
Qed.

Corollary rp_run_inv : forall ss r acc,
  Forall (fun s => s < U64MAX) ss -> rp_run replay_new ss = (r, acc) -> rp_inv r (rev acc).
Proof.
  intros ss r acc F R.
  pose proof (proj2 (proj2 (rp_run_fresh ss replay_new [] r acc replay_inv_init F R))) as H.
  rewrite app_nil_r in H. exact H.
Qed.

(* the bound is necessary: u64::MAX doubles as the EMPTY marker of a slot, so the
   window accepts that one sequence number as often as it is presented *)
Theorem replay_sentinel_refuted : exists ss, ~ NoDup (snd (rp_run replay_new ss)).
Proof.
  exists [U64MAX; U64MAX].
  assert (E : snd (rp_run replay_new [U64MAX; U64MAX]) = [U64MAX; U64MAX]) by (vm_compute; reflexivity).
  rewrite E. intro H. inversion H as [|? ? H1 _]. apply H1. left. reflexivity.
Qed.

Theorem replay_fresh_accepted : forall r A s,
  rp_inv r A -> s < U64MAX -> ~ In s A -> rp_most_recent r < s + NC_REPLAY_SIZE ->
  already_received r s = false.
Proof.
  intros r A s (W & HA & HS) Hs Hn Hw.
  apply already_received_false. cbv zeta. split; [lia|].
  destruct (HS _ (mod_size_lt s)) as [X|[X Y]]; [left; exact X| ].
  right. cbv zeta in *.
  set (v := nth (N.to_nat (s mod NC_REPLAY_SIZE)) (rp_slots r) U64MAX) in *.
  destruct (HA v X) as (V1 & V2 & _).
  apply N2Nat.inj in Y.
  destruct (N.lt_trichotomy v s) as [L|[L|L]]; [exact L| exfalso; apply Hn; rewrite <- L; exact X |].
  exfalso. pose proof (same_residue_far s v (eq_sym Y) L). lia.
Qed.

Theorem replay_old_rejected : forall r s,
  NC_REPLAY_SIZE <= rp_most_recent r -> s + NC_REPLAY_SIZE <= rp_most_recent r ->
  already_received r s = true.
Proof.
  intros r s H1 H2. apply already_received_true. left. split; assumption.
Qed.

Lemma advance_sentinel_not_received r :
  rp_wf r -> already_received r U64MAX = false -> already_received (advance_sequence r U64MAX) U64MAX = false.
Proof.
  intros W H0. apply already_received_false in H0. cbv zeta in H0. destruct H0 as [H0 _].
  apply already_received_false. cbv zeta. split.
  - rewrite advance_most_recent. pose proof replay_size_pos. lia.
  - left. rewrite advance_slot_same by exact W. reflexivity.
Qed.

Lemma already_received_new q : already_received replay_new q = false.
Proof.
  unfold already_received, replay_new. cbn [rp_most_recent rp_slots].
  rewrite replay_size_val. change (256 <=? 0) with false. cbn [andb].
  rewrite nth_repeatN. reflexivity.
Qed.

Print Assumptions replay_new_wf.
Print Assumptions advance_wf.
Print Assumptions replay_inv_init.
Print Assumptions replay_inv_step.
Print Assumptions replay_at_most_once.
Print Assumptions replay_sentinel_refuted.
Print Assumptions replay_fresh_accepted.
Print Assumptions replay_old_rejected.
Print Assumptions advance_then_received.

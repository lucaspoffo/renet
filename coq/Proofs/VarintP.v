(* VarintP.v - proofs about the varint codec and the reader / writer primitives. *)
From RenetV Require Export BaseP.
From RenetV Require Import Base Consts Varint Packet.
From RenetV Require Import Spec.CodecSpec.
Require Import Lia ZifyBool ZifyN.
Open Scope N_scope.

Lemma len_map {A B} (f : A -> B) (a : list A) : len (map f a) = len a.
Proof. exact (BaseP.len_map f a). Qed.

Lemma len_zero_nil {A} (a : list A) : len a = 0 -> a = [].
Proof. exact (len_0_nil a). Qed.

Lemma len_split {A} n (l : list A) : n <= len l -> len l = n + len (dropN n l).
Proof. intros H. rewrite len_dropN. lia. Qed.

Lemma bytes_ok_nil : bytes_ok [].
Proof. constructor. Qed.

Lemma bytes_ok_dropN n l : bytes_ok l -> bytes_ok (dropN n l).
Proof. apply BaseP.bytes_ok_dropN. Qed.

Lemma bytes_ok_takeN n l : bytes_ok l -> bytes_ok (takeN n l).
Proof. apply BaseP.bytes_ok_takeN. Qed.

Lemma len_be_bytes n v : len (be_bytes n v) = N.of_nat n.
Proof. unfold len. rewrite be_bytes_length. reflexivity. Qed.

Lemma le_bytes_ok n v : bytes_ok (le_bytes n v).
Proof. exact (le_bytes_lt n v). Qed.

Lemma be_bytes_ok n v : bytes_ok (be_bytes n v).
Proof.
  unfold be_bytes, bytes_ok. apply Forall_rev. apply le_bytes_ok.
Qed.

Lemma be_val_snoc l b : be_val (l ++ [b]) = be_val l * 256 + b.
Proof. unfold be_val. rewrite fold_left_app. reflexivity. Qed.

Lemma be_val_rev l : be_val (rev l) = le_val l.
Proof.
  induction l as [|b l IH]; [reflexivity|].
  cbn [rev]. rewrite be_val_snoc, IH. cbn [le_val fold_right]. fold (le_val l). lia.
Qed.

Lemma pow256_nz k : 256 ^ k <> 0.
Proof. apply N.pow_nonzero. discriminate. Qed.

Lemma be_val_be_bytes n v : be_val (be_bytes n v) = v mod 256 ^ N.of_nat n.
Proof. unfold be_bytes. rewrite be_val_rev. apply le_val_le_bytes. Qed.

Lemma le_bytes_snoc k v :
  le_bytes (S k) v = le_bytes k v ++ [(v / 256 ^ N.of_nat k) mod 256].
Proof.
  revert v. induction k as [|k IH]; intros v.
  - cbn [le_bytes app]. change (256 ^ N.of_nat 0) with 1. rewrite N.div_1_r. reflexivity.
  - change (le_bytes (S (S k)) v) with (v mod 256 :: le_bytes (S k) (v / 256)).
    rewrite IH. cbn [le_bytes app]. do 3 f_equal.
    rewrite Nat2N.inj_succ, N.pow_succ_r', N.div_div; [reflexivity | discriminate | apply pow256_nz].
Qed.

Lemma be_bytes_S k v :
  be_bytes (S k) v = (v / 256 ^ N.of_nat k) mod 256 :: be_bytes k v.
Proof.
  unfold be_bytes. rewrite le_bytes_snoc, rev_app_distr. reflexivity.
Qed.

Lemma be_val_lt l : bytes_ok l -> be_val l < 256 ^ len l.
Proof.
  induction l as [|b l IH] using rev_ind; intros H.
  - cbn. reflexivity.
  - apply bytes_ok_app in H. destruct H as [Hl Hb].
    apply bytes_ok_cons in Hb. destruct Hb as [Hb _].
    specialize (IH Hl). rewrite be_val_snoc, len_app, len_cons, len_nil.
    replace (len l + (1 + 0)) with (N.succ (len l)) by lia.
    rewrite N.pow_succ_r'. lia.
Qed.

Lemma varint_len_cases v :
  varint_len v = 1 \/ varint_len v = 2 \/ varint_len v = 4 \/ varint_len v = 8.
Proof.
  unfold varint_len.
  destruct (v <=? 63) eqn:H1; [auto|].
  destruct (v <=? 16383) eqn:H2; [auto|].
  destruct (v <=? 1073741823) eqn:H3; auto.
Qed.

Lemma varint_len_le8 v : varint_len v <= 8.
Proof. destruct (varint_len_cases v) as [H|[H|[H|H]]]; rewrite H; lia. Qed.

Lemma varint_len_ge1 v : 1 <= varint_len v.
Proof. destruct (varint_len_cases v) as [H|[H|[H|H]]]; rewrite H; lia. Qed.

(* holds for every v: be_bytes has a fixed width *)
Lemma varint_bytes_len_gen v : len (varint_bytes v) = varint_len v.
Proof.
  unfold varint_bytes, varint_len.
  destruct (v <=? 63) eqn:H1; [reflexivity|].
  destruct (v <=? 16383) eqn:H2; [apply len_be_bytes|].
  destruct (v <=? 1073741823) eqn:H3; apply len_be_bytes.
Qed.

Theorem varint_bytes_len : forall v, v <= VARINT_MAX -> len (varint_bytes v) = varint_len v.
Proof. intros v _. apply varint_bytes_len_gen. Qed.

Lemma varint_bytes_ok_gen v : bytes_ok (varint_bytes v).
Proof.
  unfold varint_bytes.
  destruct (v <=? 63) eqn:H1.
  - apply bytes_ok_cons. split; [lia | apply bytes_ok_nil].
  - destruct (v <=? 16383) eqn:H2; [apply be_bytes_ok|].
    destruct (v <=? 1073741823) eqn:H3; apply be_bytes_ok.
Qed.

Theorem varint_bytes_ok : forall v, v <= VARINT_MAX -> bytes_ok (varint_bytes v).
Proof. intros v _. apply varint_bytes_ok_gen. Qed.

Lemma varint_bytes_nonempty v : varint_bytes v <> [].
Proof.
  intros H. pose proof (varint_bytes_len_gen v) as HL. rewrite H, len_nil in HL.
  pose proof (varint_len_ge1 v). lia.
Qed.

Lemma varint_parse_len_cases f :
  varint_parse_len f = 1 \/ varint_parse_len f = 2 \/ varint_parse_len f = 4 \/ varint_parse_len f = 8.
Proof.
  unfold varint_parse_len.
  destruct (f / 64) as [|p]; [auto|].
  destruct p as [[q|q|]|[q|q|]|]; auto.
Qed.

Lemma get_varint_cons f t :
  get_varint (f :: t) =
  if len (f :: t) <? varint_parse_len f then Err BufferTooShort
  else Ok (be_val (takeN (varint_parse_len f) (f :: t)) mod 2 ^ (8 * varint_parse_len f - 2),
           dropN (varint_parse_len f) (f :: t)).
Proof. reflexivity. Qed.

Lemma get_varint_be k x rest :
  varint_parse_len ((x / 256 ^ N.of_nat k) mod 256) = N.of_nat (S k) ->
  get_varint (be_bytes (S k) x ++ rest) =
  Ok ((x mod 256 ^ N.of_nat (S k)) mod 2 ^ (8 * N.of_nat (S k) - 2), rest).
Proof.
  intros Hp.
  assert (E : be_bytes (S k) x ++ rest = (x / 256 ^ N.of_nat k) mod 256 :: (be_bytes k x ++ rest)).
  { rewrite be_bytes_S. reflexivity. }
  rewrite E, get_varint_cons, <- E, Hp.
  rewrite len_app, len_be_bytes.
  destruct (N.of_nat (S k) + len rest <? N.of_nat (S k)) eqn:Hc; [lia|].
  rewrite takeN_app_exact by apply len_be_bytes.
  rewrite dropN_app_exact by apply len_be_bytes.
  rewrite be_val_be_bytes. reflexivity.
Qed.

(* the multi-byte forms: the top two bits of the first byte hold the length tag, the
   remaining 8 (k + 1) - 2 bits hold the value *)
Lemma pow2_bits k : 2 ^ (8 * N.of_nat (S k) - 2) = 64 * 256 ^ N.of_nat k.
Proof.
  replace (8 * N.of_nat (S k) - 2) with (6 + 8 * N.of_nat k) by lia.
  rewrite N.pow_add_r, N.pow_mul_r. reflexivity.
Qed.

Lemma get_varint_tagged k tag v rest :
  v < 2 ^ (8 * N.of_nat (S k) - 2) -> tag < 4 ->
  match tag with 0 => 1 | 1 => 2 | 2 => 4 | _ => 8 end = N.of_nat (S k) ->
  get_varint (be_bytes (S k) (v + tag * 2 ^ (8 * N.of_nat (S k) - 2)) ++ rest) = Ok (v, rest).
Proof.
  rewrite pow2_bits. pose proof (pow256_nz (N.of_nat k)) as Hm. set (m := 256 ^ N.of_nat k) in *.
  intros Hv Ht Hn.
  assert (Hx : v + tag * (64 * m) < 256 * m) by nia.
  rewrite get_varint_be.
  - rewrite pow2_bits, Nat2N.inj_succ, N.pow_succ_r'. fold m.
    rewrite (N.mod_small _ (256 * m)) by exact Hx.
    rewrite N.mod_add, N.mod_small by lia. reflexivity.
  - fold m. replace (tag * (64 * m)) with (tag * 64 * m) by lia. rewrite N.div_add by exact Hm.
    assert (Hq : v / m < 64) by (apply N.div_lt_upper_bound; lia).
    rewrite N.mod_small by lia. unfold varint_parse_len.
    rewrite N.div_add, (N.div_small (v / m)) by lia. exact Hn.
Qed.

Theorem varint_roundtrip : forall v rest,
  v <= VARINT_MAX -> get_varint (varint_bytes v ++ rest) = Ok (v, rest).
Proof.
  intros v rest Hv. unfold VARINT_MAX in Hv. unfold varint_bytes.
  destruct (v <=? 63) eqn:H1.
  - replace [v] with (be_bytes 1 (v + 0 * 2 ^ (8 * N.of_nat 1 - 2))).
    + apply (get_varint_tagged 0 0); [|lia|reflexivity].
      change (2 ^ (8 * N.of_nat 1 - 2)) with 64. lia.
    + unfold be_bytes. cbn [le_bytes rev app]. change (0 * 2 ^ (8 * N.of_nat 1 - 2)) with 0.
      rewrite N.add_0_r, N.mod_small by lia. reflexivity.
  - destruct (v <=? 16383) eqn:H2; [|destruct (v <=? 1073741823) eqn:H3].
    + apply (get_varint_tagged 1 1); [|lia|reflexivity].
      change (2 ^ (8 * N.of_nat 2 - 2)) with 16384. lia.
    + apply (get_varint_tagged 3 2); [|lia|reflexivity].
      change (2 ^ (8 * N.of_nat 4 - 2)) with 1073741824. lia.
    + apply (get_varint_tagged 7 3); [|lia|reflexivity].
      change (2 ^ (8 * N.of_nat 8 - 2)) with 4611686018427387904. lia.
Qed.

Lemma varint_len_below n v :
  (n = 1 \/ n = 2 \/ n = 4 \/ n = 8) -> v < 2 ^ (8 * n - 2) ->
  v <= VARINT_MAX /\ varint_len v <= n.
Proof.
  unfold VARINT_MAX, varint_len.
  intros [Hn|[Hn|[Hn|Hn]]] Hv; subst n.
  - change (2 ^ (8 * 1 - 2)) with 64 in Hv.
    destruct (v <=? 63) eqn:H1; lia.
  - change (2 ^ (8 * 2 - 2)) with 16384 in Hv.
    destruct (v <=? 63) eqn:H1; [lia|].
    destruct (v <=? 16383) eqn:H2; lia.
  - change (2 ^ (8 * 4 - 2)) with 1073741824 in Hv.
    destruct (v <=? 63) eqn:H1; [lia|].
    destruct (v <=? 16383) eqn:H2; [lia|].
    destruct (v <=? 1073741823) eqn:H3; lia.
  - change (2 ^ (8 * 8 - 2)) with 4611686018427387904 in Hv.
    destruct (v <=? 63) eqn:H1; [lia|].
    destruct (v <=? 16383) eqn:H2; [lia|].
    destruct (v <=? 1073741823) eqn:H3; lia.
Qed.

Lemma get_varint_inv l v r :
  get_varint l = Ok (v, r) ->
  exists pre, l = pre ++ r /\ pre <> [] /\ v <= VARINT_MAX /\ varint_len v <= len pre.
Proof.
  destruct l as [|f t]; [discriminate|].
  rewrite get_varint_cons.
  pose proof (varint_parse_len_cases f) as Hn.
  set (n := varint_parse_len f) in *.
  destruct (len (f :: t) <? n) eqn:Hc; [discriminate|].
  intros H. injection H as Hv Hr.
  exists (takeN n (f :: t)).
  assert (Hlen : len (takeN n (f :: t)) = n) by (apply len_takeN_le; lia).
  split; [|split].
  - rewrite <- Hr. symmetry. apply takeN_dropN.
  - intros E. rewrite E, len_nil in Hlen. lia.
  - rewrite Hlen. apply varint_len_below; [exact Hn|].
    rewrite <- Hv. apply N.mod_upper_bound. apply N.pow_nonzero. discriminate.
Qed.

Theorem get_varint_sound : forall l v r,
  get_varint l = Ok (v, r) -> v <= VARINT_MAX /\ exists pre, l = pre ++ r /\ pre <> [].
Proof.
  intros l v r H. apply get_varint_inv in H.
  destruct H as (pre & H1 & H2 & H3 & _). split; [exact H3|]. exists pre. auto.
Qed.

(* What is proved of every reader [g] of the wire format, against its encoder [enc]:
   [g] inverts [enc] on well-formed values; conversely whatever [g] returns is
   well-formed, its canonical encoding is no longer than the bytes consumed, and at
   least one byte is consumed.  [varint_roundtrip] is
   [parses get_varint varint_bytes (fun v => v <= VARINT_MAX)]. *)
Definition parses {A} (g : list N -> sres (A * list N)) (enc : A -> list N) (wf : A -> Prop) :=
  forall a rest, wf a -> g (enc a ++ rest) = Ok (a, rest).
Definition sound {A} (g : list N -> sres (A * list N)) (enc : A -> list N) (wf : A -> Prop) :=
  forall l a r, g l = Ok (a, r) ->
    wf a /\ len (enc a) + len r <= len l /\ (length r < length l)%nat.

Lemma varint_sound : sound get_varint varint_bytes (fun v => v <= VARINT_MAX).
Proof.
  intros l v r H. apply get_varint_inv in H. destruct H as (pre & -> & Hne & Hv & Hl).
  rewrite varint_bytes_len_gen, len_app, app_length. split; [exact Hv|]. split; [lia|].
  destruct pre; [contradiction | cbn [length]; lia].
Qed.

Theorem get_u8_no_panic : forall l, is_panic (get_u8 l) = false.
Proof. intros [|b t]; reflexivity. Qed.

Theorem get_u16_no_panic : forall l, is_panic (get_u16 l) = false.
Proof. intros l. unfold get_u16. destruct (len l <? 2) eqn:H; reflexivity. Qed.

Theorem get_bytes_no_panic : forall n l, is_panic (get_bytes n l) = false.
Proof. intros n l. unfold get_bytes. destruct (len l <? n) eqn:H; reflexivity. Qed.

Theorem get_varint_no_panic : forall l, is_panic (get_varint l) = false.
Proof.
  intros [|f t]; [reflexivity|]. rewrite get_varint_cons.
  destruct (len (f :: t) <? varint_parse_len f) eqn:H; reflexivity.
Qed.

Theorem get_bytes_with_varint_length_no_panic :
  forall l, is_panic (get_bytes_with_varint_length l) = false.
Proof.
  intros l. unfold get_bytes_with_varint_length.
  apply bind_no_panic; [apply get_varint_no_panic|].
  intros [n l1]. apply get_bytes_no_panic.
Qed.

Lemma get_varint_err l e : get_varint l = Err e -> e = BufferTooShort.
Proof.
  destruct l as [|f t]; [intros H; injection H as <-; reflexivity|].
  rewrite get_varint_cons.
  destruct (len (f :: t) <? varint_parse_len f) eqn:Hc; [|discriminate].
  intros H; injection H as <-; reflexivity.
Qed.

Lemma get_u8_inv l b r : get_u8 l = Ok (b, r) -> l = b :: r.
Proof. destruct l as [|x t]; [discriminate|]. cbn [get_u8]. intros H; injection H as -> ->. reflexivity. Qed.

Lemma get_u16_inv l v r :
  get_u16 l = Ok (v, r) -> exists pre, l = pre ++ r /\ len pre = 2 /\ v = be_val pre.
Proof.
  unfold get_u16. destruct (len l <? 2) eqn:Hc; [discriminate|].
  intros H; injection H as Hv Hr. exists (takeN 2 l). split; [|split].
  - rewrite <- Hr. symmetry. apply takeN_dropN.
  - apply len_takeN_le. lia.
  - auto.
Qed.

Lemma get_bytes_inv n l m r : get_bytes n l = Ok (m, r) -> l = m ++ r /\ len m = n.
Proof.
  unfold get_bytes. destruct (len l <? n) eqn:Hc; [discriminate|].
  intros H; injection H as Hm Hr. subst m r. split.
  - symmetry. apply takeN_dropN.
  - apply len_takeN_le. lia.
Qed.

Lemma get_u8_app b rest : get_u8 (b :: rest) = Ok (b, rest).
Proof. reflexivity. Qed.

Lemma get_u16_be v rest : v < 65536 -> get_u16 (be_bytes 2 v ++ rest) = Ok (v, rest).
Proof.
  intros Hv. unfold get_u16. rewrite len_app, len_be_bytes.
  destruct (N.of_nat 2 + len rest <? 2) eqn:Hc; [lia|].
  rewrite takeN_app_exact by apply len_be_bytes.
  rewrite dropN_app_exact by apply len_be_bytes.
  rewrite be_val_be_bytes. change (256 ^ N.of_nat 2) with 65536.
  rewrite N.mod_small by exact Hv. reflexivity.
Qed.

Lemma get_bytes_app m rest : get_bytes (len m) (m ++ rest) = Ok (m, rest).
Proof.
  unfold get_bytes. rewrite len_app.
  destruct (len m + len rest <? len m) eqn:Hc; [lia|].
  rewrite takeN_app_exact, dropN_app_exact by reflexivity. reflexivity.
Qed.

Lemma get_bwvl_app m rest :
  len m <= VARINT_MAX ->
  get_bytes_with_varint_length (varint_bytes (len m) ++ m ++ rest) = Ok (m, rest).
Proof.
  intros H. unfold get_bytes_with_varint_length.
  rewrite varint_roundtrip by exact H. cbn [bind]. apply get_bytes_app.
Qed.

Lemma bwvl_parses :
  parses get_bytes_with_varint_length (fun m => varint_bytes (len m) ++ m) (fun m => len m <= VARINT_MAX).
Proof. intros m rest H. rewrite <- app_assoc. apply get_bwvl_app, H. Qed.

Lemma bwvl_sound :
  sound get_bytes_with_varint_length (fun m => varint_bytes (len m) ++ m) (fun m => len m <= VARINT_MAX).
Proof.
  intros l m r H. unfold get_bytes_with_varint_length in H.
  apply bind_ok in H. destruct H as ([n l1] & Hn & H).
  apply varint_sound in Hn. destruct Hn as (Hv & Hl & Hs).
  apply get_bytes_inv in H. destruct H as [-> <-].
  rewrite !len_app in *. rewrite app_length in Hs. split; [exact Hv|]. split; lia.
Qed.

Definition w_push (w : writer) (b : list N) : writer :=
  {| w_out := w_out w ++ b; w_cap := w_cap w - len b |}.

Theorem put_bytes_spec : forall w b,
  put_bytes w b = if len b <=? w_cap w then Ok (w_push w b) else Err BufferTooShort.
Proof.
  intros w b. unfold put_bytes, w_push.
  destruct (w_cap w <? len b) eqn:H1; destruct (len b <=? w_cap w) eqn:H2; try reflexivity; lia.
Qed.

Theorem put_bytes_ok_iff : forall w b w',
  put_bytes w b = Ok w' <->
  len b <= w_cap w /\ w_out w' = w_out w ++ b /\ w_cap w' = w_cap w - len b.
Proof.
  intros w b w'. rewrite put_bytes_spec.
  destruct (len b <=? w_cap w) eqn:H; split.
  - intros E; injection E as <-. cbn [w_push w_out w_cap]. repeat split; lia.
  - intros (_ & Ho & Hc). destruct w' as [o c]. cbn [w_out w_cap] in Ho, Hc. subst o c. reflexivity.
  - discriminate.
  - intros (Hl & _). lia.
Qed.

Theorem put_bytes_err_iff : forall w b e,
  put_bytes w b = Err e <-> e = BufferTooShort /\ w_cap w < len b.
Proof.
  intros w b e. rewrite put_bytes_spec.
  destruct (len b <=? w_cap w) eqn:H; split.
  - discriminate.
  - intros [_ Hl]. lia.
  - intros E; injection E as <-. split; [reflexivity | lia].
  - intros [-> _]. reflexivity.
Qed.

Theorem put_bytes_no_panic : forall w b, is_panic (put_bytes w b) = false.
Proof. intros w b. rewrite put_bytes_spec. destruct (len b <=? w_cap w); reflexivity. Qed.

Theorem put_varint_ok : forall w v, v <= VARINT_MAX -> put_varint w v = put_bytes w (varint_bytes v).
Proof.
  intros w v Hv. unfold put_varint. destruct (VARINT_MAX <? v) eqn:H; [lia | reflexivity].
Qed.

(* What a write does.  [wr G r w b]: from writer w, the write r appends exactly b if it succeeds (and
   then the varint side condition G holds), fails only for lack of room for b, and panics only at
   the varint unreachable!(), exactly when G fails.  Every put_* is a [wr], [wr_bind] composes
   them, and when G holds the write is put_bytes w b ([wr_eq]). *)
Definition wr (G : Prop) (r : sres writer) (w : writer) (b : list N) : Prop :=
  match r with
  | Ok w' => G /\ len b <= w_cap w /\ w' = w_push w b
  | Err e => e = BufferTooShort /\ w_cap w < len b
  | Panic s => s = SITE_VARINT_TOO_LARGE /\ ~ G
  end.

Lemma wr_eq G r w b : wr G r w b -> G -> r = put_bytes w b.
Proof.
  rewrite put_bytes_spec. destruct r as [w'|e|s]; cbn [wr].
  - intros (_ & H & ->) _. destruct (len b <=? w_cap w) eqn:E; [reflexivity | lia].
  - intros (-> & H) _. destruct (len b <=? w_cap w) eqn:E; [lia | reflexivity].
  - tauto.
Qed.

Lemma wr_ext (G G' : Prop) r w b b' : wr G r w b -> (G <-> G') -> b = b' -> wr G' r w b'.
Proof. intros H HG <-. destruct r; cbn [wr] in *; tauto. Qed.

Lemma wr_put_bytes w b : wr True (put_bytes w b) w b.
Proof.
  rewrite put_bytes_spec. destruct (N.leb_spec (len b) (w_cap w)); cbn [wr]; auto.
Qed.

Lemma wr_put_varint w v : wr (v <= VARINT_MAX) (put_varint w v) w (varint_bytes v).
Proof.
  unfold put_varint. destruct (N.ltb_spec VARINT_MAX v).
  - cbn [wr]. split; [reflexivity | lia].
  - eapply wr_ext; [apply wr_put_bytes | tauto | reflexivity].
Qed.

Lemma wr_put_u8 w v : wr True (put_u8 w v) w [v mod 256].
Proof. apply wr_put_bytes. Qed.

(* put_u16 writes v mod 65536, so it writes be_bytes 2 v whatever v is *)
Lemma wr_put_u16 w v : wr True (put_u16 w v) w (be_bytes 2 v).
Proof. unfold be_bytes. rewrite <- (le_bytes_mod 2 v). apply wr_put_bytes. Qed.

Lemma w_push_app w a b : w_push (w_push w a) b = w_push w (a ++ b).
Proof. unfold w_push. cbn [w_out w_cap]. rewrite app_assoc, len_app. f_equal. lia. Qed.

Lemma wr_bind (G1 G2 : Prop) r f w a b :
  wr G1 r w a -> (forall w', wr G2 (f w') w' b) -> wr (G1 /\ G2) (bind r f) w (a ++ b).
Proof.
  intros H1 H2. destruct r as [w1|e|s]; cbn [bind wr] in *.
  - destruct H1 as (A & B & ->). specialize (H2 (w_push w a)).
    destruct (f (w_push w a)) as [w2|e|s]; cbn [wr w_push w_cap] in *; rewrite ?len_app.
    + destruct H2 as (D & E & ->). split; [tauto|]. split; [lia | apply w_push_app].
    + split; [tauto | lia].
    + tauto.
  - rewrite len_app. split; [tauto | lia].
  - tauto.
Qed.

Lemma wr_ok w : wr True (Ok w) w [].
Proof.
  cbn [wr]. rewrite (@len_nil N). split; [exact I|]. split; [lia|].
  destruct w as [o c]. unfold w_push. cbn [w_out w_cap]. rewrite app_nil_r, (@len_nil N), N.sub_0_r. reflexivity.
Qed.

Lemma put_bytes_nil w : put_bytes w [] = Ok w.
Proof. symmetry. exact (wr_eq _ _ _ _ (wr_ok w) I). Qed.

Lemma put_bytes_app w a b : bind (put_bytes w a) (fun w1 => put_bytes w1 b) = put_bytes w (a ++ b).
Proof. exact (wr_eq _ _ _ _ (wr_bind _ _ _ _ _ _ _ (wr_put_bytes w a) (fun w1 => wr_put_bytes w1 b)) (conj I I)). Qed.

Lemma put_varint_panic w v : VARINT_MAX < v -> put_varint w v = Panic SITE_VARINT_TOO_LARGE.
Proof. intros Hv. unfold put_varint. destruct (VARINT_MAX <? v) eqn:H; [reflexivity | lia]. Qed.

Lemma put_u8_ok w v : v < 256 -> put_u8 w v = put_bytes w [v].
Proof. intros Hv. unfold put_u8. rewrite N.mod_small by exact Hv. reflexivity. Qed.

Lemma put_u16_ok w v : v < 65536 -> put_u16 w v = put_bytes w (be_bytes 2 v).
Proof. intros Hv. unfold put_u16. rewrite N.mod_small by exact Hv. reflexivity. Qed.

Print Assumptions varint_roundtrip.
Print Assumptions varint_bytes_len.
Print Assumptions varint_bytes_ok.
Print Assumptions get_varint_sound.
Print Assumptions get_varint_no_panic.
Print Assumptions get_u8_no_panic.
Print Assumptions get_u16_no_panic.
Print Assumptions get_bytes_no_panic.
Print Assumptions get_bytes_with_varint_length_no_panic.
Print Assumptions put_varint_ok.
Print Assumptions put_bytes_spec.
Print Assumptions put_bytes_ok_iff.
Print Assumptions put_bytes_err_iff.
Print Assumptions put_bytes_no_panic.
Print Assumptions varint_len_le8.
Print Assumptions varint_len_ge1.

(* SMapSrvP.v - the sortedness notion of the server's id -> connection map ([sm_sorted], over the key-sorted
   association lists of Channels.v) and its bridge to [RecvSpec.asc], over which SMapP.v states the
   finite-map facts: a user holding [sm_sorted m] calls SMapP through [sm_sorted_asc]. *)
From RenetV Require Import Base Channels.
From RenetV Require RecvSpec SMapP.
Open Scope N_scope.

Fixpoint asc (ks : list N) : Prop :=
  match ks with
  | [] => True
  | k :: t => Forall (N.lt k) t /\ asc t
  end.

Definition sm_sorted {V} (m : list (N * V)) : Prop := asc (map fst m).

Lemma asc_srv l : asc l <-> RecvSpec.asc l.
Proof. induction l as [|k t IH]; [reflexivity|]. cbn [asc RecvSpec.asc]. rewrite IH. reflexivity. Qed.

Section SMapFacts.
  Context {V : Type}.
  Implicit Types (m : list (N * V)) (k j : N) (v : V).

  Lemma sm_sorted_nil : sm_sorted (@nil (N * V)).
  Proof. exact I. Qed.

  Lemma sm_sorted_asc m : sm_sorted m -> RecvSpec.asc (map fst m).
  Proof. apply asc_srv. Qed.

  Lemma sm_sorted_insert : forall k v m, sm_sorted m -> sm_sorted (sm_insert k v m).
  Proof. intros k v m Hs. apply asc_srv, SMapP.asc_sm_insert, sm_sorted_asc, Hs. Qed.

  Lemma sm_sorted_remove : forall k m, sm_sorted m -> sm_sorted (sm_remove k m).
  Proof. intros k m Hs. apply asc_srv, SMapP.asc_sm_remove, sm_sorted_asc, Hs. Qed.

  Lemma sm_mem_existsb : forall k m, sm_mem k m = existsb (N.eqb k) (map fst m).
  Proof.
    intros k m. unfold sm_mem. induction m as [|[k' v'] t IH]; cbn [sm_find map fst existsb].
    - reflexivity.
    - destruct (k =? k') eqn:E; [reflexivity | exact IH].
  Qed.

  Lemma sm_mem_insert_present : forall j k v v0 m,
      sm_find k m = Some v0 -> sm_mem j (sm_insert k v m) = sm_mem j m.
  Proof. intros j k v v0 m. apply SMapP.sm_mem_insert_present. Qed.
End SMapFacts.

Lemma sm_sorted_keys : forall {V W} (m : list (N * V)) (m' : list (N * W)),
    map fst m' = map fst m -> sm_sorted m -> sm_sorted m'.
Proof. unfold sm_sorted. intros V W m m' E H. rewrite E. exact H. Qed.

(* the finite-map laws genuinely need sortedness: with a duplicated key, removal leaves a binding *)
Example remove_needs_sorted :
  sm_find 1 (sm_remove 1 [(1, 10); (1, 20)]) = Some 20.
Proof. reflexivity. Qed.

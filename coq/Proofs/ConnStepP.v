(* ConnStepP.v - what one call on a connection can do, listed once: [conn_step c op c' out] with
   [cstep_inv], the inversion of Conn.v's public calls (no invariant is needed to state or prove it).
   Under it [parsed_step] for a decoded packet and [ack_step] for one acknowledged record. *)
From RenetV Require Import Base Consts Varint Packet Channels Conn ConnSpec BaseP.
Open Scope N_scope.

Definition note_seq (c : conn) (sq : N) : conn := with_acks c (add_pending_ack (c_acks c) sq).

Set Implicit Arguments.
Record ack_frame (c c' : conn) : Prop := {
  af_seq : c_seq c' = c_seq c; af_now : c_now c' = c_now c; af_order : c_order c' = c_order c;
  af_su : c_su c' = c_su c; af_ru : c_ru c' = c_ru c; af_rr : c_rr c' = c_rr c;
  af_budget : c_budget c' = c_budget c; af_status : c_status c' = c_status c }.
Unset Implicit Arguments.

Lemma ack_frame_refl c : ack_frame c c.
Proof. constructor; reflexivity. Qed.

Lemma ack_frame_trans c1 c2 c3 : ack_frame c1 c2 -> ack_frame c2 c3 -> ack_frame c1 c3.
Proof. intros [A1 A2 A3 A4 A5 A6 A7 A8] [B1 B2 B3 B4 B5 B6 B7 B8]. constructor; congruence. Qed.

Inductive ack_step (c : conn) (seq : N) : sent_info -> conn -> Prop :=
| AK_none : ack_step c seq SINone (with_sent c (sm_remove seq (c_sent c)))
| AK_msgs ch ids s s' :
    sm_find ch (c_sr c) = Some s -> ack_ids s ids = Ok s' ->
    ack_step c seq (SIReliableMessages ch ids)
      (with_sr (with_sent c (sm_remove seq (c_sent c))) (sm_insert ch s' (c_sr c)))
| AK_slice ch id idx s s' :
    sm_find ch (c_sr c) = Some s -> sr_ack_slice s id idx = Ok s' ->
    ack_step c seq (SIReliableSlice ch id idx)
      (with_sr (with_sent c (sm_remove seq (c_sent c))) (sm_insert ch s' (c_sr c)))
| AK_ack largest :
    ack_step c seq (SIAck largest)
      (with_acks (with_sent c (sm_remove seq (c_sent c))) (acked_largest (c_acks c) largest)).

Lemma apply_ack_inv c seq c' : apply_ack c seq = Ok c' ->
  exists t info, sm_find seq (c_sent c) = Some (t, info) /\ ack_step c seq info c'.
Proof.
  unfold apply_ack. destruct (sm_find seq (c_sent c)) as [[t info]|]; [|discriminate].
  intros E. exists t, info. split; [reflexivity|]. destruct info as [|ch ids|ch id idx|largest].
  - injection E as <-. apply AK_none.
  - cbn [with_sent c_sr] in E. destruct (sm_find ch (c_sr c)) as [s|] eqn:Hs; [|discriminate].
    destruct (ack_ids s ids) as [s'|e|st] eqn:Es; [|discriminate..].
    injection E as <-. now apply (AK_msgs c seq ch ids s s').
  - cbn [with_sent c_sr] in E. destruct (sm_find ch (c_sr c)) as [s|] eqn:Hs; [|discriminate].
    destruct (sr_ack_slice s id idx) as [s'|e|st] eqn:Es; [|discriminate..].
    injection E as <-. now apply (AK_slice c seq ch id idx s s').
  - injection E as <-. apply AK_ack.
Qed.

Lemma ack_step_frame c seq info c' : ack_step c seq info c' -> ack_frame c c'.
Proof. intros []; constructor; reflexivity. Qed.

Lemma ack_step_sent c seq info c' : ack_step c seq info c' -> c_sent c' = sm_remove seq (c_sent c).
Proof. now intros []. Qed.

Lemma apply_acks_chain (R : conn -> conn -> Prop) :
  (forall c, R c c) -> (forall c1 c2 c3, R c1 c2 -> R c2 c3 -> R c1 c3) ->
  (forall c seq info c', ack_step c seq info c' -> R c c') ->
  forall seqs c c', apply_acks c seqs = Ok c' -> R c c'.
Proof.
  intros Hrefl Htrans Hstep. induction seqs as [|s t IH]; intros c c' E; cbn [apply_acks] in E.
  - injection E as <-. apply Hrefl.
  - apply bind_ok in E as (c1 & E1 & E). apply apply_ack_inv in E1 as (tm & info & _ & A).
    exact (Htrans _ _ _ (Hstep _ _ _ _ A) (IH _ _ E)).
Qed.

Lemma apply_acks_frame seqs c c' : apply_acks c seqs = Ok c' -> ack_frame c c'.
Proof. exact (apply_acks_chain ack_frame ack_frame_refl ack_frame_trans ack_step_frame seqs c c'). Qed.

Lemma live_disconnect_with c r : is_disconnected c = false -> disconnect_with c r = set_status c (Disconnected r).
Proof. unfold disconnect_with. now intros ->. Qed.

Inductive refusal : reason -> Prop :=
| RF_channel ch : refusal (RReceivedInvalidChannelId ch)
| RF_error ch e : refusal (RReceiveChannelError ch e).

(* c1 has the packet's sequence number already noted (note_seq) and is not disconnected: see CS_packet *)
Inductive parsed_step (c1 : conn) : packet -> conn -> Prop :=
| PS_refused p r : refusal r -> parsed_step c1 p (set_status c1 (Disconnected r))
| PS_rel_small sq ch ms r r' :
    sm_find ch (c_rr c1) = Some r -> process_rel_msgs r ms = Ok r' ->
    parsed_step c1 (SmallReliable sq ch ms) (with_rr c1 (sm_insert ch r' (c_rr c1)))
| PS_unrel_small sq ch ms r :
    sm_find ch (c_ru c1) = Some r ->
    parsed_step c1 (SmallUnreliable sq ch ms) (with_ru c1 (sm_insert ch (process_unrel_msgs r ms) (c_ru c1)))
| PS_rel_slice sq ch sl r r' :
    sm_find ch (c_rr c1) = Some r -> rr_process_slice r sl = Ok r' ->
    parsed_step c1 (ReliableSlice sq ch sl) (with_rr c1 (sm_insert ch r' (c_rr c1)))
| PS_unrel_slice sq ch sl r r' :
    sm_find ch (c_ru c1) = Some r -> ru_process_slice r sl (c_now c1) = Ok r' ->
    parsed_step c1 (UnreliableSlice sq ch sl) (with_ru c1 (sm_insert ch r' (c_ru c1)))
| PS_ack sq rs l c' :
    collect_new_acks rs (c_sent c1) = Ok l -> apply_acks c1 l = Ok c' -> parsed_step c1 (Ack sq rs) c'.

Lemma refused_step c1 p r : is_disconnected c1 = false -> refusal r -> parsed_step c1 p (disconnect_with c1 r).
Proof. intros Hd Hr. rewrite live_disconnect_with by exact Hd. now apply PS_refused. Qed.

Lemma process_parsed_inv c1 p c' :
  is_disconnected c1 = false -> process_parsed c1 p = Ok c' -> parsed_step c1 p c'.
Proof.
  intros Hd E. destruct p as [sq ch ms|sq ch ms|sq ch sl|sq ch sl|sq rs]; cbn [process_parsed] in E.
  - destruct (sm_find ch (c_rr c1)) as [r|] eqn:Hr.
    2:{ injection E as <-. apply (refused_step _ _ _ Hd), RF_channel. }
    destruct (process_rel_msgs r ms) as [r'|e|st] eqn:Ep; [| |discriminate]; injection E as <-.
    + now apply (PS_rel_small c1 sq ch ms r r').
    + apply (refused_step _ _ _ Hd), RF_error.
  - destruct (sm_find ch (c_ru c1)) as [r|] eqn:Hr; injection E as <-.
    + now apply PS_unrel_small.
    + apply (refused_step _ _ _ Hd), RF_channel.
  - destruct (sm_find ch (c_rr c1)) as [r|] eqn:Hr.
    2:{ injection E as <-. apply (refused_step _ _ _ Hd), RF_channel. }
    destruct (rr_process_slice r sl) as [r'|e|st] eqn:Ep; [| |discriminate]; injection E as <-.
    + now apply (PS_rel_slice c1 sq ch sl r r').
    + apply (refused_step _ _ _ Hd), RF_error.
  - destruct (sm_find ch (c_ru c1)) as [r|] eqn:Hr.
    2:{ injection E as <-. apply (refused_step _ _ _ Hd), RF_channel. }
    destruct (ru_process_slice r sl (c_now c1)) as [r'|e|st] eqn:Ep; [| |discriminate]; injection E as <-.
    + now apply (PS_unrel_slice c1 sq ch sl r r').
    + apply (refused_step _ _ _ Hd), RF_error.
  - apply bind_ok in E as (l & El & E). now apply (PS_ack c1 sq rs l).
Qed.

Definition is_update (o : cop) : bool := match o with CUpdate _ => true | _ => false end.
Definition is_setter (o : cop) : bool :=
  match o with CSetConnected | CSetConnecting | CDisconnect | CDisconnectTransport => true | _ => false end.

Definition setter_status (o : cop) : status :=
  match o with
  | CSetConnected => Connected
  | CSetConnecting => Connecting
  | CDisconnect => Disconnected RDisconnectedByClient
  | _ => Disconnected RTransport
  end.

Definition idle_out (o : cop) : cout :=
  match o with CRecv _ => OMsg None | CFlush => OPkts [] | _ => ONone end.

(* a call other than update on a dead connection changes nothing: it is listed as setting the status to what it
   is (set_status_same) *)
Inductive status_only (c : conn) : cop -> status -> Prop :=
| SO_dead op : is_disconnected c = true -> is_update op = false -> status_only c op (c_status c)
| SO_set op : is_disconnected c = false -> is_setter op = true -> status_only c op (setter_status op)
| SO_send_err ch m s e :
    is_disconnected c = false -> sm_find ch (c_sr c) = Some s -> sr_send s m = Err e ->
    status_only c (CSend ch m) (Disconnected (RSendChannelError ch e))
| SO_undecodable b e :
    is_disconnected c = false -> from_bytes b = Err e ->
    status_only c (CProcess b) (Disconnected (RPacketDeserialization e)).

Lemma set_status_same c : set_status c (c_status c) = c.
Proof. now destruct c. Qed.

Definition sets_no_status (o : cop) : bool := match o with CRecv _ | CUpdate _ | CFlush => true | _ => false end.

Lemma status_only_dead c op st : status_only c op st -> sets_no_status op = true ->
  is_disconnected c = true /\ is_update op = false /\ set_status c st = c.
Proof.
  intros [op0 Hd Hu|op0 _ Hs|ch m s e _ _ _|b e _ _] Hn; try discriminate Hn.
  - split; [exact Hd|]. split; [exact Hu|apply set_status_same].
  - destruct op0; discriminate.
Qed.

(* update is the one call that does not look at the status *)
Inductive conn_step (c : conn) : cop -> conn -> cout -> Prop :=
| CS_status op st : status_only c op st -> conn_step c op (set_status c st) (idle_out op)
| CS_send_rel ch m s s' :
    is_disconnected c = false -> sm_find ch (c_sr c) = Some s -> sr_send s m = Ok s' ->
    conn_step c (CSend ch m) (with_sr c (sm_insert ch s' (c_sr c))) ONone
| CS_send_unrel ch m s :
    is_disconnected c = false -> sm_find ch (c_sr c) = None -> sm_find ch (c_su c) = Some s ->
    conn_step c (CSend ch m) (with_su c (sm_insert ch (su_send s m) (c_su c))) ONone
| CS_recv_rel ch r r' mo :
    is_disconnected c = false -> sm_find ch (c_rr c) = Some r -> rr_receive r = Ok (r', mo) ->
    conn_step c (CRecv ch) (with_rr c (sm_insert ch r' (c_rr c))) (OMsg mo)
| CS_recv_unrel ch r r' mo :
    is_disconnected c = false -> sm_find ch (c_rr c) = None -> sm_find ch (c_ru c) = Some r ->
    ru_receive r = Ok (r', mo) ->
    conn_step c (CRecv ch) (with_ru c (sm_insert ch r' (c_ru c))) (OMsg mo)
| CS_update dt ru sent :
    discard_all (c_now c + dt) (c_ru c) = Ok ru -> drop_lost (c_now c + dt) (c_sent c) = Ok sent ->
    conn_step c (CUpdate dt) (with_sent (with_ru (with_now c (c_now c + dt)) ru) sent) ONone
| CS_flush c' bytes :
    is_disconnected c = false -> get_packets_to_send c = Ok (c', bytes) -> conn_step c CFlush c' (OPkts bytes)
| CS_packet b p c' :
    is_disconnected c = false -> from_bytes b = Ok p -> parsed_step (note_seq c (packet_seq p)) p c' ->
    conn_step c (CProcess b) c' ONone.

Lemma dead_step c op : is_disconnected c = true -> is_update op = false -> conn_step c op c (idle_out op).
Proof. intros Hd Hu. rewrite <- (set_status_same c) at 2. apply CS_status. now apply SO_dead. Qed.

(* set_connected, set_connecting, disconnect and disconnect_transport are this conditional by unfolding *)
Lemma setter_step c op :
  is_setter op = true ->
  conn_step c op (if is_disconnected c then c else set_status c (setter_status op)) (idle_out op).
Proof.
  intros Hs. destruct (is_disconnected c) eqn:Hd.
  - apply dead_step; [exact Hd|]. now destruct op.
  - apply CS_status. now apply SO_set.
Qed.

Lemma send_message_inv c ch m c' : send_message c ch m = Ok c' -> conn_step c (CSend ch m) c' ONone.
Proof.
  unfold send_message. destruct (is_disconnected c) eqn:Hd.
  { intros [= <-]. now apply (dead_step c (CSend ch m)). }
  destruct (sm_find ch (c_sr c)) as [s|] eqn:Hs.
  - destruct (sr_send s m) as [s'|e|st] eqn:Es; [| |discriminate]; intros [= <-].
    + now apply (CS_send_rel c ch m s s').
    + rewrite live_disconnect_with by exact Hd. apply (CS_status c (CSend ch m)). now apply (SO_send_err c ch m s e).
  - destruct (sm_find ch (c_su c)) as [s|] eqn:Hu; [|discriminate]. intros [= <-]. now apply CS_send_unrel.
Qed.

Lemma receive_message_inv c ch c' mo : receive_message c ch = Ok (c', mo) -> conn_step c (CRecv ch) c' (OMsg mo).
Proof.
  unfold receive_message. destruct (is_disconnected c) eqn:Hd.
  { intros [= <- <-]. now apply (dead_step c (CRecv ch)). }
  destruct (sm_find ch (c_rr c)) as [r|] eqn:Hr.
  - destruct (rr_receive r) as [[r' m']|e|st] eqn:Er; [|discriminate..]. intros [= <- <-].
    now apply (CS_recv_rel c ch r r').
  - destruct (sm_find ch (c_ru c)) as [r|] eqn:Hu; [|discriminate].
    destruct (ru_receive r) as [[r' m']|e|st] eqn:Er; [|discriminate..]. intros [= <- <-].
    now apply (CS_recv_unrel c ch r r').
Qed.

Lemma update_unfold c dt c' : update c dt = Ok c' ->
  exists ru sent, discard_all (c_now c + dt) (c_ru c) = Ok ru /\ drop_lost (c_now c + dt) (c_sent c) = Ok sent /\
                  c' = with_sent (with_ru (with_now c (c_now c + dt)) ru) sent.
Proof.
  unfold update. intros E. apply bind_ok in E as (ru & Eru & E). apply bind_ok in E as (sent & Es & [= <-]). eauto.
Qed.

Lemma update_inv c dt c' : update c dt = Ok c' -> conn_step c (CUpdate dt) c' ONone.
Proof. intros E. destruct (update_unfold c dt c' E) as (ru & sent & Eru & Es & ->). now apply CS_update. Qed.

Lemma process_packet_step c b c' : process_packet c b = Ok c' -> conn_step c (CProcess b) c' ONone.
Proof.
  unfold process_packet. destruct (is_disconnected c) eqn:Hd.
  { intros [= <-]. now apply (dead_step c (CProcess b)). }
  destruct (from_bytes b) as [p|e|st] eqn:Hp; [| |discriminate].
  - intros E. apply (CS_packet c b p c' Hd Hp). now apply process_parsed_inv.
  - intros [= <-]. rewrite live_disconnect_with by exact Hd.
    apply (CS_status c (CProcess b)). now apply SO_undecodable.
Qed.

Lemma process_packet_cases c b c' : process_packet c b = Ok c' ->
  (exists st, status_only c (CProcess b) st /\ c' = set_status c st) \/
  (exists p, is_disconnected c = false /\ from_bytes b = Ok p /\ parsed_step (note_seq c (packet_seq p)) p c').
Proof.
  intros E. apply process_packet_step in E.
  inversion E as [op st S| | | | | | |b0 p c2 Hd Hp PS]; subst; [left|right]; eauto.
Qed.

Lemma get_packets_inv c c' bytes : get_packets_to_send c = Ok (c', bytes) -> conn_step c CFlush c' (OPkts bytes).
Proof.
  intros E. destruct (is_disconnected c) eqn:Hd; [|now apply CS_flush].
  unfold get_packets_to_send in E. rewrite Hd in E. injection E as <- <-. now apply (dead_step c CFlush).
Qed.

Theorem cstep_inv c op c' out : cstep c op = Ok (c', out) -> conn_step c op c' out.
Proof.
  intros E. destruct op as [ch m|ch|dt|b| | | | |]; cbn [cstep] in E.
  - apply bind_ok in E as (c1 & E1 & [= <- <-]). now apply send_message_inv.
  - apply bind_ok in E as ([c1 mo] & E1 & [= <- <-]). now apply receive_message_inv.
  - apply bind_ok in E as (c1 & E1 & [= <- <-]). now apply update_inv.
  - apply bind_ok in E as (c1 & E1 & [= <- <-]). now apply process_packet_step.
  - apply bind_ok in E as ([c1 p] & E1 & [= <- <-]). now apply get_packets_inv.
  - injection E as <- <-. exact (setter_step c CSetConnected eq_refl).
  - injection E as <- <-. exact (setter_step c CSetConnecting eq_refl).
  - injection E as <- <-. exact (setter_step c CDisconnect eq_refl).
  - injection E as <- <-. exact (setter_step c CDisconnectTransport eq_refl).
Qed.

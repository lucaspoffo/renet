(* HooksP.v - the operations added to the executable model for the test harness (RenetClient::verif_warp,
   RenetServer::process_local_client / connected_clients / has_connections, the synthetic connect token
   entries, the unsecure client construction) stay inside the invariants the theorems are stated over,
   and are panic free except for the varint site of a flush, which ConnP.cstep_safe leaves open as well. *)
From RenetV Require Import Base Consts Varint Packet Channels Conn Server RDriver.
From RenetV Require Import CodecSpec RecvSpec SendSpec ConnSpec ConnInvSpec RSysSpec RSysInvSpec.
From RenetV Require Import BaseP SMapP ConnBaseP ConnP RSysStepP RSysInvP RSysP.
From RenetV Require SMapSrvP ServerP DisconnectP.
Require Import Lia.
Open Scope N_scope.

Local Opaque SLICE_SIZE MAX_ACK_RANGES SER_BUFFER NC_MAX_PAYLOAD_BYTES DISCARD_PACKET_SECS VARINT_MAX MAX_NUM_SLICES.

Lemma warp_noop c seq id : c_sent c <> [] \/ c_acks c <> [] -> warp c seq id = c.
Proof.
  intros H. unfold warp. destruct (c_sent c) as [|x t]; [|reflexivity].
  destruct (c_acks c) as [|y u]; [|reflexivity]. destruct H as [H|H]; congruence.
Qed.

Lemma warp_sr_inv now id s : sr_inv now s -> sr_inv now (warp_sr id s).
Proof.
  intros H. unfold warp_sr. destruct (sr_unacked s) as [|u t] eqn:E; [|exact H].
  destruct H as (H1 & H2 & H3 & H4). rewrite E in H3. cbn [map sum fold_right] in H3.
  unfold sr_inv. cbn [sr_unacked sr_next_id sr_mem sr_max map]. repeat split; auto.
Qed.

Lemma warp_sr_ch id s : sr_ch (warp_sr id s) = sr_ch s.
Proof. unfold warp_sr. destruct (sr_unacked s); reflexivity. Qed.

Lemma warp_su_inv id s : su_inv s -> su_inv (warp_su id s).
Proof. intros H. exact H. Qed.

Lemma warp_rr_inv id r : rr_inv r -> rr_inv (warp_rr id r).
Proof.
  intros H. unfold warp_rr. destruct (rr_messages r) as [|m t] eqn:Em; [|exact H].
  destruct (rr_slices r) as [|sl u] eqn:Es; [|exact H].
  destruct H as (H1 & H2 & H3 & H4 & H5 & H6). rewrite Em, Es in H1.
  unfold rr_inv. cbn [rr_mem rr_messages rr_slices rr_max rr_order rr_oldest].
  split; [exact H1|]. split; [exact H2|]. split; [constructor|]. split; [exact I|]. split; [exact I|].
  destruct (rr_order r) as [|mr rcv]; [exact I|].
  destruct rcv as [|x rcv].
  - split; [exact I|]. intros k Hk. discriminate.
  - destruct H6 as [H6 _]. split; [exact H6|]. intros k Hk. discriminate.
Qed.

(* no bound on seq or id is needed: conn_inv does not bound the counters (the "counters are small" side
   condition is separate, see warp_counters_small below) *)
Theorem warp_inv_strong : forall c seq id, conn_inv c -> conn_inv (warp c seq id).
Proof.
  intros c seq id Hi. unfold warp.
  destruct (c_sent c) as [|x t] eqn:Esent; [|exact Hi].
  destruct (c_acks c) as [|y u] eqn:Eacks; [|exact Hi].
  destruct Hi as [S1 S2 S3 S4 S5 Isr Isu Irr Iru Iord A1 A2 A3 Isent].
  constructor; cbn [c_sr c_su c_rr c_ru c_sent c_now c_order c_acks c_seq]; unfold sorted_keys in *;
    rewrite ?map_fst_map_snd; auto.
  - exact I.
  - eapply Forall_map_snd; [|exact Isr]. intros k s [A B]. cbn [fst snd] in *.
    split; [now apply warp_sr_inv | now rewrite warp_sr_ch].
  - eapply Forall_map_snd; [|exact Isu]. intros k s H. exact H.
  - eapply Forall_map_snd; [|exact Irr]. intros k r H. apply warp_rr_inv. exact H.
  - eapply Forall_impl; [|exact Iord]. intros [b ch]. unfold order_ok. cbn [fst snd].
    rewrite !sm_mem_map_snd. auto.
  - exact I.
  - rewrite Eacks in A2. exact A2.
  - constructor.
Qed.

Theorem warp_inv : forall c seq id,
  conn_inv c -> seq < 2^62 -> id < 2^62 -> conn_inv (warp c seq id).
Proof. intros c seq id Hi _ _. now apply warp_inv_strong. Qed.

Lemma warp_channels c seq id : same_channels c (warp c seq id).
Proof.
  unfold warp. destruct (c_sent c); [|apply same_channels_refl]. destruct (c_acks c); [|apply same_channels_refl].
  intros ch. cbn [c_sr c_su c_rr c_ru]. rewrite !sm_mem_map_snd. auto.
Qed.

Lemma warp_u8 c seq id : chans_u8 c -> chans_u8 (warp c seq id).
Proof. apply chans_u8_same, warp_channels. Qed.

Lemma warp_sr_pkt_bound id s : sr_pkt_bound (warp_sr id s) = sr_pkt_bound s.
Proof. unfold warp_sr. destruct (sr_unacked s) eqn:E; [|reflexivity]. unfold sr_pkt_bound. cbn [sr_unacked]. now rewrite E. Qed.

Lemma warp_flush_pkt_bound c seq id : flush_pkt_bound (warp c seq id) = flush_pkt_bound c.
Proof.
  unfold warp. destruct (c_sent c); [|reflexivity]. destruct (c_acks c); [|reflexivity].
  unfold flush_pkt_bound. cbn [c_order]. f_equal. f_equal. apply map_ext. intros [b ch].
  unfold chan_pkt_bound. cbn [fst snd c_sr c_su]. rewrite !sm_find_map_snd.
  destruct b.
  - destruct (sm_find ch (c_sr c)); cbn [option_map]; [apply warp_sr_pkt_bound|reflexivity].
  - destruct (sm_find ch (c_su c)); cbn [option_map]; reflexivity.
Qed.

(* the side condition under which the encoder cannot reach unreachable!() (counters_small, the hypothesis of
   flush_no_overflow) after a warp: this one does need bounds, and more than seq < 2^62, id < 2^62:
   the packets one flush can emit are counted from seq, and each queued large unreliable message is
   about to consume one sliced-message id counted from id *)
Theorem warp_counters_small : forall c seq id,
  counters_small c ->
  seq + flush_pkt_bound c <= VARINT_MAX + 1 ->
  id <= VARINT_MAX + 1 ->
  Forall (fun e => id + su_large_count (snd e) <= VARINT_MAX + 1) (c_su c) ->
  counters_small (warp c seq id).
Proof.
  intros c seq id (Hs & Hsr & Hsu) Hseq Hid Hq. unfold counters_small.
  rewrite warp_flush_pkt_bound. unfold warp.
  destruct (c_sent c); [|repeat split; assumption]. destruct (c_acks c); [|repeat split; assumption].
  cbn [c_seq c_sr c_su]. split; [exact Hseq|]. split.
  - eapply Forall_map_snd; [|exact Hsr]. intros k s Hs'. cbn [snd] in *. unfold warp_sr.
    destruct (sr_unacked s); [|exact Hs']. destruct Hs' as [A B]. split; cbn [sr_next_id sr_max]; assumption.
  - eapply Forall_map_snd; [|exact (Forall_and Hsu Hq)]. intros k s [[A B] Hq']. cbn [snd] in *.
    split; [exact Hq'|exact B].
Qed.

(* what the two-endpoint theorems (base_inv of Spec/RSysInvSpec.v) ask of a connection: the invariant, and
   send-channel ids that fit the u8 the wire format gives them (in Rust the type of a channel id) *)
Definition conn_ok (c : conn) : Prop := conn_inv c /\ chans_u8 c.

Definition srv_ok (s : server) : Prop :=
  ServerP.conns_sorted s /\ Forall (fun e => conn_ok (snd e)) (s_conns s).

Lemma srv_ok_find s id c : srv_ok s -> sm_find id (s_conns s) = Some c -> conn_ok c.
Proof. intros [_ H] Hf. exact (Forall_sm_find _ _ _ _ H Hf). Qed.

Lemma srv_ok_insert s id c :
  srv_ok s -> conn_ok c -> srv_ok (with_conns s (sm_insert id c (s_conns s))).
Proof.
  intros [Hs Hf] Hc. split.
  - unfold ServerP.conns_sorted. cbn [with_conns s_conns]. now apply SMapSrvP.sm_sorted_insert.
  - cbn [with_conns s_conns]. apply Forall_sm_insert; [exact Hc|exact Hf].
Qed.

Lemma cstep_conn_ok c op c' out :
  conn_ok c -> is_process op = false -> cstep c op = Ok (c', out) -> conn_ok c' /\ out_wf (outs_of out).
Proof.
  intros [Hi Hu] Hnp E. destruct (api_side_ok c op c' out [] Hi Hu out_wf_nil Hnp E) as (Hi' & Hu' & Hw).
  split; [split; assumption | exact Hw].
Qed.

Lemma process_packet_conn_ok c b :
  conn_ok c -> (forall p, from_bytes b = Ok p -> packet_wf p) ->
  exists c', process_packet c b = Ok c' /\ conn_ok c'.
Proof.
  intros [Hi Hu] Hb. destruct (ConnProcP.process_packet_ok c b Hi Hb) as (c' & E & _).
  exists c'. split; [exact E|exact (deliver_side_ok c b c' Hi Hu Hb E)].
Qed.

Lemma flush_ok c :
  conn_ok c ->
  match get_packets_to_send c with
  | Ok (c', pk) => conn_ok c' /\ out_wf pk
  | Err _ => False
  | Panic site => site = SITE_VARINT_TOO_LARGE
  end.
Proof.
  intros Hc. pose proof (flush_safe c (proj1 Hc)) as H.
  destruct (get_packets_to_send c) as [[c' pk]|e|st] eqn:E; [|exact H|exact H].
  apply (cstep_conn_ok c CFlush c' (OPkts pk) Hc eq_refl). cbn [cstep]. rewrite E. reflexivity.
Qed.

Lemma out_wf_cons b pk : out_wf (b :: pk) -> (forall p, from_bytes b = Ok p -> packet_wf p) /\ out_wf pk.
Proof.
  intros H. split.
  - intros p Hp. apply (H b p); [now left|exact Hp].
  - intros b' p Hin Hp. apply (H b' p); [now right|exact Hp].
Qed.

Lemma conn_process_all_ok pk : forall c,
  conn_ok c -> out_wf pk -> exists c', conn_process_all c pk = Ok c' /\ conn_ok c'.
Proof.
  induction pk as [|b pk IH]; intros c Hc Hw; cbn [conn_process_all].
  - exists c. split; [reflexivity|exact Hc].
  - apply out_wf_cons in Hw. destruct Hw as [Hb Hw].
    destruct (process_packet_conn_ok c b Hc Hb) as (c1 & E1 & Hc1). rewrite E1. cbn [bind].
    exact (IH c1 Hc1 Hw).
Qed.

Lemma srv_process_all_ok pk : forall s id c c1,
  srv_ok s -> sm_find id (s_conns s) = Some c -> conn_ok c1 -> out_wf pk ->
  exists s', srv_process_all (with_conns s (sm_insert id c1 (s_conns s))) id pk = Ok (s', true) /\ srv_ok s' /\
    map fst (s_conns s') = map fst (s_conns s) /\
    (forall j, j <> id -> sm_find j (s_conns s') = sm_find j (s_conns s)) /\
    s_events s' = s_events s.
Proof.
  induction pk as [|b pk IH]; intros s id c c1 Hs Hf Hc1 Hw; cbn [srv_process_all].
  - eexists. split; [reflexivity|]. split; [now apply srv_ok_insert|]. cbn [with_conns s_conns s_events]. split.
    { eapply sm_insert_present_keys; [apply SMapSrvP.sm_sorted_asc, Hs | exact Hf]. }
    split; [intros j Hj; now apply sm_find_insert_other|reflexivity].
  - apply out_wf_cons in Hw. destruct Hw as [Hb Hw].
    unfold process_packet_from. cbn [with_conns s_conns]. rewrite sm_find_insert_same.
    destruct (process_packet_conn_ok c1 b Hc1 Hb) as (c2 & E2 & Hc2). rewrite E2. cbn [bind].
    rewrite sm_insert_insert. exact (IH s id c c2 Hs Hf Hc2 Hw).
Qed.

Lemma process_local_client_absent s id client :
  sm_find id (s_conns s) = None -> process_local_client s id client = Ok (s, client, false).
Proof. intros H. unfold process_local_client, srv_get_packets_to_send. rewrite H. reflexivity. Qed.

Theorem process_local_client_safe : forall s id client,
  srv_ok s -> conn_ok client ->
  match process_local_client s id client with
  | Ok (s', c', ok) =>
      conn_ok c' /\ srv_ok s' /\
      map fst (s_conns s') = map fst (s_conns s) /\
      (forall j, j <> id -> sm_find j (s_conns s') = sm_find j (s_conns s)) /\
      s_events s' = s_events s /\
      (ok = false <-> sm_find id (s_conns s) = None) /\
      (ok = false -> s' = s /\ c' = client)
  | Err _ => False
  | Panic site => site = SITE_VARINT_TOO_LARGE
  end.
Proof.
  intros s id client Hs Hc. unfold process_local_client, srv_get_packets_to_send.
  destruct (sm_find id (s_conns s)) as [c|] eqn:Hf; cbn [bind].
  2:{ split; [exact Hc|]. split; [exact Hs|]. repeat split; auto. }
  pose proof (flush_ok c (srv_ok_find _ _ _ Hs Hf)) as H1.
  destruct (get_packets_to_send c) as [[c1 pk]|e|st]; cbn [bind]; [|exact H1|exact H1].
  destruct H1 as [Hc1 Hw].
  destruct (conn_process_all_ok pk client Hc Hw) as (cl1 & E2 & Hcl1). rewrite E2. cbn [bind].
  pose proof (flush_ok cl1 Hcl1) as H3.
  destruct (get_packets_to_send cl1) as [[cl2 pk2]|e|st]; cbn [bind]; [|exact H3|exact H3].
  destruct H3 as [Hcl2 Hw2].
  destruct (srv_process_all_ok pk2 s id c c1 Hs Hf Hc1 Hw2) as (s' & E' & Hs' & Hk & Hfr & Hev).
  rewrite E'. cbn [bind].
  split; [exact Hcl2|]. split; [exact Hs'|]. split; [exact Hk|]. split; [exact Hfr|].
  split; [exact Hev|]. split; [split; discriminate|discriminate].
Qed.

Lemma srv_ok_new budget scfg ccfg : srv_ok (server_new budget scfg ccfg).
Proof. split; [exact I|constructor]. Qed.

Lemma conn_ok_set_connected c : conn_ok c -> conn_ok (set_connected c).
Proof. intros Hc. exact (proj1 (cstep_conn_ok c CSetConnected _ ONone Hc eq_refl eq_refl)). Qed.

Lemma new_from_server_ok s c : cfg_u8 (s_send_cfg s) -> new_from_server s = Ok c -> conn_ok c.
Proof.
  intros Hu E. unfold new_from_server in E.
  pose proof (conn_new_cf _ _ _ _ E Hu) as F. split; [exact (cf_inv F)|exact (cf_u8 F)].
Qed.

Lemma add_connection_ok s id s' :
  cfg_u8 (s_send_cfg s) -> srv_ok s -> add_connection s id = Ok s' -> srv_ok s' /\ s_send_cfg s' = s_send_cfg s.
Proof.
  intros Hu Hs E. unfold add_connection in E. destruct (sm_mem id (s_conns s)); [injection E as <-; auto|].
  destruct (new_from_server s) as [c| |] eqn:En; cbn [bind] in E; try discriminate. injection E as <-.
  split; [|reflexivity]. pose proof (conn_ok_set_connected c (new_from_server_ok s c Hu En)) as Hc.
  exact (srv_ok_insert s id _ Hs Hc).
Qed.

Lemma new_local_client_ok s id s' c :
  cfg_u8 (s_send_cfg s) -> srv_ok s -> new_local_client s id = Ok (s', c) -> srv_ok s' /\ conn_ok c.
Proof.
  intros Hu Hs E. unfold new_local_client in E.
  destruct (new_from_server s) as [c0| |] eqn:En; cbn [bind] in E; try discriminate.
  destruct (add_connection s id) as [s1| |] eqn:Ea; cbn [bind] in E; try discriminate. injection E as <- <-.
  split; [exact (proj1 (add_connection_ok s id s1 Hu Hs Ea))|].
  apply conn_ok_set_connected. exact (new_from_server_ok s c0 Hu En).
Qed.

Theorem connected_clients_spec : forall s,
  connected_clients s = len (clients_id s) /\ connected_clients s <= len (s_conns s).
Proof.
  intros s. split; [reflexivity|]. unfold connected_clients, clients_id, len. rewrite map_length.
  apply len_filter_le.
Qed.

Theorem connected_clients_count : forall s,
  connected_clients s = len (filter (fun ic => is_connected_st (snd ic)) (s_conns s)) /\
  (forall id, In id (clients_id s) -> ServerP.conns_sorted s -> srv_is_connected s id = true).
Proof.
  intros s. split; [unfold connected_clients, clients_id, len; now rewrite map_length|].
  intros id Hin Hs. unfold clients_id in Hin. apply in_map_iff in Hin. destruct Hin as ([k c] & <- & Hin).
  apply filter_In in Hin. destruct Hin as [Hin Hc]. cbn [fst snd] in *. unfold srv_is_connected.
  rewrite (sm_in_find _ _ _ Hs Hin). exact Hc.
Qed.

Theorem has_connections_spec : forall s, has_connections s = true <-> s_conns s <> [].
Proof.
  intros s. unfold has_connections. destruct (s_conns s); split; intros H; try discriminate; try reflexivity.
  congruence.
Qed.

Lemma send_message_ok c ch m c' : conn_ok c -> send_message c ch m = Ok c' -> conn_ok c'.
Proof.
  intros Hc E. apply (cstep_conn_ok c (CSend ch m) c' ONone Hc eq_refl). cbn [cstep]. rewrite E. reflexivity.
Qed.

Lemma srv_send_message_ok s id ch m s' : srv_ok s -> srv_send_message s id ch m = Ok s' -> srv_ok s'.
Proof.
  intros Hs E. destruct (ServerP.srv_send_message_upd _ _ _ _ _ E) as [_ ->|c c' Hf Es ->]; [exact Hs|].
  apply srv_ok_insert; [exact Hs|]. eapply send_message_ok; [|exact Es]. eapply srv_ok_find; eauto.
Qed.

Definition hx_cfg : list chan_config := ConnP.ex_cfg.
Definition hx_msg : list N := [104; 105; 33].

Lemma hx_cfg_u8 : cfg_u8 hx_cfg.
Proof. repeat constructor. Qed.

Definition hx_sent : conn * list cout := ltac:(evaluated (crun (warp ex_conn 1000 77) [CSend 2 hx_msg; CFlush])).
Lemma hx_sent_eq : crun (warp ex_conn 1000 77) [CSend 2 hx_msg; CFlush] = Ok hx_sent.
Proof. evaluates. Qed.

(* a fresh connection is warped to packet sequence 1000 and message id 77: the invariant holds, the next
   message travels under these numbers, and from then on (something is tracked) warp is the identity *)
Example warp_example :
  exists c w w1,
    conn_new 60000 hx_cfg hx_cfg = Ok c /\ conn_inv c /\ w = warp c 1000 77 /\ conn_inv w /\ c_seq w = 1000 /\
    crun w [CSend 2 hx_msg; CFlush] =
      Ok (w1, [ONone; OPkts [[0; 67; 232; 2; 0; 1; 64; 77; 3; 104; 105; 33]]]) /\
    c_sent w1 = [(1000, (0, SIReliableMessages 2 [77]))] /\ c_seq w1 = 1001 /\
    warp w1 5 5 = w1.
Proof.
  pose proof ex_conn_inv as Hi.
  exists ex_conn, (warp ex_conn 1000 77), (fst hx_sent).
  split; [exact ex_conn_eq|]. split; [exact Hi|]. split; [reflexivity|].
  split; [apply warp_inv; [exact Hi|reflexivity|reflexivity]|]. split; [reflexivity|].
  split; [exact hx_sent_eq|]. split; [reflexivity|]. split; [reflexivity|].
  apply warp_noop. left. intros H. discriminate H.
Qed.

(* the bounds seq < 2^62 and id < 2^62 of warp_inv do not make the next flush safe: the counters may be
   moved to the edge, and then the encoder's unreachable!() is one message away (this is the panic
   cstep_safe leaves open, and why warp_counters_small asks for more) *)
Example warp_then_overflow :
  exists c, conn_new 60000 hx_cfg hx_cfg = Ok c /\
    2^62 - 1 < 2^62 /\
    crun (warp c 0 (2^62 - 1)) [CSend 2 hx_msg; CSend 2 hx_msg; CFlush] = Panic SITE_VARINT_TOO_LARGE /\
    crun (warp c (2^62 - 1) 0) [CSend 2 hx_msg; CSend 1 hx_msg; CFlush] = Panic SITE_VARINT_TOO_LARGE.
Proof.
  exists ex_conn. split; [exact ex_conn_eq|]. split; [reflexivity|]. split; vm_compute; reflexivity.
Qed.

(* a server with one local client; one message queued in each direction; process_local_client carries
   both across.  The hypotheses of process_local_client_safe hold of this state. *)
Definition hx_setup : option (server * conn) :=
  match new_local_client (server_new 60000 hx_cfg hx_cfg) 7 with
  | Ok (s1, cl) =>
      match srv_send_message s1 7 2 hx_msg, send_message cl 1 [1; 2] with
      | Ok s2, Ok cl1 => Some (s2, cl1)
      | _, _ => None
      end
  | _ => None
  end.

Lemma hx_setup_ok x : hx_setup = Some x -> srv_ok (fst x) /\ conn_ok (snd x).
Proof.
  unfold hx_setup. intros E.
  destruct (new_local_client _ 7) as [[s1 c1]| |] eqn:E1; try discriminate E.
  destruct (new_local_client_ok (server_new 60000 hx_cfg hx_cfg) _ _ _ hx_cfg_u8 (srv_ok_new _ _ _) E1) as [Hs1 Hc1].
  destruct (srv_send_message s1 7 2 hx_msg) as [s2| |] eqn:E2; try discriminate E.
  destruct (send_message c1 1 [1; 2]) as [c2| |] eqn:E3; try discriminate E.
  injection E as <-. split; [exact (srv_send_message_ok _ _ _ _ _ Hs1 E2) | exact (send_message_ok _ _ _ _ Hc1 E3)].
Qed.

Definition hx_state : server * conn := ltac:(evaluated hx_setup).
Lemma hx_state_eq : hx_setup = Some hx_state.
Proof. evaluates. Qed.

Definition hx_done : server * conn * bool := ltac:(evaluated (process_local_client (fst hx_state) 7 (snd hx_state))).
Lemma hx_done_eq : process_local_client (fst hx_state) 7 (snd hx_state) = Ok hx_done.
Proof. evaluates. Qed.

Example process_local_client_example :
  exists s cl s' cl' s1 cl1 s2 cl2,
    hx_setup = Some (s, cl) /\ srv_ok s /\ conn_ok cl /\
    process_local_client s 7 cl = Ok (s', cl', true) /\ srv_ok s' /\ conn_ok cl' /\
    map fst (s_conns s') = [7] /\
    receive_message cl' 2 = Ok (cl1, Some hx_msg) /\
    srv_receive_message s' 7 1 = Ok (s1, Some [1; 2]) /\
    (* an id the server does not know: nothing happens *)
    process_local_client s 8 cl = Ok (s2, cl2, false) /\ s2 = s /\ cl2 = cl.
Proof.
  destruct (hx_setup_ok _ hx_state_eq) as [Hs Hc].
  pose proof (process_local_client_safe _ 7 _ Hs Hc) as P. rewrite hx_done_eq in P. destruct P as (Q1 & Q2 & _).
  exists (fst hx_state), (snd hx_state), (fst (fst hx_done)), (snd (fst hx_done)).
  eexists _, _, (fst hx_state), (snd hx_state).
  split; [exact hx_state_eq|]. split; [exact Hs|]. split; [exact Hc|]. split; [exact hx_done_eq|].
  split; [exact Q2|]. split; [exact Q1|]. split; [reflexivity|].
  split; [vm_compute; reflexivity|]. split; [vm_compute; reflexivity|].
  split; [apply process_local_client_absent; reflexivity|]. split; reflexivity.
Qed.

From RenetV Require Import Aead NPacket Token NServer NClient NDriver.
From RenetV Require Import Spec.NetSpec Spec.NSysSpec.
From RenetV Require Proofs.AeadP Proofs.TokenP Proofs.NServerP Proofs.NAuthP Proofs.NClientP.

Definition synth_entry (base i : N) (a : addr) : token_entry :=
  {| te_time := base + i; te_addr := a; te_mac := le64 i ++ repeat 0 (N.to_nat (NC_MAC_BYTES - 8)) |}.

Lemma fill_entries_length : forall es i count base a,
  length (fill_entries es i count base a) = length es.
Proof.
  induction es as [|e t IH]; intros i count base a; cbn [fill_entries length]; [reflexivity|].
  now rewrite IH.
Qed.

Lemma fill_entries_len es i count base a : len (fill_entries es i count base a) = len es.
Proof. unfold len. now rewrite fill_entries_length. Qed.

Lemma fill_entries_nth : forall es i count base a k,
  nth_error (fill_entries es i count base a) k =
  match nth_error es k with
  | None => None
  | Some e => Some (if i + N.of_nat k <? count then Some (synth_entry base (i + N.of_nat k) a) else e)
  end.
Proof.
  induction es as [|e t IH]; intros i count base a k; cbn [fill_entries].
  - destruct k; reflexivity.
  - destruct k as [|k]; cbn [nth_error].
    + replace (i + N.of_nat 0) with i by lia. reflexivity.
    + rewrite IH. replace (i + 1 + N.of_nat k) with (i + N.of_nat (S k)) by lia. reflexivity.
Qed.

Theorem fill_entries_lookup : forall es count base a i,
  (i < count -> i < len es ->
     nth_opt (fill_entries es 0 count base a) (N.to_nat i) = Some (Some (synth_entry base i a))) /\
  (count <= i -> nth_opt (fill_entries es 0 count base a) (N.to_nat i) = nth_opt es (N.to_nat i)).
Proof.
  intros es count base a i. rewrite !nth_opt_eq, fill_entries_nth.
  replace (0 + N.of_nat (N.to_nat i)) with i by lia. split.
  - intros Hc Hl. destruct (nth_error es (N.to_nat i)) as [e|] eqn:E.
    + destruct (N.ltb_spec i count); [reflexivity|lia].
    + apply nth_error_None in E. unfold len in Hl. lia.
  - intros Hc. destruct (nth_error es (N.to_nat i)) as [e|]; [|reflexivity].
    destruct (N.ltb_spec i count); [lia|reflexivity].
Qed.

(* table_inv (Spec/NetSpec.v) does not mention the connect token table at all: it talks about the client
   slots and the pending map only.  So it is kept whatever the entries are, and so is every other field
   and server_sizes; addr_wf a is not needed. *)
Theorem fill_entries_inv : forall s count base a,
  table_inv s -> addr_wf a -> table_inv (set_entries s (fill_entries (ns_entries s) 0 count base a)).
Proof. intros s count base a H _. exact H. Qed.

Theorem fill_entries_frame : forall s count base a,
  let s' := set_entries s (fill_entries (ns_entries s) 0 count base a) in
  ns_clients s' = ns_clients s /\ ns_pending s' = ns_pending s /\ ns_protocol s' = ns_protocol s /\
  ns_connect_key s' = ns_connect_key s /\ ns_max s' = ns_max s /\ ns_chal_seq s' = ns_chal_seq s /\
  ns_chal_key s' = ns_chal_key s /\ ns_addrs s' = ns_addrs s /\ ns_now s' = ns_now s /\
  ns_global_seq s' = ns_global_seq s /\ ns_secure s' = ns_secure s /\
  len (ns_entries s') = len (ns_entries s) /\
  (server_sizes s -> server_sizes s') /\
  (forall a0, find_by_addr s' a0 = find_by_addr s a0) /\ (forall id, find_by_id s' id = find_by_id s id).
Proof.
  intros s count base a s'. subst s'. cbn [set_entries ns_clients ns_pending ns_entries ns_protocol ns_connect_key
    ns_max ns_chal_seq ns_chal_key ns_addrs ns_now ns_global_seq ns_secure].
  repeat split; try reflexivity; try (intros; reflexivity); try apply fill_entries_len.
  all: match goal with H : server_sizes _ |- _ => apply H end.
Qed.

(* what the theorems of NAuthP that talk about ns_entries need: the table keeps its length through
   find_or_add_entry (on any table, hence on the filled one) *)
Lemma find_or_add_entry_length es e : length (fst (find_or_add_entry es e)) = length es.
Proof.
  rewrite NAuthP.find_or_add_entry_eq. destruct (last_match es (te_mac e)); cbn [fst]; [reflexivity|].
  apply upd_length.
Qed.

Corollary fill_then_find_or_add_length es count base a e :
  length (fst (find_or_add_entry (fill_entries es 0 count base a) e)) = length es.
Proof. now rewrite find_or_add_entry_length, fill_entries_length. Qed.

Lemma fill_entries_filled : forall es i count base a,
  i + len es <= count ->
  fill_entries es i count base a = map (fun k => Some (synth_entry base (i + N.of_nat k) a)) (List.seq 0 (length es)).
Proof.
  induction es as [|e t IH]; intros i count base a H; cbn [fill_entries length List.seq map]; [reflexivity|].
  rewrite len_cons in H. destruct (N.ltb_spec i count); [|lia].
  rewrite IH, <- seq_shift, map_map by lia. f_equal.
  - replace (i + N.of_nat 0) with i by lia. reflexivity.
  - apply map_ext. intros k. replace (i + 1 + N.of_nat k) with (i + N.of_nat (S k)) by lia. reflexivity.
Qed.

(* so it has no free entry: the hypothesis of NAuthP.token_rebinding_refuted *)
Lemma fill_entries_full : forall es i count base a,
  i + len es <= count -> Forall NAuthP.is_some (fill_entries es i count base a).
Proof.
  intros es i count base a H. rewrite fill_entries_filled by exact H.
  apply Forall_map, Forall_forall. intros k _. exact I.
Qed.

Lemma le64_inj i j : i < U64 -> j < U64 -> le64 i = le64 j -> i = j.
Proof.
  intros Hi Hj E. apply (f_equal le_val) in E. unfold le64 in E.
  rewrite !le_val_le_bytes in E. change (256 ^ N.of_nat 8) with U64 in E.
  rewrite !N.mod_small in E by assumption. exact E.
Qed.

Lemma synth_mac_inj base base' a a' i j :
  i < U64 -> j < U64 -> te_mac (synth_entry base i a) = te_mac (synth_entry base' j a') -> i = j.
Proof.
  intros Hi Hj E. cbn [synth_entry te_mac] in E. apply app_inv_tail in E. now apply le64_inj.
Qed.

Theorem fill_entries_bound_to_address : forall es count base a i,
  len es <= count -> len es <= U64 -> i < len es ->
  last_match (fill_entries es 0 count base a) (te_mac (synth_entry base i a)) = Some (synth_entry base i a).
Proof.
  intros es count base a i Hc Hu Hi. unfold len in Hu, Hi. rewrite fill_entries_filled by lia.
  destruct (last_match _ _) as [m|] eqn:E.
  - (* a match is one of the synthetic entries, and the tags of different slots differ *)
    destruct (NAuthP.last_match_some _ _ _ E) as [Hin Hm]. apply in_map_iff in Hin. destruct Hin as (k & Ek & Hk).
    injection Ek as <-. apply in_seq in Hk. apply synth_mac_inj in Hm; [|lia ..]. rewrite Hm. reflexivity.
  - exfalso. rewrite NAuthP.last_match_none in E. apply (E (synth_entry base i a)); [|reflexivity].
    apply in_map_iff. exists (N.to_nat i). split; [do 2 f_equal; lia | apply in_seq; lia].
Qed.

(* a request whose tag is not one of the synthetic ones, on a completely filled (non-empty) table: the
   times base, base+1, ... ascend, so it is slot 0 that is evicted, and the request is allowed *)
Theorem fill_entries_evicts_first : forall es count base a e,
  es <> [] -> len es <= count ->
  last_match (fill_entries es 0 count base a) (te_mac e) = None ->
  find_or_add_entry (fill_entries es 0 count base a) e = (upd (fill_entries es 0 count base a) 0 (Some e), true).
Proof.
  intros es count base a e Hne Hc Hm.
  set (fe := fill_entries es 0 count base a) in *.
  assert (Hfull : Forall NAuthP.is_some fe) by (apply fill_entries_full; lia).
  assert (Hne' : fe <> []).
  { intros E. apply (f_equal (@length _)) in E. unfold fe in E. rewrite fill_entries_length in E.
    destruct es; [congruence|discriminate]. }
  destruct (NAuthP.token_rebinding_refuted fe e Hfull Hne' Hm) as (i & old & Hi & Hmin & E).
  rewrite E. f_equal. f_equal.
  (* the oldest entry is the one of slot 0 *)
  assert (H0 : In (Some (synth_entry base 0 a)) fe).
  { destruct es as [|x t]; [congruence|]. unfold fe. cbn [fill_entries].
    rewrite len_cons in Hc. destruct (N.ltb_spec 0 count); [now left|lia]. }
  specialize (Hmin _ H0). cbn [synth_entry te_time] in Hmin.
  rewrite nth_opt_eq in Hi. unfold fe in Hi. rewrite fill_entries_nth in Hi.
  destruct (nth_error es i) as [x|] eqn:Ex; [|discriminate].
  assert (Hil : (i < length es)%nat) by (apply nth_error_Some; congruence).
  destruct (N.ltb_spec (0 + N.of_nat i) count) as [_|Hge]; [|unfold len in Hc; lia].
  injection Hi as <-. cbn [synth_entry te_time] in Hmin. lia.
Qed.

Lemma repeat_zeros n : repeat 0 (N.to_nat n) = zeros n.
Proof. unfold zeros. induction (N.to_nat n) as [|k IH]; cbn [repeat repeatN]; [reflexivity|now rewrite IH]. Qed.

Definition unsecure_token (now protocol cid : N) (sa : addr) (user xnonce c2s s2c : list N) : nres connect_token :=
  token_generate now protocol NC_UNSECURE_EXPIRE_SECS cid (Z.of_N NC_UNSECURE_TIMEOUT_SECS) [sa] user
                 (repeat 0 (N.to_nat NC_KEY_BYTES)) xnonce c2s s2c.

(* `now` in range: the expiry second as_secs now + 300 fits a u64 (true of every now < 2^64 ns, see
   unsecure_now_range).  No bound on the bytes of user / xnonce / the keys is needed: token_wf and
   client_inv only talk about lengths. *)
Theorem unsecure_client_ok : forall now protocol cid sa user xnonce c2s s2c,
  addr_wf sa -> cid < U64 -> protocol < U64 -> as_secs now + NC_UNSECURE_EXPIRE_SECS < U64 ->
  len user = NC_USER_DATA_BYTES -> len xnonce = NC_XNONCE_BYTES ->
  len c2s = NC_KEY_BYTES -> len s2c = NC_KEY_BYTES ->
  exists t c,
    unsecure_token now protocol cid sa user xnonce c2s s2c = Ok t /\ token_wf t /\
    nclient_new now t = Ok c /\ NClientP.client_inv c /\
    cl_state c = CSendingRequest /\ cl_server_addr c = sa /\ cl_token c = t /\ cl_id c = cid /\
    ct_timeout t = 15%Z /\ ct_expire t = as_secs now + 300 /\ ct_create t = as_secs now /\
    ct_protocol t = protocol /\ ct_client_id t = cid /\
    (* the private part is sealed under the all-zero key, the connect key of a server built without a key *)
    exists pt, private_wf pt /\
      private_decode (ct_private t) protocol (ct_expire t) xnonce (zeros NC_KEY_BYTES) = Ok pt /\
      pt_client_id pt = cid /\ pt_addrs pt = ct_addrs t /\ pt_c2s pt = c2s /\ pt_s2c pt = s2c /\
      pt_user pt = user /\ pt_timeout pt = 15%Z.
Proof.
  intros now protocol cid sa user xnonce c2s s2c Ha Hcid Hp Hnow Hu Hx Hc Hs.
  set (key := repeat 0 (N.to_nat NC_KEY_BYTES)).
  set (expire := as_secs now + NC_UNSECURE_EXPIRE_SECS).
  set (slots := pad_slots (map Some [sa])).
  set (pt0 := {| pt_client_id := cid; pt_timeout := Z.of_N NC_UNSECURE_TIMEOUT_SECS; pt_addrs := slots;
                 pt_c2s := c2s; pt_s2c := s2c; pt_user := user |}).
  set (t := {| ct_client_id := cid; ct_version := NC_VERSION_INFO; ct_protocol := protocol;
               ct_create := as_secs now; ct_expire := expire; ct_xnonce := xnonce; ct_addrs := slots;
               ct_c2s := c2s; ct_s2c := s2c; ct_private := private_encode pt0 protocol expire xnonce key;
               ct_timeout := Z.of_N NC_UNSECURE_TIMEOUT_SECS |}).
  assert (E : unsecure_token now protocol cid sa user xnonce c2s s2c = Ok t) by reflexivity.
  pose proof E as E0. unfold unsecure_token in E0.
  destruct (TokenP.token_generate_wf _ _ _ _ _ _ _ _ _ _ _ _ E0 Hcid Hp Hnow ltac:(cbn; lia)
              ltac:(constructor; [exact Ha|constructor]) Hu Hx Hc Hs)
    as (Hwf & Hpt & Hdec).
  set (c := {| cl_state := CSendingRequest; cl_id := cid; cl_connect_start := now; cl_last_send := None;
               cl_last_recv := now; cl_now := now; cl_seq := 0; cl_server_addr := sa; cl_addr_index := 0;
               cl_token := t; cl_chal_seq := 0; cl_chal_data := zeros NC_CHALLENGE_BYTES;
               cl_max_clients := 0; cl_client_index := 0; cl_replay := replay_new |}).
  assert (En : nclient_new now t = Ok c) by reflexivity.
  exists t, c. split; [exact E|]. split; [exact Hwf|]. split; [exact En|]. split.
  { apply (NClientP.client_inv_init now t c); [reflexivity|exact En]. }
  split; [reflexivity|]. split; [reflexivity|]. split; [reflexivity|]. split; [reflexivity|].
  split; [reflexivity|]. split; [reflexivity|]. split; [reflexivity|]. split; [reflexivity|].
  split; [reflexivity|].
  exists pt0. split; [exact Hpt|]. unfold key in Hdec. rewrite repeat_zeros in Hdec.
  split; [exact Hdec|]. repeat split.
Qed.

Lemma unsecure_now_range now : now < U64 -> as_secs now + NC_UNSECURE_EXPIRE_SECS < U64.
Proof.
  intros H. unfold as_secs.
  assert (now / NS_PER_SEC <= now / 1) by (apply N.div_le_compat_l; unfold NS_PER_SEC; lia).
  rewrite N.div_1_r in *.
  assert (now / NS_PER_SEC * NS_PER_SEC <= now) by (rewrite N.mul_comm; apply N.mul_div_le; discriminate).
  unfold NS_PER_SEC, NC_UNSECURE_EXPIRE_SECS, U64 in *. lia.
Qed.

(* the range of `now` is needed: the model adds without a check (Rust would overflow), and a token whose
   expiry second does not fit a u64 is not well formed *)
Lemma unsecure_client_late_refuted :
  let now := (U64 - 300) * NS_PER_SEC in
  let sa := AddrV4 [127; 0; 0; 1] 5000 in
  exists t, unsecure_token now 7 1 sa (zeros NC_USER_DATA_BYTES) (zeros NC_XNONCE_BYTES)
                           (zeros NC_KEY_BYTES) (zeros NC_KEY_BYTES) = Ok t /\ ~ token_wf t.
Proof.
  cbv zeta. eexists. split; [reflexivity|]. unfold token_wf. cbn [ct_expire].
  intros (_ & _ & _ & _ & H & _). revert H. lazy. intros H. discriminate H.
Qed.

Definition hx_addr : addr := AddrV4 [10; 0; 0; 9] 4000.
Definition hx_entries : list (option token_entry) :=
  [None; Some {| te_time := 5; te_addr := hx_addr; te_mac := [9] |}; None; None].

Example fill_entries_example :
  let fe := fill_entries hx_entries 0 3 100 hx_addr in
  length fe = 4%nat /\
  map (option_map te_time) fe = [Some 100; Some 101; Some 102; None] /\
  nth_opt fe 1 = Some (Some (synth_entry 100 1 hx_addr)) /\
  nth_opt fe 3 = nth_opt hx_entries 3 /\
  te_mac (synth_entry 100 1 hx_addr) = [1; 0; 0; 0; 0; 0; 0; 0; 0; 0; 0; 0; 0; 0; 0; 0] /\
  (* a completely filled table: slot 1's tag is bound to hx_addr, a new tag evicts slot 0 *)
  let full := fill_entries hx_entries 0 4 100 hx_addr in
  find_or_add_entry full {| te_time := 500; te_addr := AddrV4 [10; 0; 0; 8] 1; te_mac := te_mac (synth_entry 100 1 hx_addr) |}
    = (full, false) /\
  find_or_add_entry full {| te_time := 500; te_addr := hx_addr; te_mac := [7] |}
    = (upd full 0 (Some {| te_time := 500; te_addr := hx_addr; te_mac := [7] |}), true).
Proof. vm_compute. repeat split; reflexivity. Qed.

Example fill_entries_inv_example :
  exists s, nserver_new 0 2 42 [hx_addr] None (zeros NC_KEY_BYTES) = Ok s /\ table_inv s /\
    table_inv (set_entries s (fill_entries (ns_entries s) 0 2048 1000 hx_addr)) /\
    len (ns_entries (set_entries s (fill_entries (ns_entries s) 0 2048 1000 hx_addr))) = 2048.
Proof.
  destruct (nserver_new 0 2 42 [hx_addr] None (zeros NC_KEY_BYTES)) as [s| |] eqn:E; [|discriminate E ..].
  exists s. split; [reflexivity|].
  pose proof (NServerP.table_inv_new _ _ _ _ _ _ _ E) as T.
  split; [exact T|]. split.
  - apply fill_entries_inv; [exact T|]. unfold addr_wf, hx_addr. split; [reflexivity|].
    split; [apply bytes_ok_dec_true; reflexivity|reflexivity].
  - cbn [set_entries ns_entries]. rewrite fill_entries_len.
    assert (En : ns_entries s = repeatN None (N.to_nat (NC_MAX_CLIENTS * NC_TOKEN_ENTRIES_FACTOR)))
      by exact (f_equal (fun r => match r with Ok x => ns_entries x | _ => [] end) (eq_sym E)).
    rewrite En, len_repeatN, N2Nat.id. reflexivity.
Qed.

Example unsecure_client_example :
  match unsecure_token 5000000000 7 99 hx_addr (zeros NC_USER_DATA_BYTES) (zeros NC_XNONCE_BYTES)
                       (zeros NC_KEY_BYTES) (zeros NC_KEY_BYTES) with
  | Ok t => match nclient_new 5000000000 t with
            | Ok c => Some (cl_state c, cl_server_addr c, ct_timeout t, ct_expire t, cl_id c)
            | _ => None
            end
  | _ => None
  end = Some (CSendingRequest, hx_addr, 15%Z, 305, 99).
Proof. evaluates. Qed.

Print Assumptions warp_inv.
Print Assumptions warp_inv_strong.
Print Assumptions warp_noop.
Print Assumptions warp_u8.
Print Assumptions warp_counters_small.
Print Assumptions process_local_client_safe.
Print Assumptions new_local_client_ok.
Print Assumptions connected_clients_spec.
Print Assumptions connected_clients_count.
Print Assumptions has_connections_spec.
Print Assumptions fill_entries_length.
Print Assumptions fill_entries_lookup.
Print Assumptions fill_entries_inv.
Print Assumptions fill_entries_frame.
Print Assumptions fill_then_find_or_add_length.
Print Assumptions fill_entries_full.
Print Assumptions fill_entries_bound_to_address.
Print Assumptions fill_entries_evicts_first.
Print Assumptions unsecure_client_ok.
Print Assumptions unsecure_now_range.
Print Assumptions unsecure_client_late_refuted.
Print Assumptions warp_example.
Print Assumptions warp_then_overflow.
Print Assumptions process_local_client_example.
Print Assumptions fill_entries_example.
Print Assumptions fill_entries_inv_example.
Print Assumptions unsecure_client_example.

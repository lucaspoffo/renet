(* SendRelP.v - SendChannelReliable: invariant, send, get_packets_to_send, acknowledgements. *)
From RenetV Require Import Base Consts Varint Packet Channels RecvSpec SendSpec SMapSendP PackP BaseP.
Require Import Lia ZifyBool ZifyN ZifyNat Permutation.
Open Scope N_scope.
Local Opaque SLICE_SIZE.

Lemma opt_le_mono o now now' : opt_le o now -> now <= now' -> opt_le o now'.
Proof. destruct o; cbn [opt_le]; lia. Qed.

Lemma unacked_wf_mono now now' u : unacked_wf now u -> now <= now' -> unacked_wf now' u.
Proof.
  intros H Hle. destruct u as [m l|m num nacked next acked ls]; cbn [unacked_wf] in *.
  - destruct H; split; eauto using opt_le_mono.
  - destruct H as (H1 & H2 & H3 & H4 & H5 & H6 & H7). repeat split; auto.
    eapply Forall_impl; [|exact H7]. intros o Ho. exact (opt_le_mono _ _ _ Ho Hle).
Qed.

Theorem sr_inv_init : forall ch resend max now, sr_inv now (send_rel_new ch resend max).
Proof.
  intros. unfold sr_inv, send_rel_new; cbn. repeat split; auto. lia.
Qed.

Theorem sr_inv_mono : forall now now' s, sr_inv now s -> now <= now' -> sr_inv now' s.
Proof.
  intros now now' s (H1 & H2 & H3 & H4) Hle. repeat split; auto.
  eapply Forall_impl; [|exact H2]. intros [id u] [Ha Hb]. split; eauto using unacked_wf_mono.
Qed.

Lemma new_unacked_wf now m :
  unacked_wf now
    (if SLICE_SIZE <? len m
     then USliced m (div_ceil (len m) SLICE_SIZE) 0 0
            (repeatN false (N.to_nat (div_ceil (len m) SLICE_SIZE)))
            (repeatN None (N.to_nat (div_ceil (len m) SLICE_SIZE)))
     else USmall m None).
Proof.
  destruct (N.ltb_spec SLICE_SIZE (len m)) as [H|H]; cbn [unacked_wf opt_le].
  - pose proof SliceP.SLICE_SIZE_pos. pose proof (SliceP.div_ceil_ge2 (len m) SLICE_SIZE SliceP.SLICE_SIZE_pos H).
    repeat split; auto using repeatN_length.
    + symmetry. apply len_filter_repeatN. reflexivity.
    + lia.
    + apply Forall_repeatN. exact I.
  - split; auto.
Qed.

Theorem sr_send_safe : forall now s m, sr_inv now s ->
  match sr_send s m with
  | Ok s' => sr_inv now s' /\ sr_next_id s' = sr_next_id s + 1 /\ sr_mem s' = sr_mem s + len m /\
             (forall id, id <> sr_next_id s -> sm_find id (sr_unacked s') = sm_find id (sr_unacked s)) /\
             kind_of s' (sr_next_id s) = Some (if SLICE_SIZE <? len m then Some (num_slices_of m) else None)
  | Err e => e = ReliableChannelMaxMemoryReached /\ sr_max s < sr_mem s + len m
  | Panic _ => False
  end.
Proof.
  intros now s m (H1 & H2 & H3 & H4). unfold sr_send.
  destruct (N.ltb_spec (sr_max s) (sr_mem s + len m)) as [Hfull|Hfit]; [split; [reflexivity|lia]|].
  set (u := if SLICE_SIZE <? len m then _ else _).
  assert (Hu : unacked_wf now u) by apply new_unacked_wf.
  assert (Hlt : Forall (fun kv : N * unacked => fst kv < sr_next_id s) (sr_unacked s)).
  { eapply Forall_impl; [|exact H2]. intros a [Ha _]. exact Ha. }
  repeat split; cbn [sr_unacked sr_next_id sr_mem sr_max].
  - rewrite sm_insert_last by exact Hlt. apply keys_asc_app_last; auto. lia.
  - apply Forall_sm_insert.
    + cbn [fst snd]. split; [lia|exact Hu].
    + eapply Forall_impl; [|exact H2]. intros a [Ha Hb]. split; [lia|exact Hb].
  - rewrite sm_insert_last by exact Hlt. rewrite map_app, sum_app. cbn [map snd]. rewrite sum_one.
    rewrite H3. f_equal. subst u. destruct (SLICE_SIZE <? len m); reflexivity.
  - lia.
  - intros id Hid. apply sm_find_insert_other. exact Hid.
  - unfold kind_of. cbn [sr_unacked]. rewrite sm_find_insert_same. subst u.
    destruct (SLICE_SIZE <? len m); reflexivity.
Qed.

Theorem drained_send : forall now s, sr_inv now s -> sr_unacked s = [] -> sr_mem s = 0.
Proof. intros now s (H1 & H2 & H3 & H4) E. rewrite H3, E. reflexivity. Qed.

Theorem sr_available_ok : forall now s, sr_inv now s -> sr_available s = Ok (sr_max s - sr_mem s).
Proof. intros now s (H1 & H2 & H3 & H4). unfold sr_available. now apply sub_chk_ok. Qed.

Lemma sr_inv_find now s id u :
  sr_inv now s -> sm_find id (sr_unacked s) = Some u ->
  id < sr_next_id s /\ unacked_wf now u /\ unacked_len u <= sr_mem s.
Proof.
  intros (H1 & H2 & H3 & H4) E.
  pose proof (Forall_sm_find _ _ _ _ H2 E) as [Ha Hb]. cbn [fst snd] in *.
  repeat split; auto.
  rewrite H3. exact (vsum_find_le unacked_len _ _ _ E).
Qed.

Lemma sr_inv_remove now s id u :
  sr_inv now s -> sm_find id (sr_unacked s) = Some u ->
  sr_inv now (sr_set s (sm_remove id (sr_unacked s)) (sr_mem s - unacked_len u)).
Proof.
  intros Hinv E. pose proof (sr_inv_find _ _ _ _ Hinv E) as (Ha & Hb & Hc).
  destruct Hinv as (H1 & H2 & H3 & H4).
  pose proof (vsum_remove unacked_len id (sr_unacked s)) as S.
  rewrite E in S. unfold vsum, fopt in S.
  unfold sr_inv, sr_set; cbn [sr_unacked sr_next_id sr_mem sr_max]. repeat split.
  - now apply keys_asc_remove.
  - now apply Forall_sm_remove.
  - lia.
  - lia.
Qed.

Lemma sr_inv_replace now s id u u' :
  sr_inv now s -> sm_find id (sr_unacked s) = Some u ->
  unacked_wf now u' -> unacked_len u' = unacked_len u ->
  sr_inv now (sr_set s (sm_insert id u' (sr_unacked s)) (sr_mem s)).
Proof.
  intros Hinv E Hu' Hlen. pose proof (sr_inv_find _ _ _ _ Hinv E) as (Ha & _).
  destruct Hinv as (H1 & H2 & H3 & H4).
  pose proof (vsum_insert unacked_len id u' _ (proj2 (keys_asc_asc _ _ H1))) as S.
  rewrite E in S. unfold vsum, fopt in S.
  unfold sr_inv, sr_set; cbn [sr_unacked sr_next_id sr_mem sr_max]. repeat split.
  - erewrite sm_insert_present_keys; [exact H1|apply (keys_asc_asc _ _ H1)|exact E].
  - apply Forall_sm_insert; [split; assumption|exact H2].
  - lia.
  - exact H4.
Qed.

Theorem sr_ack_message_safe : forall now s id, sr_inv now s ->
  (kind_of s id = None \/ kind_of s id = Some None) ->
  exists s', sr_ack_message s id = Ok s' /\ sr_inv now s' /\ kind_of s' id = None /\
    (forall j, j <> id -> sm_find j (sr_unacked s') = sm_find j (sr_unacked s)) /\
    sr_mem s' + (match sm_find id (sr_unacked s) with Some u => unacked_len u | None => 0 end) = sr_mem s /\
    sr_next_id s' = sr_next_id s.
Proof.
  intros now s id Hinv Hk. unfold sr_ack_message. unfold kind_of in Hk.
  destruct (sm_find id (sr_unacked s)) as [[m l|m num na nx ak ls]|] eqn:E.
  - pose proof (sr_inv_find _ _ _ _ Hinv E) as (Ha & Hb & Hc). cbn [unacked_len] in *.
    rewrite sub_chk_ok by exact Hc. cbn [bind].
    eexists; split; [reflexivity|].
    split; [exact (sr_inv_remove _ _ _ _ Hinv E)|]. repeat split.
    + unfold kind_of. cbn [sr_set sr_unacked].
      destruct Hinv as (H1 & _). now rewrite sm_find_remove, N.eqb_refl by exact (proj2 (keys_asc_asc _ _ H1)).
    + intros j Hj. cbn [sr_set sr_unacked]. now apply sm_find_remove_other.
    + cbn [sr_set sr_mem]. lia.
  - destruct Hk; discriminate.
  - exists s. split; [reflexivity|]. split; [exact Hinv|]. repeat split; auto.
    + unfold kind_of. rewrite E. reflexivity.
    + lia.
Qed.

(* what a message is, independently of its transmission state *)
Definition static_of (u : unacked) : list N * option N :=
  match u with USmall m _ => (m, None) | USliced m num _ _ _ _ => (m, Some num) end.

Definition st_of (us : list (N * unacked)) (id : N) : option (list N * option N) :=
  match sm_find id us with Some u => Some (static_of u) | None => None end.

Lemma kind_of_st s id : kind_of s id = option_map snd (st_of (sr_unacked s) id).
Proof. unfold kind_of, st_of. destruct (sm_find id (sr_unacked s)) as [[]|]; reflexivity. Qed.

Lemma kind_none_find s id : kind_of s id = None -> sm_find id (sr_unacked s) = None.
Proof. unfold kind_of. destruct (sm_find id (sr_unacked s)) as [[]|]; [discriminate|discriminate|reflexivity]. Qed.

Lemma find_same_props s s' id :
  sm_find id (sr_unacked s') = sm_find id (sr_unacked s) ->
  kind_of s' id = kind_of s id /\ st_of (sr_unacked s') id = st_of (sr_unacked s) id /\
  forall idx, slice_acked s' id idx = slice_acked s id idx.
Proof. unfold kind_of, st_of, slice_acked. intros ->. auto. Qed.

Lemma find_none_props s id :
  sm_find id (sr_unacked s) = None ->
  kind_of s id = None /\ st_of (sr_unacked s) id = None /\ forall idx, slice_acked s id idx = None.
Proof. unfold kind_of, st_of, slice_acked. intros ->. auto. Qed.

Lemma st_of_small us id m : st_of us id = Some (m, None) <-> exists l, sm_find id us = Some (USmall m l).
Proof.
  unfold st_of. destruct (sm_find id us) as [[m' l|]|]; cbn [static_of]; split; try discriminate.
  - intros [= ->]. now exists l.
  - intros (l' & [= -> _]). reflexivity.
  - intros (l & H). discriminate.
  - intros (l & H). discriminate.
Qed.

Lemma st_of_sliced us id m n :
  st_of us id = Some (m, Some n) <-> exists na nx ak ls, sm_find id us = Some (USliced m n na nx ak ls).
Proof.
  unfold st_of. destruct (sm_find id us) as [[|m' n' na nx ak ls]|]; cbn [static_of]; split; try discriminate.
  - intros (na & nx & ak & ls & H). discriminate.
  - intros [= -> ->]. now exists na, nx, ak, ls.
  - intros (na' & nx' & ak' & ls' & [= -> -> _ _ _ _]). reflexivity.
  - intros (na & nx & ak & ls & H). discriminate.
Qed.

Definition ack_slice_noop (s s' : send_rel) (id idx : N) : Prop :=
  (kind_of s id = None \/ slice_acked s id idx = Some true) /\ s' = s.

Definition ack_slice_partial (s s' : send_rel) (id idx : N) : Prop :=
  slice_acked s id idx = Some false /\
  (exists j, j <> idx /\ slice_acked s id j = Some false) /\
  kind_of s' id = kind_of s id /\
  slice_acked s' id idx = Some true /\
  (forall j, j <> idx -> slice_acked s' id j = slice_acked s id j) /\
  (forall j, slice_last s' id j = slice_last s id j) /\
  sr_mem s' = sr_mem s.

Definition ack_slice_final (s s' : send_rel) (id idx : N) : Prop :=
  slice_acked s id idx = Some false /\
  (forall j num, kind_of s id = Some (Some num) -> j < num -> j <> idx -> slice_acked s id j = Some true) /\
  kind_of s' id = None /\
  sr_mem s' + (match sm_find id (sr_unacked s) with Some u => unacked_len u | None => 0 end) = sr_mem s.

Lemma ack_slice_final_intro now s id idx m num na nx ak ls :
  sr_inv now s -> sm_find id (sr_unacked s) = Some (USliced m num na nx ak ls) ->
  nth_opt ak (N.to_nat idx) = Some false -> na + 1 = num ->
  ack_slice_final s (sr_set s (sm_remove id (sr_unacked s)) (sr_mem s - len m)) id idx.
Proof.
  intros Hinv E Eb Hlast.
  pose proof (sr_inv_find _ _ _ _ Hinv E) as (_ & (_ & _ & W3 & _ & W5 & _) & Hc).
  cbn [unacked_len] in Hc. destruct Hinv as (H1 & _).
  unfold ack_slice_final, slice_acked, kind_of. cbn [sr_set sr_unacked sr_mem].
  rewrite E, sm_find_remove, N.eqb_refl by exact (proj2 (keys_asc_asc _ _ H1)). cbn [unacked_len].
  split; [exact Eb|]. split; [|split; [reflexivity|lia]].
  intros j n Hn Hj Hne. inversion Hn; subst n.
  apply (count_true_upd_full ak (N.to_nat idx)); auto; unfold len in *; lia.
Qed.

Lemma ack_slice_partial_intro now s id idx m num na nx ak ls :
  sr_inv now s -> sm_find id (sr_unacked s) = Some (USliced m num na nx ak ls) ->
  nth_opt ak (N.to_nat idx) = Some false -> na + 1 <> num ->
  let u' := USliced m num (na + 1) nx (upd ak (N.to_nat idx) true) ls in
  unacked_wf now u' /\
  ack_slice_partial s (sr_set s (sm_insert id u' (sr_unacked s)) (sr_mem s)) id idx.
Proof.
  intros Hinv E Eb Hmore u'.
  pose proof (sr_inv_find _ _ _ _ Hinv E) as (_ & (W1 & W2 & W3 & W4 & W5 & W6 & W7) & _).
  pose proof (nth_opt_some_lt _ _ _ Eb) as Hidx.
  split.
  { unfold u'. cbn [unacked_wf]. repeat split; auto.
    - now rewrite upd_length.
    - rewrite count_true_upd by auto. lia.
    - lia. }
  unfold ack_slice_partial, slice_acked, slice_last, kind_of. cbn [sr_set sr_unacked sr_mem].
  rewrite E, sm_find_insert_same. subst u'. cbn beta iota.
  split; [exact Eb|].
  split.
  { destruct (count_true_upd_not_full ak (N.to_nat idx) Eb) as (j & Hj & Hj'); [unfold len in *; lia|].
    exists (N.of_nat j). split; [lia|]. now rewrite Nat2N.id. }
  split; [reflexivity|].
  split; [now apply nth_opt_upd_same|].
  split; [intros j Hj; apply nth_opt_upd_other; lia|].
  split; reflexivity.
Qed.

(* beyond [sr_ack_slice_safe]: a message that is still held keeps its content *)
Definition ack_slice_post (now : N) (s : send_rel) (id idx : N) (r : cres send_rel) : Prop :=
  exists s', r = Ok s' /\ sr_inv now s' /\
    sr_next_id s' = sr_next_id s /\
    (forall j, j <> id -> sm_find j (sr_unacked s') = sm_find j (sr_unacked s)) /\
    (ack_slice_noop s s' id idx \/ ack_slice_partial s s' id idx \/ ack_slice_final s s' id idx) /\
    (sm_find id (sr_unacked s') = None \/ st_of (sr_unacked s') id = st_of (sr_unacked s) id).

Lemma ack_slice_post_noop now s id idx : sr_inv now s ->
  (kind_of s id = None \/ slice_acked s id idx = Some true) -> ack_slice_post now s id idx (Ok s).
Proof.
  intros Hinv H. exists s. split; [reflexivity|]. split; [exact Hinv|]. split; [reflexivity|]. split; [auto|].
  split; [|now right]. left. split; [exact H|reflexivity].
Qed.

Lemma sr_ack_slice_spec now s id idx : sr_inv now s ->
  (kind_of s id = None \/ exists num, kind_of s id = Some (Some num) /\ idx < num) ->
  ack_slice_post now s id idx (sr_ack_slice s id idx).
Proof.
  intros Hinv Hk. pose proof (ack_slice_post_noop now s id idx Hinv) as Hnoop.
  unfold ack_slice_post in Hnoop |- *.
  unfold sr_ack_slice. unfold kind_of, slice_acked in Hk, Hnoop.
  destruct (sm_find id (sr_unacked s)) as [[m l|m num na nx ak ls]|] eqn:E.
  - destruct Hk as [Hk|(n & Hk & _)]; discriminate.
  - destruct Hk as [Hk|(n & Hk & Hidx)]; [discriminate|]. inversion Hk; subst n; clear Hk.
    pose proof (sr_inv_find _ _ _ _ Hinv E) as (_ & (_ & _ & W3 & _) & Hc). cbn [unacked_len] in Hc.
    destruct (nth_opt_lt ak (N.to_nat idx) ltac:(lia)) as ([|] & Eb); rewrite Eb in *; [now apply Hnoop; right|].
    destruct (N.eqb_spec (na + 1) num) as [Hlast|Hmore].
    + rewrite sub_chk_ok by exact Hc. cbn [bind].
      eexists; split; [reflexivity|].
      split; [exact (sr_inv_remove _ _ _ _ Hinv E)|]. split; [reflexivity|].
      split; [intros j Hj; cbn [sr_set sr_unacked]; now apply sm_find_remove_other|].
      pose proof (ack_slice_final_intro _ _ _ _ _ _ _ _ _ _ Hinv E Eb Hlast) as Hf.
      split; [right; right; exact Hf|]. left. apply kind_none_find, Hf.
    + destruct (ack_slice_partial_intro _ _ _ _ _ _ _ _ _ _ Hinv E Eb Hmore) as [Hu' Hp].
      eexists; split; [reflexivity|].
      split; [exact (sr_inv_replace _ _ _ _ _ Hinv E Hu' eq_refl)|]. split; [reflexivity|].
      split; [intros j Hj; cbn [sr_set sr_unacked]; now apply sm_find_insert_other|].
      split; [right; left; exact Hp|]. right. unfold st_of. cbn [sr_set sr_unacked].
      now rewrite sm_find_insert_same, E.
  - apply Hnoop. now left.
Qed.

Theorem sr_ack_slice_safe : forall now s id idx, sr_inv now s ->
  (kind_of s id = None \/ exists num, kind_of s id = Some (Some num) /\ idx < num) ->
  exists s', sr_ack_slice s id idx = Ok s' /\ sr_inv now s' /\
    sr_next_id s' = sr_next_id s /\
    (forall j, j <> id -> sm_find j (sr_unacked s') = sm_find j (sr_unacked s)) /\
    (ack_slice_noop s s' id idx \/ ack_slice_partial s s' id idx \/ ack_slice_final s s' id idx).
Proof.
  intros now s id idx Hinv Hk.
  destruct (sr_ack_slice_spec now s id idx Hinv Hk) as (s' & E & Hs' & Hn & Ho & Hc & _).
  exists s'. auto.
Qed.

Definition due_b (now resend : N) (last : option N) : bool :=
  match last with None => true | Some t => negb (now - t <? resend) end.

Lemma due_ok now resend last : opt_le last now -> due now resend last = Ok (due_b now resend last).
Proof.
  destruct last as [t|]; cbn [opt_le due due_b]; intros H; [|reflexivity].
  rewrite sub_chk_ok by exact H. reflexivity.
Qed.

Lemma due_b_true now resend last : due_b now resend last = true <-> is_due now resend last.
Proof.
  destruct last as [t|]; cbn [due_b is_due]; [|tauto].
  destruct (N.ltb_spec (now - t) resend); cbn [negb]; split; intros; try lia; try discriminate; auto.
Qed.

Definition same_static (u u' : unacked) : Prop :=
  match u, u' with
  | USmall m _, USmall m' _ => m = m'
  | USliced m num na _ ak _, USliced m' num' na' _ ak' _ => m = m' /\ num = num' /\ na = na' /\ ak = ak'
  | _, _ => False
  end.

Lemma same_static_of u u' : same_static u u' -> static_of u' = static_of u.
Proof.
  destruct u, u'; cbn [same_static static_of]; try tauto; intros; try congruence.
  destruct H as (-> & -> & _). reflexivity.
Qed.

Lemma same_static_len u u' : same_static u u' -> unacked_len u' = unacked_len u.
Proof.
  destruct u, u'; cbn [same_static unacked_len]; try tauto; intros; try congruence.
  destruct H as (-> & _). reflexivity.
Qed.

(* transmission state of one part: None = the small message, Some i = slice i *)
Definition part_last (u : unacked) (p : option N) : option (option N) :=
  match u, p with
  | USmall _ l, None => Some l
  | USliced _ _ _ _ _ ls, Some i => nth_opt ls (N.to_nat i)
  | _, _ => None
  end.

Definition part_acked (u : unacked) (p : option N) : option bool :=
  match u, p with
  | USmall _ _, None => Some false
  | USliced _ _ _ _ acked _, Some i => nth_opt acked (N.to_nat i)
  | _, _ => None
  end.

(* packets relative to the static view *)
Definition stat := N -> option (list N * option N).

Definition entry_ok (st : stat) (im : N * list N) : Prop := st (fst im) = Some (snd im, None).

Definition pkt_ok (ch : N) (st : stat) (p : packet) : Prop :=
  match p with
  | SmallReliable _ c ms => c = ch /\ Forall (entry_ok st) ms
  | ReliableSlice _ c sl =>
      c = ch /\ exists m num, st (sl_id sl) = Some (m, Some num) /\
                              sl = slice_of m (sl_id sl) (sl_index sl) /\ sl_index sl < num
  | _ => False
  end.

Definition pkt_size_ok (p : packet) : Prop :=
  match p with SmallReliable _ _ ms => body_ok rel_entry_size ms | _ => True end.

Definition part := (N * option N)%type.
Definition acc_parts (a : sacc) : list part :=
  parts_of (a_pkts a) ++ map (fun im => (fst im, None)) (a_small a).

Lemma parts_of_app p q : parts_of (p ++ q) = parts_of p ++ parts_of q.
Proof.
  induction p as [|x p IH]; [reflexivity|].
  destruct x; cbn [app parts_of]; rewrite IH; auto using app_assoc.
Qed.

Lemma payload_total_small_one seq ch ms : payload_total [SmallReliable seq ch ms] = msgs_bytes ms.
Proof. unfold payload_total, msgs_bytes. cbn [map payload_bytes]. now rewrite sum_one. Qed.

Lemma sacc_eq a b :
  a_pkts a = a_pkts b -> a_small a = a_small b -> a_small_bytes a = a_small_bytes b ->
  a_seq a = a_seq b -> a_avail a = a_avail b -> a = b.
Proof. destruct a, b; cbn; intros; subst; reflexivity. Qed.

(* the bodies of the SmallReliable packets; sr_get_packets can emit one with no message in it
   (empty_packet_quirk below), and [shape] says when *)
Definition bodies (ps : list packet) : list (list (N * list N)) :=
  flat_map (fun p => match p with SmallReliable _ _ ms => [ms] | _ => [] end) ps.

Definition oversize (im : N * list N) : Prop := SLICE_SIZE < rel_entry_size im.

(* only the first body can be empty, and it is empty exactly when the entry that follows it
   (the first small message transmitted in the tick) does not fit a body on its own *)
Definition shape (F : list (list (N * list N))) : Prop :=
  match F with
  | [] => True
  | [] :: F' => match F' with
                | (im :: _) :: more => oversize im /\ Forall (fun b => b <> []) more
                | _ => False
                end
  | (im :: _) :: more => ~ oversize im /\ Forall (fun b => b <> []) more
  end.

Lemma bodies_app p q : bodies (p ++ q) = bodies p ++ bodies q.
Proof. unfold bodies. apply flat_map_app. Qed.

(* the accumulator of the loop over the pending messages: the packets closed so far and the open
   SmallReliable body, seen from the tick that started with seq0 and avail0 *)
Record acc_wf (ch : N) (st : stat) (seq0 avail0 : N) (a : sacc) : Prop := {
  aw_pkts : Forall (pkt_ok ch st) (a_pkts a);
  aw_small : Forall (entry_ok st) (a_small a);
  aw_sizes : Forall pkt_size_ok (a_pkts a);
  aw_bytes : a_small_bytes a = bsize rel_entry_size (a_small a);
  aw_seqs : seqs_from seq0 (a_pkts a);
  aw_seq : a_seq a = seq0 + len (a_pkts a);
  aw_avail : a_avail a + payload_total (a_pkts a) + msgs_bytes (a_small a) = avail0;
  aw_pack : packing rel_entry_size (bodies (a_pkts a)) (a_small a) }.

Definition slice_pkts (ch id : N) (m : list N) : N -> list N -> list packet :=
  numbered (fun q i => ReliableSlice q ch (slice_of m id i)).

Lemma parts_slice_pkts ch id m seq sent :
  parts_of (slice_pkts ch id m seq sent) = map (fun i => (id, Some i)) sent.
Proof.
  unfold slice_pkts. revert seq; induction sent as [|i t IH]; intros seq; cbn [numbered map parts_of]; [reflexivity|].
  now rewrite IH.
Qed.

(* The loop visits the indices (start + k) mod num for k = 0 .. num-1.  What it does depends on
   the list of indices visited only through its being duplicate-free and below num, so the loop
   is analysed over an arbitrary such list ([pick]), and modular arithmetic stays in [rotl]. *)
Fixpoint rotl (start num k : N) (fuel : nat) : list N :=
  match fuel with O => [] | S f => (start + k) mod num :: rotl start num (k + 1) f end.

Lemma in_rotl start num i : forall fuel k,
  In i (rotl start num k fuel) <-> exists j, k <= j < k + N.of_nat fuel /\ i = (start + j) mod num.
Proof.
  induction fuel as [|f IH]; intros k; cbn [rotl In].
  - split; [intros []|intros (j & Hj & _); lia].
  - rewrite IH. split.
    + intros [<-|(j & Hj & ->)]; [exists k|exists j]; (split; [lia|reflexivity]).
    + intros (j & Hj & ->). destruct (N.eq_dec j k) as [->|Hne]; [now left|right].
      exists j. split; [lia|reflexivity].
Qed.

Lemma rotl_lt start num : 0 < num -> forall fuel k, Forall (fun i => i < num) (rotl start num k fuel).
Proof.
  intros Hn. induction fuel as [|f IH]; intros k; cbn [rotl]; constructor; [apply N.mod_lt; lia|apply IH].
Qed.

Lemma NoDup_rotl start num :
  forall fuel k, k + N.of_nat fuel <= num -> NoDup (rotl start num k fuel).
Proof.
  induction fuel as [|f IH]; intros k Hk; cbn [rotl]; constructor; [|apply IH; lia].
  rewrite in_rotl. intros (j & Hj & E). enough (k = j) by lia. revert E. apply rot_inj; lia.
Qed.

Lemma rotl_all start num i : i < num -> In i (rotl start num 0 (N.to_nat num)).
Proof.
  intros Hi. apply in_rotl. destruct (rot_surj num start i ltac:(lia) Hi) as (j & Hj & <-).
  exists j. split; [lia|reflexivity].
Qed.

(* the indices transmitted out of [idxs] with budget [av]: index i is transmitted if [want i], at
   the price [price i]; the loop ends for good once fewer than SLICE_SIZE bytes are left *)
Section Pick.
  Variables (want : N -> bool) (price : N -> N).

  Fixpoint pick (av : N) (idxs : list N) : list N :=
    match idxs with
    | [] => []
    | i :: t => if av <? SLICE_SIZE then []
                else if want i then i :: pick (av - price i) t else pick av t
    end.

  Lemma pick_in av idxs i : In i (pick av idxs) -> In i idxs /\ want i = true.
  Proof.
    revert av. induction idxs as [|x t IH]; intros av; cbn [pick]; [intros []|].
    destruct (av <? SLICE_SIZE); [intros []|].
    destruct (want x) eqn:W.
    - intros [<-|H]; [split; [now left|exact W]|]. destruct (IH _ H). split; [now right|assumption].
    - intros H. destruct (IH _ H). split; [now right|assumption].
  Qed.

  Lemma pick_NoDup av idxs : NoDup idxs -> NoDup (pick av idxs).
  Proof.
    intros ND. revert av. induction ND as [|x t Hx ND IH]; intros av; cbn [pick]; [constructor|].
    destruct (av <? SLICE_SIZE); [constructor|].
    destruct (want x); [|apply IH]. constructor; [|apply IH].
    intros H. apply pick_in in H. destruct H. contradiction.
  Qed.

  Lemma pick_spent av idxs :
    (forall i, In i idxs -> price i <= SLICE_SIZE) -> sum (map price (pick av idxs)) <= av.
  Proof.
    revert av. induction idxs as [|x t IH]; intros av Hc; cbn [pick map]; [rewrite sum_nil; lia|].
    destruct (N.ltb_spec av SLICE_SIZE); [cbn [map]; rewrite sum_nil; lia|].
    assert (Hc' : forall i, In i t -> price i <= SLICE_SIZE) by (intros i Hi; apply Hc; now right).
    destruct (want x); [|apply IH, Hc'].
    cbn [map]. rewrite sum_cons. specialize (IH (av - price x) Hc').
    specialize (Hc x (or_introl eq_refl)). lia.
  Qed.

  (* if SLICE_SIZE bytes or more are left in the end, nothing wanted was passed over *)
  Lemma pick_complete av idxs i :
    SLICE_SIZE <= av - sum (map price (pick av idxs)) -> In i idxs -> want i = true ->
    In i (pick av idxs).
  Proof.
    revert av. induction idxs as [|x t IH]; intros av; cbn [pick]; [intros _ []|].
    destruct (N.ltb_spec av SLICE_SIZE); [cbn [map]; rewrite sum_nil; lia|].
    destruct (want x) eqn:W.
    - cbn [map]. rewrite sum_cons, N.sub_add_distr.
      intros Hge [<-|Hi] Wi; [now left|right; now apply IH].
    - intros Hge [<-|Hi] Wi; [congruence|now apply IH].
  Qed.
End Pick.

Lemma pick_ext want want' price idxs :
  (forall i, In i idxs -> want i = want' i) -> forall av, pick want price av idxs = pick want' price av idxs.
Proof.
  induction idxs as [|x t IH]; intros H av; cbn [pick]; [reflexivity|].
  rewrite (H x (or_introl eq_refl)), !IH by (intros i Hi; apply H; now right). reflexivity.
Qed.

Fixpoint stamp (now : N) (ls : list (option N)) (sent : list N) : list (option N) :=
  match sent with [] => ls | i :: t => stamp now (upd ls (N.to_nat i) (Some now)) t end.

Lemma stamp_length now sent : forall ls, length (stamp now ls sent) = length ls.
Proof. induction sent as [|i t IH]; intros ls; cbn [stamp]; [reflexivity|]. now rewrite IH, upd_length. Qed.

Lemma stamp_le now sent : forall ls,
  Forall (fun o => opt_le o now) ls -> Forall (fun o => opt_le o now) (stamp now ls sent).
Proof.
  induction sent as [|i t IH]; intros ls H; cbn [stamp]; [exact H|].
  apply IH, Forall_upd; [cbn [opt_le]; lia|exact H].
Qed.

Lemma stamp_other now sent i : ~ In i sent ->
  forall ls, nth_opt (stamp now ls sent) (N.to_nat i) = nth_opt ls (N.to_nat i).
Proof.
  induction sent as [|x t IH]; intros Hi ls; cbn [stamp]; [reflexivity|].
  rewrite IH by (intros H; apply Hi; now right).
  apply nth_opt_upd_other. intros E. apply Hi. left. lia.
Qed.

Lemma stamp_sent now sent i : In i sent ->
  forall ls, (N.to_nat i < length ls)%nat -> nth_opt (stamp now ls sent) (N.to_nat i) = Some (Some now).
Proof.
  induction sent as [|x t IH]; intros Hi ls Hlt; [destruct Hi|]. cbn [stamp].
  destruct (in_dec N.eq_dec i t) as [Ht|Ht].
  - apply IH; [exact Ht|now rewrite upd_length].
  - destruct Hi as [->|Hi]; [|contradiction]. rewrite stamp_other by exact Ht. now apply nth_opt_upd_same.
Qed.

Section SlicesLoop.
  Variables (ch id now resend : N) (m : list N) (start : N) (acked : list bool).
  Let num := num_slices_of m.

  Definition emit (a : sacc) (sent : list N) : sacc :=
    {| a_pkts := a_pkts a ++ slice_pkts ch id m (a_seq a) sent;
       a_small := a_small a; a_small_bytes := a_small_bytes a;
       a_seq := a_seq a + len sent;
       a_avail := a_avail a - sum (map (plen m) sent) |}.

  Lemma emit_nil a : emit a [] = a.
  Proof.
    apply sacc_eq; cbn [emit a_pkts a_small a_small_bytes a_seq a_avail map]; unfold slice_pkts; cbn [numbered]; auto.
    - now rewrite app_nil_r.
    - rewrite len_nil. lia.
    - rewrite sum_nil. lia.
  Qed.

  Lemma emit_cons a i rest :
    emit {| a_pkts := a_pkts a ++ [ReliableSlice (a_seq a) ch (slice_of m id i)]; a_small := a_small a;
            a_small_bytes := a_small_bytes a; a_seq := a_seq a + 1; a_avail := a_avail a - plen m i |} rest =
    emit a (i :: rest).
  Proof.
    apply sacc_eq; cbn [emit a_pkts a_small a_small_bytes a_seq a_avail map]; unfold slice_pkts; cbn [numbered]; auto.
    - now rewrite <- app_assoc.
    - rewrite len_cons. lia.
    - rewrite sum_cons. lia.
  Qed.

  Definition want (ls : list (option N)) (i : N) : bool :=
    match nth_opt acked (N.to_nat i), nth_opt ls (N.to_nat i) with
    | Some false, Some l => due_b now resend l
    | _, _ => false
    end.

  Lemma want_true ls i :
    want ls i = true <->
    nth_opt acked (N.to_nat i) = Some false /\
    exists l, nth_opt ls (N.to_nat i) = Some l /\ is_due now resend l.
  Proof.
    unfold want. split.
    - destruct (nth_opt acked (N.to_nat i)) as [[|]|]; try discriminate.
      destruct (nth_opt ls (N.to_nat i)) as [l|]; [|discriminate].
      intros D. split; [reflexivity|]. exists l. split; [reflexivity|now apply due_b_true].
    - intros (-> & l & -> & D). now apply due_b_true.
  Qed.

  Lemma want_upd ls i x j : j <> i -> want (upd ls (N.to_nat i) x) j = want ls j.
  Proof. intros H. unfold want. rewrite nth_opt_upd_other by (clear - H; lia). reflexivity. Qed.

  Hypothesis Hm : SLICE_SIZE < len m.
  Hypothesis Hack : length acked = N.to_nat num.

  Lemma slices_loop_pick : forall fuel k ls next a,
    Forall (fun i => i < num) (rotl start num k fuel) -> NoDup (rotl start num k fuel) ->
    length ls = N.to_nat num -> Forall (fun o => opt_le o now) ls ->
    exists next',
      slices_loop fuel k ch id now resend m num start acked ls next a =
      Ok (stamp now ls (pick (want ls) (plen m) (a_avail a) (rotl start num k fuel)), next',
          emit a (pick (want ls) (plen m) (a_avail a) (rotl start num k fuel))).
  Proof.
    pose proof SliceP.SLICE_SIZE_pos as Hss.
    induction fuel as [|f IH]; intros k ls next a Hlt ND Hlen Hle; cbn [rotl] in *; cbn [slices_loop pick].
    { exists next. cbn [stamp]. now rewrite emit_nil. }
    inversion Hlt as [|? ? Hi Hlt']. inversion ND as [|? ? Hfresh ND']. subst.
    set (i := (start + k) mod num) in *. clearbody i.
    destruct (N.ltb_spec (a_avail a) SLICE_SIZE) as [Hlow|Hav].
    { exists next. cbn [stamp]. now rewrite emit_nil. }
    cbv zeta.
    destruct (nth_opt_lt acked (N.to_nat i) ltac:(lia)) as (ak & Eak).
    destruct (nth_opt_lt ls (N.to_nat i) ltac:(lia)) as (last & Els).
    assert (W : want ls i = if ak then false else due_b now resend last).
    { unfold want. rewrite Eak, Els. destruct ak; reflexivity. }
    rewrite Eak, Els, W.
    destruct ak; [exact (IH (k + 1) ls next a Hlt' ND' Hlen Hle)|].
    rewrite (due_ok _ _ _ (Forall_nth_opt _ _ _ _ Hle Els)). cbn [bind].
    destruct (due_b now resend last); cbn [negb]; [|exact (IH (k + 1) ls next a Hlt' ND' Hlen Hle)].
    (* slice i is transmitted; the indices still to come differ from i, so [want] is the same
       for them before and after the stamp *)
    pose proof (slice_range_test m i ltac:(lia) Hi) as Hrt. cbv zeta in Hrt. fold num in Hrt. rewrite Hrt.
    change (takeN ((if i =? num - 1 then len m else (i + 1) * SLICE_SIZE) - i * SLICE_SIZE)
                  (dropN (i * SLICE_SIZE) m)) with (slice_payload m i).
    fold (plen m i).
    pose proof (plen_bounds m i ltac:(lia) Hi) as Hpl.
    rewrite sub_chk_ok by lia. cbn [bind stamp].
    rewrite (pick_ext (want ls) (want (upd ls (N.to_nat i) (Some now))))
      by (intros j Hj; symmetry; apply want_upd; intros ->; contradiction).
    rewrite <- emit_cons.
    apply IH; [exact Hlt'|exact ND'|now rewrite upd_length|].
    apply Forall_upd; [cbn [opt_le]; lia|exact Hle].
  Qed.
End SlicesLoop.

Section Visit.
  Variables (ch now resend : N) (st : stat) (seq0 avail0 : N).
  Notation acc_wf := (acc_wf ch st seq0 avail0).

  Lemma acc_wf_emit id m a sent :
    acc_wf a -> st id = Some (m, Some (num_slices_of m)) ->
    (forall i, In i sent -> i < num_slices_of m) ->
    sum (map (plen m) sent) <= a_avail a ->
    acc_wf (emit ch id m a sent).
  Proof.
    intros [W1 W2 W3 W4 W5 W6 W7 W8] Hst Hlt Hsum.
    constructor; cbn [emit a_pkts a_small a_small_bytes a_seq a_avail]; unfold slice_pkts; auto.
    - apply Forall_app. split; [exact W1|]. apply Forall_numbered. intros q i Hi.
      split; [reflexivity|]. exists m, (num_slices_of m). cbn [slice_of sl_id sl_index].
      split; [exact Hst|]. split; [reflexivity|apply Hlt, Hi].
    - apply Forall_app. split; [exact W3|]. apply Forall_numbered. intros q i _. exact I.
    - apply seqs_from_app. split; [exact W5|]. rewrite <- W6. now apply seqs_numbered.
    - rewrite len_app, len_numbered. lia.
    - rewrite payload_total_app, (payload_numbered _ (plen m)) by reflexivity. lia.
    - rewrite bodies_app. unfold bodies at 2. rewrite flat_map_numbered_nil, app_nil_r by reflexivity. exact W8.
  Qed.

  Definition push (a : sacc) (e : N * list N) : sacc :=
    if SLICE_SIZE <? a_small_bytes a + rel_entry_size e
    then {| a_pkts := a_pkts a ++ [SmallReliable (a_seq a) ch (a_small a)]; a_small := [e];
            a_small_bytes := 0 + rel_entry_size e; a_seq := a_seq a + 1;
            a_avail := a_avail a - len (snd e) |}
    else {| a_pkts := a_pkts a; a_small := a_small a ++ [e];
            a_small_bytes := a_small_bytes a + rel_entry_size e; a_seq := a_seq a;
            a_avail := a_avail a - len (snd e) |}.

  Lemma push_avail a e : a_avail (push a e) = a_avail a - len (snd e).
  Proof. unfold push. destruct (SLICE_SIZE <? _); reflexivity. Qed.

  Lemma push_parts a e : acc_parts (push a e) = acc_parts a ++ [(fst e, None)].
  Proof.
    unfold push, acc_parts. destruct (SLICE_SIZE <? _); cbn [a_pkts a_small map].
    - rewrite parts_of_app. cbn [parts_of]. now rewrite !app_nil_r.
    - now rewrite map_app, app_assoc.
  Qed.

  Lemma acc_wf_push a e :
    acc_wf a -> entry_ok st e -> len (snd e) <= a_avail a -> acc_wf (push a e).
  Proof.
    intros [W1 W2 W3 W4 W5 W6 W7 W8] He Hav. unfold push. rewrite W4.
    assert (He1 : Forall (entry_ok st) [e]) by (constructor; [exact He|constructor]).
    assert (Hb : msgs_bytes [e] = len (snd e)).
    { unfold msgs_bytes. cbn [map]. now rewrite sum_cons, sum_nil, N.add_0_r. }
    destruct (N.ltb_spec SLICE_SIZE (bsize rel_entry_size (a_small a) + rel_entry_size e)) as [Hbig|Hfits];
      constructor; cbn [a_pkts a_small a_small_bytes a_seq a_avail]; auto.
    - apply Forall_app. split; [exact W1|]. constructor; [|constructor]. split; [reflexivity|exact W2].
    - apply Forall_app. split; [exact W3|]. constructor; [|constructor]. apply W8.
    - symmetry. apply (bsize_snoc rel_entry_size []).
    - apply seqs_from_app. split; [exact W5|]. cbn [seqs_from packet_seq]. split; [exact W6|exact I].
    - rewrite len_app, len_one. lia.
    - rewrite payload_total_app, payload_total_small_one. lia.
    - rewrite bodies_app. cbn [bodies flat_map app]. now apply packing_flush.
    - apply Forall_app. split; [exact W2|exact He1].
    - now rewrite bsize_snoc.
    - rewrite msgs_bytes_app. lia.
    - now apply packing_add.
  Qed.

  Definition acc_step (a a' : sacc) (bytes : N) (new : list part) : Prop :=
    acc_wf a' /\ a_avail a' <= a_avail a /\ a_avail a <= a_avail a' + bytes /\
    Permutation (acc_parts a') (acc_parts a ++ new).

  Lemma acc_step_refl a bytes : acc_wf a -> acc_step a a bytes [].
  Proof.
    intros H. split; [exact H|]. split; [lia|]. split; [lia|]. rewrite app_nil_r. apply Permutation_refl.
  Qed.

  Lemma acc_step_trans a a1 a2 b1 b2 n1 n2 :
    acc_step a a1 b1 n1 -> acc_step a1 a2 b2 n2 -> acc_step a a2 (b1 + b2) (n1 ++ n2).
  Proof.
    intros (_ & L1 & G1 & P1) (W & L2 & G2 & P2). split; [exact W|]. split; [lia|]. split; [lia|].
    rewrite app_assoc. eapply perm_trans; [exact P2|]. apply Permutation_app_tail, P1.
  Qed.

  (* what the tick does to one pending message: [sent p] = its part p was transmitted, [af] = the
     budget left in the end, [full] = the budget covered the message when its turn came *)
  Definition vrel1 (sent : option N -> Prop) (af : N) (full : Prop) (u u' : unacked) : Prop :=
    unacked_wf now u' /\ same_static u u' /\
    (forall p, sent p -> exists l, part_last u p = Some l /\ is_due now resend l /\
                                   part_acked u p = Some false /\ part_last u' p = Some (Some now)) /\
    (forall p, ~ sent p -> part_last u' p = part_last u p) /\
    (SLICE_SIZE <= af -> forall p l, part_last u p = Some l -> is_due now resend l ->
                         part_acked u p = Some false -> sent p) /\
    (full -> forall l, part_last u None = Some l -> is_due now resend l -> sent None).

  Lemma vrel1_ext (sent sent' : option N -> Prop) af af' (full full' : Prop) u u' :
    (forall p, sent p <-> sent' p) -> (SLICE_SIZE <= af' -> SLICE_SIZE <= af) -> (full' -> full) ->
    vrel1 sent af full u u' -> vrel1 sent' af' full' u u'.
  Proof.
    intros H Ha Hf (V2 & V3 & V4 & V5 & V6 & V7).
    split; [exact V2|]. split; [exact V3|].
    split; [intros p Hp; apply V4, H, Hp|].
    split; [intros p Hp; apply V5; intros Hq; apply Hp, H, Hq|].
    split; [intros Hge p l H1 H2 H3; apply H; eapply V6; eauto|].
    intros Hfull l H1 H2. apply H. eapply V7; eauto.
  Qed.

  Definition visit_post (id : N) (u : unacked) (a : sacc) (r : cres (N * unacked * sacc)) : Prop :=
    exists u' a' new1,
      r = Ok (id, u', a') /\ acc_step a a' (unacked_len u) (map (pair id) new1) /\ NoDup new1 /\
      vrel1 (fun p => In p new1) (a_avail a') (unacked_len u <= a_avail a) u u'.

  Lemma visit_post_skip id u a :
    unacked_wf now u -> acc_wf a ->
    (SLICE_SIZE <= a_avail a -> forall p l, part_last u p = Some l -> is_due now resend l ->
                                part_acked u p <> Some false) ->
    (unacked_len u <= a_avail a -> forall l, part_last u None = Some l -> ~ is_due now resend l) ->
    visit_post id u a (Ok (id, u, a)).
  Proof.
    intros Hwf Ha Hno Hno2. exists u, a, []. split; [reflexivity|].
    split; [apply acc_step_refl, Ha|]. split; [constructor|].
    split; [exact Hwf|]. split; [destruct u; cbn [same_static]; auto|]. split; [intros p []|]. split; [reflexivity|].
    split; [intros H1 p l H2 H3 H4; exact (Hno H1 p l H2 H3 H4)|intros H1 l H2 H3; exact (Hno2 H1 l H2 H3)].
  Qed.

  Lemma visit_small_spec id m last a :
    unacked_wf now (USmall m last) -> st id = Some (m, None) -> acc_wf a ->
    visit_post id (USmall m last) a (visit ch now resend (id, USmall m last) a).
  Proof.
    intros Hwf Hst Ha. pose proof Hwf as [Hlen Hlast]. cbn [visit].
    destruct (N.ltb_spec (a_avail a) (len m)) as [Hlow|Hav].
    { pose proof SliceP.SLICE_SIZE_pos.
      apply visit_post_skip; auto; [intros Hge; lia|cbn [unacked_len]; intros; lia]. }
    rewrite (due_ok _ _ _ Hlast). cbn [bind].
    destruct (due_b now resend last) eqn:Ed; cbn [negb].
    2:{ rewrite <- not_true_iff_false, due_b_true in Ed. apply visit_post_skip; auto.
        - intros _ [i|] l Hp Hd; cbn in Hp; [discriminate|]. inversion Hp; subst. contradiction.
        - intros _ l Hp. cbn in Hp. inversion Hp; subst. exact Ed. }
    apply due_b_true in Ed.
    rewrite sub_chk_ok by exact Hav. cbn [bind].
    exists (USmall m (Some now)), (push a (id, m)), [None].
    split; [unfold push; destruct (SLICE_SIZE <? _); reflexivity|]. split; [|split].
    - split; [apply acc_wf_push; [exact Ha|exact Hst|exact Hav]|].
      rewrite push_avail, push_parts. cbn [fst snd unacked_len map].
      split; [lia|]. split; [lia|apply Permutation_refl].
    - constructor; [intros []|constructor].
    - split; [split; [exact Hlen|cbn [opt_le]; lia]|]. split; [reflexivity|].
      split; [intros p [<-|[]]; exists last; cbn [part_last part_acked]; auto|].
      split; [intros [i|] Hp; [reflexivity|]; exfalso; apply Hp; now left|].
      split; [intros _ [i|] l Hp _ _; cbn in Hp; [discriminate|now left]|intros _ l _ _; now left].
  Qed.

  Lemma visit_sliced_spec id m num na nx ak ls a :
    unacked_wf now (USliced m num na nx ak ls) -> st id = Some (m, Some num) -> acc_wf a ->
    visit_post id (USliced m num na nx ak ls) a (visit ch now resend (id, USliced m num na nx ak ls) a).
  Proof.
    intros Hwf Hst Ha. pose proof SliceP.SLICE_SIZE_pos as Hss.
    pose proof Hwf as (Hm & -> & Hack & Hls & Hna & Hlt & Hle).
    cbn [visit].
    destruct (SliceP.num_bounds m Hm) as (_ & _ & Hn2).
    set (idxs := rotl nx (num_slices_of m) 0 (N.to_nat (num_slices_of m))).
    pose proof (rotl_lt nx (num_slices_of m) ltac:(lia) (N.to_nat (num_slices_of m)) 0) as Hidx.
    pose proof (NoDup_rotl nx (num_slices_of m) (N.to_nat (num_slices_of m)) 0 ltac:(lia)) as NDidx.
    fold idxs in Hidx, NDidx.
    destruct (slices_loop_pick ch id now resend m nx ak Hm Hack _ 0 ls nx a Hidx NDidx Hls Hle) as (next' & E).
    fold idxs in E. set (sent := pick _ _ _ idxs) in E.
    rewrite E. cbn [bind].
    assert (Hin : forall i, In i sent -> i < num_slices_of m /\ want now resend ak ls i = true).
    { intros i Hi. apply pick_in in Hi. destruct Hi as [Hi W]. rewrite Forall_forall in Hidx. auto. }
    assert (ND : NoDup sent) by (apply pick_NoDup, NDidx).
    assert (Hsum : sum (map (plen m) sent) <= a_avail a).
    { apply pick_spent. intros i Hi. rewrite Forall_forall in Hidx. apply plen_bounds; [lia|auto]. }
    exists (USliced m (num_slices_of m) na next' ak (stamp now ls sent)), (emit ch id m a sent), (map Some sent).
    split; [reflexivity|]. split; [|split].
    - split; [apply acc_wf_emit; auto; intros i Hi; apply Hin, Hi|].
      pose proof (sum_plen_sent m sent ltac:(lia) ND (fun i Hi => proj1 (Hin i Hi))).
      cbn [emit a_avail unacked_len]. split; [lia|]. split; [lia|].
      unfold acc_parts. cbn [emit a_pkts a_small]. rewrite parts_of_app, parts_slice_pkts, map_map.
      rewrite <- !app_assoc. apply Permutation_app_head. apply Permutation_app_comm.
    - apply FinFun.Injective_map_NoDup; auto. intros x y H. now inversion H.
    - split; [cbn [unacked_wf]; rewrite stamp_length; repeat split; auto using stamp_le|].
      split; [cbn [same_static]; auto|].
      split.
      { intros p Hp. apply in_map_iff in Hp. destruct Hp as (i & <- & Hi).
        destruct (Hin i Hi) as [Hi' W]. apply want_true in W. destruct W as (Q1 & l & Q2 & Q3).
        exists l. cbn [part_last part_acked]. rewrite stamp_sent by (exact Hi || lia). auto. }
      split.
      { intros [i|] Hp; [|reflexivity]. cbn [part_last]. apply stamp_other. intros Hi. apply Hp. now apply in_map. }
      split; [|intros _ l Hl; cbn in Hl; discriminate].
      intros Hge [i|] l Hl Hd Hk; cbn [part_last part_acked] in *; [|discriminate].
      apply in_map. apply pick_complete; [exact Hge| |apply want_true; eauto].
      apply rotl_all. apply nth_opt_some_lt in Hl. lia.
  Qed.

  Lemma visit_spec id u a :
    unacked_wf now u -> st id = Some (static_of u) -> acc_wf a ->
    visit_post id u a (visit ch now resend (id, u) a).
  Proof. destruct u; [apply visit_small_spec|apply visit_sliced_spec]. Qed.

  Definition vrel (new : list part) (af : N) (full : Prop) (x y : N * unacked) : Prop :=
    fst y = fst x /\ vrel1 (fun p => In (fst x, p) new) af full (snd x) (snd y).

  Definition elem_pre (x : N * unacked) : Prop :=
    unacked_wf now (snd x) /\ st (fst x) = Some (static_of (snd x)).

  Lemma visit_all_spec : forall t lo a,
    keys_ascending lo (map fst t) -> Forall elem_pre t -> acc_wf a ->
    exists t' a' new,
      visit_all ch now resend t a = Ok (t', a') /\ acc_step a a' (vsum unacked_len t) new /\ NoDup new /\
      (forall id p, In (id, p) new -> In id (map fst t)) /\
      Forall2 (vrel new (a_avail a') (vsum unacked_len t <= a_avail a)) t t'.
  Proof.
    induction t as [|[id u] t IH]; intros lo a Hk Hpre Ha.
    - exists [], a, []. cbn [visit_all]. split; [reflexivity|]. split; [apply acc_step_refl, Ha|].
      split; [constructor|]. split; [intros id p []|constructor].
    - inversion Hpre as [|x l' (Hwf & Hst) Hpre']; subst. cbn [fst snd] in *.
      cbn [map fst keys_ascending] in Hk. destruct Hk as [Hlo Hk].
      destruct (visit_spec id u a Hwf Hst Ha) as (u' & a1 & new1 & E1 & S1 & Hnd1 & V1).
      destruct (IH (id + 1) a1 Hk Hpre' (proj1 S1)) as (t' & a2 & new2 & E2 & S2 & Hnd2 & Hids & HF).
      cbn [visit_all]. rewrite E1. cbn [bind]. rewrite E2. cbn [bind].
      exists ((id, u') :: t'), a2, (map (pair id) new1 ++ new2).
      (* the parts of message id are those of its own visit: later ids are larger *)
      assert (Hfresh : forall x, In x t -> fst x <> id).
      { intros x Hx E. apply keys_asc_lb in Hk. rewrite Forall_forall in Hk.
        specialize (Hk (fst x) (in_map fst _ _ Hx)). lia. }
      assert (Hno2 : forall p, ~ In (id, p) new2).
      { intros p Hp. apply Hids in Hp. apply in_map_iff in Hp. destruct Hp as (x & Ex & Hx).
        exact (Hfresh x Hx Ex). }
      assert (Hhead : forall p, In p new1 <-> In (id, p) (map (pair id) new1 ++ new2)).
      { intros p. rewrite in_app_iff, in_map_iff. split.
        - intros Hp. left. now exists p.
        - intros [(q & Eq & Hq)|Hp]; [inversion Eq; subst; exact Hq|]. exfalso. exact (Hno2 p Hp). }
      assert (Em : vsum unacked_len ((id, u) :: t) = unacked_len u + vsum unacked_len t) by reflexivity.
      pose proof S1 as (_ & L1 & G1 & _). pose proof S2 as (_ & L2 & _).
      split; [reflexivity|]. split; [rewrite Em; eapply acc_step_trans; eassumption|].
      split.
      { apply NoDup_app_intro; auto.
        - apply FinFun.Injective_map_NoDup; auto. intros x y H. now inversion H.
        - intros x Hx Hx2. apply in_map_iff in Hx. destruct Hx as (p & <- & _). exact (Hno2 p Hx2). }
      split.
      { intros id' p Hp. apply in_app_or in Hp. cbn [map fst]. destruct Hp as [Hp|Hp].
        - apply in_map_iff in Hp. destruct Hp as (q & Eq & _). inversion Eq. now left.
        - right. eapply Hids. exact Hp. }
      constructor.
      + split; [reflexivity|]. cbn [fst snd]. rewrite Em.
        eapply vrel1_ext; [exact Hhead| | |exact V1]; lia.
      + eapply Forall2_impl_in; [|exact HF]. intros x y Hx [Ef V]. split; [exact Ef|]. rewrite Em.
        eapply vrel1_ext; [| | |exact V]; [|auto|lia].
        intros p. rewrite in_app_iff, in_map_iff. split; [auto|].
        intros [(q & Eq & _)|Hp]; [|exact Hp]. inversion Eq. exfalso. apply (Hfresh x Hx). congruence.
  Qed.
End Visit.

Lemma Forall2_sm_find {A} (R : N * A -> N * A -> Prop) t t' :
  (forall x y, R x y -> fst y = fst x) -> Forall2 R t t' ->
  forall id, match sm_find id t with
             | None => sm_find id t' = None
             | Some u => exists u', sm_find id t' = Some u' /\ R (id, u) (id, u')
             end.
Proof.
  intros H F id. induction F as [|[k v] [k' v'] l l' Hxy F IH]; cbn [sm_find]; [reflexivity|].
  pose proof (H _ _ Hxy) as E. cbn [fst] in E. subst k'.
  destruct (N.eqb_spec id k) as [->|Hne]; [|exact IH].
  exists v'. split; [reflexivity|exact Hxy].
Qed.

Definition fit_all (us : list (N * unacked)) : Prop :=
  forall id m l, sm_find id us = Some (USmall m l) -> rel_entry_size (id, m) <= SLICE_SIZE.

Set Implicit Arguments.
Record tick_facts (now : N) (s s' : send_rel) (seq avail : N) (pkts : list packet) (avail' : N) : Prop := {
  tf_frame : s' = sr_set s (sr_unacked s') (sr_mem s);
  tf_rel : Forall2 (vrel now (sr_resend s) (parts_of pkts) avail' (sr_mem s <= avail))
                   (sr_unacked s) (sr_unacked s');
  tf_pkts : Forall (pkt_ok (sr_ch s) (st_of (sr_unacked s))) pkts;
  tf_sizes : Forall pkt_size_ok pkts;
  tf_seqs : seqs_from seq pkts;
  tf_avail : avail' + payload_total pkts = avail;
  tf_bound : avail <= avail' + sr_mem s;
  tf_nodup : NoDup (parts_of pkts);
  tf_ids : forall id p, In (id, p) (parts_of pkts) -> In id (map fst (sr_unacked s));
  tf_shape : shape (bodies pkts) }.
Unset Implicit Arguments.

Lemma sr_get_packets_master now s seq avail :
  sr_inv now s ->
  exists s' pkts avail',
    sr_get_packets s seq avail now = Ok (s', pkts, seq + len pkts, avail') /\
    tick_facts now s s' seq avail pkts avail'.
Proof.
  intros (H1 & H2 & H3 & H4). unfold sr_get_packets.
  destruct (sr_unacked s) as [|x0 us0] eqn:Eus.
  { exists s, [], avail. split; [rewrite len_nil, N.add_0_r; reflexivity|].
    constructor; try rewrite Eus; try (now constructor); try lia.
    - rewrite <- Eus. destruct s; reflexivity.
    - unfold payload_total. cbn [map]. rewrite sum_nil. lia.
    - intros id p []. }
  rewrite <- Eus in *. clear Eus x0 us0.
  set (us := sr_unacked s) in *.
  set (a0 := {| a_pkts := []; a_small := []; a_small_bytes := 0; a_seq := seq; a_avail := avail |}).
  assert (Ha0 : acc_wf (sr_ch s) (st_of us) seq avail a0).
  { constructor; cbn [a0 a_pkts a_small a_small_bytes a_seq a_avail];
      try exact (packing_nil rel_entry_size); auto; try constructor.
    - rewrite len_nil. lia.
    - unfold payload_total, msgs_bytes. cbn [map]. rewrite sum_nil. lia. }
  assert (Hpre : Forall (elem_pre now (st_of us)) us).
  { rewrite Forall_forall. intros [id u] Hx. rewrite Forall_forall in H2.
    destruct (H2 _ Hx) as [_ Hwf]. split; [exact Hwf|]. cbn [fst snd].
    unfold st_of. now rewrite (sm_in_find _ _ _ (proj2 (keys_asc_asc _ _ H1)) Hx). }
  destruct (visit_all_spec (sr_ch s) now (sr_resend s) (st_of us) seq avail us 0 a0 H1 Hpre Ha0)
    as (us' & a & new & E & (Ha & Hle & Hge & Hperm) & Hnd & Hids & HF).
  rewrite E. cbn [bind].
  destruct Ha as [W1 W2 W3 W4 W5 W6 W7 (W8 & W9 & _)].
  cbn [a0 a_avail] in Hle, Hge. change (acc_parts a0) with (@nil part) in Hperm. cbn [app] in Hperm.
  fold (vsum unacked_len us) in H3. rewrite <- H3 in Hge.
  change (a_avail a0) with avail in HF. rewrite <- H3 in HF.
  (* the parts transmitted are those of the packets, in some order *)
  assert (Hnew : forall ps, Permutation ps new ->
            Forall2 (vrel now (sr_resend s) ps (a_avail a) (sr_mem s <= avail)) us us' /\ NoDup ps /\
            forall id p, In (id, p) ps -> In id (map fst us)).
  { intros ps HP. split; [|split].
    - eapply Forall2_impl_in; [|exact HF]. intros x y _ [Ef V]. split; [exact Ef|].
      eapply vrel1_ext; [| | |exact V]; auto.
      intros p. split; apply Permutation_in; [apply Permutation_sym|]; exact HP.
    - eapply Permutation_NoDup; [apply Permutation_sym, HP|exact Hnd].
    - intros id p Hp. eapply Hids, Permutation_in; eauto. }
  unfold acc_parts in Hperm.
  destruct (a_small a) as [|im sm] eqn:Esm; cbn [open map] in W8, Hperm.
  - rewrite app_nil_r in W8, Hperm. destruct (Hnew _ Hperm) as (R1 & R2 & R3).
    eexists _, (a_pkts a), (a_avail a). rewrite W6. split; [reflexivity|].
    constructor; cbn [sr_unacked sr_mem]; auto.
    unfold msgs_bytes in W7. cbn [map] in W7. rewrite sum_nil in W7. lia.
  - assert (Hperm' : Permutation (parts_of (a_pkts a ++ [SmallReliable (a_seq a) (sr_ch s) (im :: sm)])) new).
    { rewrite parts_of_app. cbn [parts_of]. rewrite app_nil_r. exact Hperm. }
    destruct (Hnew _ Hperm') as (R1 & R2 & R3).
    eexists _, (a_pkts a ++ [SmallReliable (a_seq a) (sr_ch s) (im :: sm)]), (a_avail a).
    split; [rewrite len_app, len_one, W6, N.add_assoc; reflexivity|].
    constructor; cbn [sr_unacked sr_mem]; auto.
    + apply Forall_app. split; [exact W1|]. constructor; [|constructor]. split; [reflexivity|exact W2].
    + apply Forall_app. split; [exact W3|]. constructor; [exact W9|constructor].
    + apply seqs_from_app. split; [exact W5|]. cbn [seqs_from packet_seq]. split; [exact W6|exact I].
    + rewrite payload_total_app, payload_total_small_one. lia.
    + rewrite bodies_app. exact W8.
Qed.

Lemma vrel_fst now resend new af full x y : vrel now resend new af full x y -> fst y = fst x.
Proof. intros (V1 & _). exact V1. Qed.

(* transmission state of part p of message id (None: the small message, Some i: slice i).
   plast: when it was last sent, if ever.  packed: whether it has been acknowledged - Some false is
   a part still waiting for its acknowledgement, Some true an acknowledged slice of a message that
   is still held, None a message or part that is not (or no longer) in sr_unacked *)
Definition plast (s : send_rel) (id : N) (p : option N) : option (option N) :=
  match sm_find id (sr_unacked s) with Some u => part_last u p | None => None end.
Definition packed (s : send_rel) (id : N) (p : option N) : option bool :=
  match sm_find id (sr_unacked s) with Some u => part_acked u p | None => None end.

Lemma small_last_plast s id : small_last s id = plast s id None.
Proof. unfold small_last, plast. destruct (sm_find id (sr_unacked s)) as [[]|]; reflexivity. Qed.

Lemma slice_last_plast s id idx : slice_last s id idx = plast s id (Some idx).
Proof. unfold slice_last, plast. destruct (sm_find id (sr_unacked s)) as [[]|]; reflexivity. Qed.

Lemma slice_acked_packed s id idx : slice_acked s id idx = packed s id (Some idx).
Proof. unfold slice_acked, packed. destruct (sm_find id (sr_unacked s)) as [[]|]; reflexivity. Qed.

Lemma packed_none_kind s id : packed s id None = Some false <-> kind_of s id = Some None.
Proof.
  unfold packed, kind_of. destruct (sm_find id (sr_unacked s)) as [[]|]; cbn [part_acked]; split; intros; congruence.
Qed.

Lemma small_packed s id l : small_last s id = Some l -> packed s id None = Some false.
Proof.
  unfold small_last, packed. destruct (sm_find id (sr_unacked s)) as [[]|]; try discriminate. reflexivity.
Qed.

Lemma kind_none_packed s id p : kind_of s id = None -> packed s id p = None.
Proof. intros H. unfold packed. now rewrite (kind_none_find _ _ H). Qed.

Lemma packed_same_find s s' id p :
  sm_find id (sr_unacked s') = sm_find id (sr_unacked s) -> packed s' id p = packed s id p.
Proof. unfold packed. now intros ->. Qed.

Lemma packed_plast now s id p b : sr_inv now s -> packed s id p = Some b -> exists l, plast s id p = Some l.
Proof.
  intros Hinv. unfold packed, plast. destruct (sm_find id (sr_unacked s)) as [u|] eqn:E; [|discriminate].
  destruct (sr_inv_find _ _ _ _ Hinv E) as (_ & Hwf & _).
  destruct u as [m l|m num na nx ak ls]; destruct p as [i|]; cbn [part_acked part_last]; try discriminate; eauto.
  destruct Hwf as (_ & _ & W3 & W4 & _). intros H. apply nth_opt_some_lt in H.
  apply nth_opt_lt. lia.
Qed.

Lemma unacked_has_pending now s id u : sr_inv now s -> sm_find id (sr_unacked s) = Some u ->
  exists p, packed s id p = Some false.
Proof.
  intros Hinv E. destruct (sr_inv_find _ _ _ _ Hinv E) as (_ & Hwf & _). unfold packed. rewrite E.
  destruct u as [m l|m num na nx ak ls]; cbn [part_acked]; [now exists None|].
  destruct Hwf as (_ & _ & W3 & _ & W5 & W6 & _).
  destruct (count_true_not_full ak) as (i & Hi).
  { unfold len in *. lia. }
  exists (Some (N.of_nat i)). now rewrite Nat2N.id.
Qed.

Lemma sr_send_shape s m s' : sr_send s m = Ok s' ->
  sr_next_id s' = sr_next_id s + 1 /\
  exists u, sr_unacked s' = sm_insert (sr_next_id s) u (sr_unacked s) /\ fst (static_of u) = m /\
            forall idx, part_acked u (Some idx) <> Some true.
Proof.
  unfold sr_send. destruct (sr_max s <? sr_mem s + len m); [discriminate|]. intros [= <-].
  cbn [sr_next_id sr_unacked]. split; [reflexivity|].
  eexists. split; [reflexivity|]. destruct (SLICE_SIZE <? len m); cbn [static_of fst part_acked].
  - split; [reflexivity|]. intros idx H. rewrite nth_opt_eq in H. apply nth_error_repeatN in H. discriminate.
  - split; [reflexivity|]. discriminate.
Qed.

Lemma sr_ack_slice_pend now s id idx s' :
  sr_inv now s -> (kind_of s id = None \/ exists num, kind_of s id = Some (Some num) /\ idx < num) ->
  sr_ack_slice s id idx = Ok s' ->
  (forall j p, packed s' j p = Some false -> packed s j p = Some false) /\
  packed s' id (Some idx) <> Some false.
Proof.
  intros Hinv Hk E.
  destruct (sr_ack_slice_safe now s id idx Hinv Hk) as (s1 & E1 & _ & _ & Ho & Hc).
  rewrite E in E1. injection E1 as <-.
  assert (Hoth : forall j p, j <> id -> packed s' j p = packed s j p)
    by (intros j p Hj; apply packed_same_find; now apply Ho).
  destruct Hc as [[Hn ->]|[P|P]].
  - split; [auto|]. destruct Hn as [Hn|Hn].
    + rewrite (kind_none_packed _ _ _ Hn). discriminate.
    + rewrite <- slice_acked_packed, Hn. discriminate.
  - destruct P as (P1 & _ & P3 & P4 & P5 & _). split.
    + intros j p Hp. destruct (N.eq_dec j id) as [->|Hj]; [|now rewrite <- Hoth].
      destruct p as [i|].
      * rewrite <- slice_acked_packed in *. destruct (N.eq_dec i idx) as [->|Hi]; [congruence|].
        now rewrite <- P5.
      * apply packed_none_kind in Hp. apply packed_none_kind. congruence.
    + rewrite <- slice_acked_packed, P4. discriminate.
  - destruct P as (_ & _ & P3 & _). split.
    + intros j p Hp. destruct (N.eq_dec j id) as [->|Hj]; [|now rewrite <- Hoth].
      rewrite (kind_none_packed _ _ _ P3) in Hp. discriminate.
    + rewrite (kind_none_packed _ _ _ P3). discriminate.
Qed.

Lemma pkt_ok_rel ch s' p : pkt_ok ch (st_of (sr_unacked s')) p -> rel_packet_ok ch s' p.
Proof.
  destruct p as [sq c ms|sq c ms|sq c sl|sq c sl|sq r]; cbn [pkt_ok rel_packet_ok]; auto.
  - intros [-> H]. split; [reflexivity|]. eapply Forall_impl; [|exact H].
    intros im He. apply st_of_small in He. destruct He as (l & He). split; [congruence|]. now exists l.
  - intros [-> (m & num & He & Hsl & Hlt)]. split; [reflexivity|].
    apply st_of_sliced in He. destruct He as (na & nx & ak & ls & He). exists m, num, na, nx, ak, ls. auto.
Qed.

Lemma pkt_ok_ext ch st st' p : (forall id, st' id = st id) -> pkt_ok ch st p -> pkt_ok ch st' p.
Proof.
  intros H. destruct p as [sq c ms|sq c ms|sq c sl|sq c sl|sq r]; cbn [pkt_ok]; auto.
  - intros [-> HF]. split; [reflexivity|]. eapply Forall_impl; [|exact HF].
    intros im. unfold entry_ok. now rewrite H.
  - intros [-> (m & num & He & Hsl)]. split; [reflexivity|]. exists m, num. now rewrite H.
Qed.

Section TickFacts.
  Context {now : N} {s s' : send_rel} {seq avail : N} {pkts : list packet} {avail' : N}.
  Hypothesis T : tick_facts now s s' seq avail pkts avail'.

  Lemma tick_inv : sr_inv now s -> sr_inv now s'.
  Proof.
    intros (H1 & H2 & H3 & H4). rewrite (tf_frame T). pose proof (tf_rel T) as HF.
    unfold sr_inv. cbn [sr_set sr_unacked sr_next_id sr_max sr_mem].
    split; [|split; [|split]]; auto.
    - erewrite Forall2_fst; [exact H1| |exact HF]. intros x y. apply vrel_fst.
    - eapply Forall2_Forall_r; [|exact HF|exact H2].
      intros x y [Hx _] (V1 & V2 & _). cbv beta. rewrite V1. split; auto.
    - rewrite H3. symmetry. eapply Forall2_sum_eq; [|exact HF].
      intros x y (_ & _ & V3 & _). cbv beta. now apply same_static_len.
  Qed.

  Lemma tick_find id :
    match sm_find id (sr_unacked s) with
    | None => sm_find id (sr_unacked s') = None /\ forall p, ~ In (id, p) (parts_of pkts)
    | Some u => exists u', sm_find id (sr_unacked s') = Some u' /\
                           vrel1 now (sr_resend s) (fun p => In (id, p) (parts_of pkts)) avail'
                                 (sr_mem s <= avail) u u'
    end.
  Proof.
    pose proof (Forall2_sm_find _ _ _ (vrel_fst now (sr_resend s) (parts_of pkts) avail' (sr_mem s <= avail))
                  (tf_rel T) id) as H.
    destruct (sm_find id (sr_unacked s)) as [u|] eqn:E.
    - destruct H as (u' & E' & _ & V). exists u'. split; [exact E'|exact V].
    - split; [exact H|]. intros p Hp. apply (tf_ids T) in Hp.
      apply sm_find_none_mem, sm_mem_false_notin in E. contradiction.
  Qed.

  Lemma tick_st id : st_of (sr_unacked s') id = st_of (sr_unacked s) id.
  Proof.
    unfold st_of. pose proof (tick_find id) as H.
    destruct (sm_find id (sr_unacked s)) as [u|].
    - destruct H as (u' & -> & _ & V3 & _). now rewrite (same_static_of _ _ V3).
    - destruct H as [-> _]. reflexivity.
  Qed.

  Lemma tick_kind id : kind_of s' id = kind_of s id.
  Proof. rewrite !kind_of_st, tick_st. reflexivity. Qed.

  Lemma tick_packed id p : packed s' id p = packed s id p.
  Proof.
    unfold packed. pose proof (tick_find id) as H.
    destruct (sm_find id (sr_unacked s)) as [u|]; [|destruct H as [-> _]; reflexivity].
    destruct H as (u' & -> & _ & V3 & _).
    destruct u, u'; cbn [same_static] in V3; try contradiction; [reflexivity|].
    destruct V3 as (_ & _ & _ & ->). reflexivity.
  Qed.

  Lemma tick_sent id p :
    In (id, p) (parts_of pkts) ->
    exists l, plast s id p = Some l /\ is_due now (sr_resend s) l /\ packed s id p = Some false /\
              plast s' id p = Some (Some now).
  Proof.
    intros Hin. pose proof (tick_find id) as H. unfold plast, packed.
    destruct (sm_find id (sr_unacked s)) as [u|]; [|destruct H as [_ H]; destruct (H p Hin)].
    destruct H as (u' & -> & _ & _ & V4 & _). exact (V4 p Hin).
  Qed.

  Lemma tick_not_sent id p : ~ In (id, p) (parts_of pkts) -> plast s' id p = plast s id p.
  Proof.
    intros Hin. pose proof (tick_find id) as H. unfold plast.
    destruct (sm_find id (sr_unacked s)) as [u|]; [|destruct H as [-> _]; reflexivity].
    destruct H as (u' & -> & _ & _ & _ & V5 & _). exact (V5 p Hin).
  Qed.

  Lemma tick_prompt id p l :
    SLICE_SIZE <= avail' ->
    plast s id p = Some l -> is_due now (sr_resend s) l -> packed s id p = Some false ->
    In (id, p) (parts_of pkts).
  Proof.
    intros Hge Hl Hd Hk. pose proof (tick_find id) as H. unfold plast, packed in *.
    destruct (sm_find id (sr_unacked s)) as [u|]; [|discriminate].
    destruct H as (u' & _ & _ & _ & _ & _ & V6 & _). exact (V6 Hge p l Hl Hd Hk).
  Qed.

  Lemma tick_prompt_small id l :
    sr_mem s <= avail ->
    plast s id None = Some l -> is_due now (sr_resend s) l -> In (id, None) (parts_of pkts).
  Proof.
    intros Hge Hl Hd. pose proof (tick_find id) as H. unfold plast in *.
    destruct (sm_find id (sr_unacked s)) as [u|]; [|discriminate].
    destruct H as (u' & _ & _ & _ & _ & _ & _ & V7). exact (V7 Hge l Hl Hd).
  Qed.

  Lemma tick_rel_ok : Forall (rel_packet_ok (sr_ch s) s') pkts.
  Proof.
    eapply Forall_impl; [|exact (tf_pkts T)].
    intros p Hp. apply pkt_ok_rel. eapply pkt_ok_ext; [exact tick_st|exact Hp].
  Qed.
End TickFacts.

Theorem sr_get_packets_safe : forall now s seq avail, sr_inv now s ->
  exists s' pkts avail',
    sr_get_packets s seq avail now = Ok (s', pkts, seq + len pkts, avail') /\
    sr_inv now s' /\ sr_mem s' = sr_mem s /\ sr_next_id s' = sr_next_id s /\
    (forall id, kind_of s' id = kind_of s id) /\
    avail' + payload_total pkts = avail /\ seqs_from seq pkts /\
    Forall (rel_packet_ok (sr_ch s) s') pkts.
Proof.
  intros now s seq avail Hinv.
  destruct (sr_get_packets_master now s seq avail Hinv) as (s' & pkts & avail' & E & T).
  exists s', pkts, avail'. split; [exact E|].
  split; [exact (tick_inv T Hinv)|].
  split; [rewrite (tf_frame T); reflexivity|].
  split; [rewrite (tf_frame T); reflexivity|].
  split; [exact (tick_kind T)|].
  split; [exact (tf_avail T)|].
  split; [exact (tf_seqs T)|].
  exact (tick_rel_ok T).
Qed.

(* the same facts for any successful run (there is no other kind) *)
Lemma sr_get_packets_facts {now s seq avail s' pkts seq' avail'} :
  sr_inv now s -> sr_get_packets s seq avail now = Ok (s', pkts, seq', avail') ->
  tick_facts now s s' seq avail pkts avail'.
Proof.
  intros Hinv E.
  destruct (sr_get_packets_master now s seq avail Hinv) as (s1 & pkts1 & avail1 & E1 & T).
  rewrite E in E1. inversion E1; subst. exact T.
Qed.

(* property C13: sizes *)

Definition rel_size_ok (s' : send_rel) (p : packet) : Prop :=
  match p with
  | SmallReliable _ _ ms =>
      (sum (map rel_entry_size ms) <= SLICE_SIZE \/ exists im, ms = [im]) /\
      sum (map rel_entry_size ms) <= SLICE_SIZE + 16 /\
      len ms < 65536 /\
      Forall (fun im => len (snd im) <= SLICE_SIZE) ms
  | ReliableSlice _ _ sl =>
      1 <= len (sl_payload sl) <= SLICE_SIZE /\ sl_index sl < sl_num sl /\
      exists m num nacked next acked ls,
        sm_find (sl_id sl) (sr_unacked s') = Some (USliced m num nacked next acked ls) /\
        sl_num sl = num_slices_of m
  | _ => False
  end.

Lemma entry_size_ge2 (ms : list (N * list N)) : 2 * len ms <= sum (map rel_entry_size ms).
Proof.
  apply (bsize_ge rel_entry_size 2). intros [id m]. unfold rel_entry_size. cbn [fst snd].
  pose proof (varint_len_bounds (len m)). pose proof (varint_len_bounds id). lia.
Qed.

Theorem sr_get_packets_sizes : forall now s seq avail s' pkts seq' avail',
  sr_inv now s -> sr_get_packets s seq avail now = Ok (s', pkts, seq', avail') ->
  Forall (rel_size_ok s') pkts.
Proof.
  intros now s seq avail s' pkts seq' avail' Hinv E.
  pose proof (sr_get_packets_facts Hinv E) as T.
  pose proof (tf_sizes T) as HS. pose proof (tick_inv T Hinv) as Hinv'. pose proof (tick_rel_ok T) as HR.
  rewrite Forall_forall in *. intros p Hp. specialize (HR p Hp). specialize (HS p Hp).
  pose proof SS_value as Hu16.
  destruct p as [sq c ms|sq c ms|sq c sl|sq c sl|sq r]; cbn [pkt_size_ok rel_packet_ok rel_size_ok] in *;
    try contradiction.
  - destruct HR as [_ HR].
    assert (HL : Forall (fun im : N * list N => len (snd im) <= SLICE_SIZE) ms).
    { eapply Forall_impl; [|exact HR]. intros im (_ & l & Hf).
      destruct (sr_inv_find _ _ _ _ Hinv' Hf) as (_ & [Hw _] & _). exact Hw. }
    assert (Hb : sum (map rel_entry_size ms) <= SLICE_SIZE + 16).
    { apply (body_ok_bound rel_entry_size 16 ms HS). intros [id m] Him.
      rewrite Forall_forall in HL. specialize (HL _ Him). unfold rel_entry_size. cbn [fst snd] in *.
      pose proof (varint_len_bounds (len m)). pose proof (varint_len_bounds id). lia. }
    pose proof (entry_size_ge2 ms) as Hge.
    split; [exact HS|]. split; [exact Hb|]. split; [lia|exact HL].
  - destruct HR as (_ & m & num & na & nx & ak & ls & Hf & Hsl & Hlt).
    destruct (sr_inv_find _ _ _ _ Hinv' Hf) as (_ & (Hm & -> & _) & _).
    pose proof (f_equal sl_payload Hsl) as Hpay. pose proof (f_equal sl_num Hsl) as Hnum.
    cbn [slice_of sl_payload sl_num] in Hpay, Hnum.
    pose proof (plen_bounds m (sl_index sl) ltac:(lia) Hlt) as Hb. unfold plen in Hb.
    rewrite Hpay, Hnum. split; [exact Hb|]. split; [exact Hlt|].
    exists m, (num_slices_of m), na, nx, ak, ls. auto.
Qed.

Lemma in_bodies b pkts : In b (bodies pkts) <-> exists sq c, In (SmallReliable sq c b) pkts.
Proof.
  unfold bodies. rewrite in_flat_map. split.
  - intros (p & Hp & Hb). destruct p; cbn in Hb; try contradiction.
    destruct Hb as [<-|[]]. eauto.
  - intros (sq & c & H). exists (SmallReliable sq c b). split; [exact H|now left].
Qed.

(* at most one SmallReliable packet of a tick is empty, it is the first of them, and it is there
   exactly when the first small message transmitted in the tick does not fit a body on its own *)
Theorem small_bodies_shape : forall now s seq avail s' pkts seq' avail',
  sr_inv now s -> sr_get_packets s seq avail now = Ok (s', pkts, seq', avail') ->
  shape (bodies pkts).
Proof.
  intros now s seq avail s' pkts seq' avail' Hinv E.
  pose proof (sr_get_packets_facts Hinv E) as T.
  exact (tf_shape T).
Qed.

Theorem empty_packet_iff : forall now s seq avail s' pkts seq' avail',
  sr_inv now s -> sr_get_packets s seq avail now = Ok (s', pkts, seq', avail') ->
  ((exists sq c, In (SmallReliable sq c []) pkts) <->
   (exists im rest, concat (bodies pkts) = im :: rest /\ SLICE_SIZE < rel_entry_size im)).
Proof.
  intros now s seq avail s' pkts seq' avail' Hinv E. rewrite <- in_bodies.
  apply (gshape_empty_iff rel_entry_size), (small_bodies_shape _ _ _ _ _ _ _ _ Hinv E).
Qed.

(* no SmallReliable packet is empty when every pending small message fits a body on its own *)
Theorem no_empty_packet : forall now s seq avail s' pkts seq' avail',
  sr_inv now s -> sr_get_packets s seq avail now = Ok (s', pkts, seq', avail') ->
  fit_all (sr_unacked s) -> forall sq c, ~ In (SmallReliable sq c []) pkts.
Proof.
  intros now s seq avail s' pkts seq' avail' Hinv E Hfit sq c Hin.
  destruct (proj1 (empty_packet_iff _ _ _ _ _ _ _ _ Hinv E)) as ([id m] & rest & Hc & Hbig); [eauto|].
  (* the oversize entry is a pending small message *)
  assert (Him : In (id, m) (concat (bodies pkts))) by (rewrite Hc; now left).
  apply in_concat in Him. destruct Him as (b & Hb & Him).
  apply in_bodies in Hb. destruct Hb as (sq' & c' & Hb).
  pose proof (sr_get_packets_facts Hinv E) as T.
  pose proof (tf_pkts T) as HP. rewrite Forall_forall in HP.
  destruct (HP _ Hb) as [_ He]. rewrite Forall_forall in He. specialize (He _ Him).
  apply st_of_small in He. destruct He as (l & Ef). specialize (Hfit id m l Ef). lia.
Qed.

Lemma fit_all_suff us :
  (forall id m l, sm_find id us = Some (USmall m l) -> len m + 10 <= SLICE_SIZE) -> fit_all us.
Proof.
  intros H id m l Hf. specialize (H id m l Hf). unfold rel_entry_size. cbn [fst snd].
  pose proof (varint_len_bounds id). rewrite SS_value in *.
  assert (varint_len (len m) <= 2).
  { unfold varint_len. destruct (len m <=? 63); [lia|]. destruct (N.leb_spec (len m) 16383); lia. }
  lia.
Qed.

(* property C15: retransmission timing ([budget_consumed_le_pending] and the two
   [untransmitted_keep_stamp] belong to C14, the per-tick budget) *)
Section Timing.
  Variables (now : N) (s : send_rel) (seq avail : N) (s' : send_rel) (pkts : list packet) (seq' avail' : N).
  Hypothesis Hinv : sr_inv now s.
  Hypothesis Hrun : sr_get_packets s seq avail now = Ok (s', pkts, seq', avail').

  Lemma run_facts : tick_facts now s s' seq avail pkts avail'.
  Proof. exact (sr_get_packets_facts Hinv Hrun). Qed.

  Theorem no_early_resend : forall id,
    In (id, None) (parts_of pkts) ->
    exists l, small_last s id = Some l /\ is_due now (sr_resend s) l.
  Proof.
    intros id Hin. pose proof run_facts as T.
    destruct (tick_sent T id None Hin) as (l & H1 & H2 & _).
    exists l. rewrite small_last_plast. auto.
  Qed.

  Theorem no_early_resend_slice : forall id idx,
    In (id, Some idx) (parts_of pkts) ->
    exists l, slice_last s id idx = Some l /\ is_due now (sr_resend s) l /\
              slice_acked s id idx = Some false.
  Proof.
    intros id idx Hin. pose proof run_facts as T.
    destruct (tick_sent T id (Some idx) Hin) as (l & H1 & H2 & H3 & _).
    exists l. rewrite slice_last_plast, slice_acked_packed. auto.
  Qed.

  Theorem transmission_stamps : forall id,
    In (id, None) (parts_of pkts) -> small_last s' id = Some (Some now).
  Proof.
    intros id Hin. pose proof run_facts as T.
    destruct (tick_sent T id None Hin) as (l & _ & _ & _ & H4).
    now rewrite small_last_plast.
  Qed.

  Theorem transmission_stamps_slice : forall id idx,
    In (id, Some idx) (parts_of pkts) -> slice_last s' id idx = Some (Some now).
  Proof.
    intros id idx Hin. pose proof run_facts as T.
    destruct (tick_sent T id (Some idx) Hin) as (l & _ & _ & _ & H4).
    now rewrite slice_last_plast.
  Qed.

  Theorem untransmitted_keep_stamp : forall id,
    ~ In (id, None) (parts_of pkts) -> small_last s' id = small_last s id.
  Proof.
    intros id Hin. pose proof run_facts as T.
    rewrite !small_last_plast. eapply tick_not_sent; eauto.
  Qed.

  Theorem untransmitted_keep_stamp_slice : forall id idx,
    ~ In (id, Some idx) (parts_of pkts) -> slice_last s' id idx = slice_last s id idx.
  Proof.
    intros id idx Hin. pose proof run_facts as T.
    rewrite !slice_last_plast. eapply tick_not_sent; eauto.
  Qed.

  Theorem acked_flags_kept : forall id idx, slice_acked s' id idx = slice_acked s id idx.
  Proof.
    intros id idx. pose proof run_facts as T.
    rewrite !slice_acked_packed. eapply tick_packed; eauto.
  Qed.

  Theorem budget_consumed_le_pending : payload_total pkts <= sr_mem s.
  Proof.
    pose proof run_facts as T.
    pose proof (tf_avail T). pose proof (tf_bound T). lia.
  Qed.

  (* promptness, general form: if at least SLICE_SIZE bytes of budget are left at the end of
     the tick, then everything that was due has been transmitted *)
  Theorem prompt_if_budget_left :
    SLICE_SIZE <= avail' ->
    (forall id l, small_last s id = Some l -> is_due now (sr_resend s) l -> In (id, None) (parts_of pkts)) /\
    (forall id idx l, slice_last s id idx = Some l -> is_due now (sr_resend s) l ->
                      slice_acked s id idx = Some false -> In (id, Some idx) (parts_of pkts)).
  Proof.
    intros Hge. pose proof run_facts as T. split.
    - intros id l Hl Hd. apply (tick_prompt T id None l Hge).
      + now rewrite <- small_last_plast.
      + exact Hd.
      + eapply small_packed; eauto.
    - intros id idx l Hl Hd Hk. apply (tick_prompt T id (Some idx) l Hge).
      + now rewrite <- slice_last_plast.
      + exact Hd.
      + now rewrite <- slice_acked_packed.
  Qed.

  (* a budget covering everything pending is enough for the small messages ... *)
  Theorem prompt_small : forall id l,
    sr_mem s <= avail ->
    small_last s id = Some l -> is_due now (sr_resend s) l -> In (id, None) (parts_of pkts).
  Proof.
    intros id l Hge Hl Hd. pose proof run_facts as T.
    apply (tick_prompt_small T id l Hge); [|exact Hd]. now rewrite <- small_last_plast.
  Qed.

  (* ... and SLICE_SIZE more is enough for the slices as well *)
  Theorem prompt_all :
    sr_mem s + SLICE_SIZE <= avail ->
    (forall id l, small_last s id = Some l -> is_due now (sr_resend s) l -> In (id, None) (parts_of pkts)) /\
    (forall id idx l, slice_last s id idx = Some l -> is_due now (sr_resend s) l ->
                      slice_acked s id idx = Some false -> In (id, Some idx) (parts_of pkts)).
  Proof.
    intros Hge. apply prompt_if_budget_left.
    pose proof run_facts as T.
    pose proof (tf_bound T). lia.
  Qed.

  Theorem no_duplicates_in_tick : NoDup (parts_of pkts).
  Proof.
    exact (tf_nodup run_facts).
  Qed.

  Theorem acked_slice_not_resent : forall id idx,
    slice_acked s id idx = Some true -> ~ In (id, Some idx) (parts_of pkts).
  Proof.
    intros id idx Hk Hin. destruct (no_early_resend_slice id idx Hin) as (l & _ & _ & H). congruence.
  Qed.

  Theorem acked_message_not_resent : forall id p,
    kind_of s id = None -> ~ In (id, p) (parts_of pkts).
  Proof.
    intros id p Hk Hin. pose proof run_facts as T.
    destruct (tick_sent T id p Hin) as (l & H1 & _).
    unfold plast in H1. rewrite (kind_none_find _ _ Hk) in H1. discriminate.
  Qed.
End Timing.

Definition same_config (s s' : send_rel) : Prop :=
  sr_ch s' = sr_ch s /\ sr_resend s' = sr_resend s /\ sr_max s' = sr_max s.

Lemma same_config_set s us mem : same_config s (sr_set s us mem).
Proof. repeat split. Qed.

Lemma sr_send_config s m s' : sr_send s m = Ok s' -> same_config s s'.
Proof.
  unfold sr_send. destruct (sr_max s <? sr_mem s + len m); [discriminate|].
  intros [= <-]. repeat split.
Qed.

Lemma sr_ack_message_config s id s' : sr_ack_message s id = Ok s' -> same_config s s'.
Proof.
  unfold sr_ack_message. destruct (sm_find id (sr_unacked s)) as [[m l|]|]; try discriminate.
  - intros E. apply bind_ok in E. destruct E as (mem & _ & [= <-]). apply same_config_set.
  - intros [= <-]. repeat split.
Qed.

Lemma sr_ack_slice_config s id idx s' : sr_ack_slice s id idx = Ok s' -> same_config s s'.
Proof.
  unfold sr_ack_slice.
  destruct (sm_find id (sr_unacked s)) as [[|m num na nx ak ls]|]; try discriminate; [|intros [= <-]; repeat split].
  destruct (nth_opt ak (N.to_nat idx)) as [[|]|]; try discriminate; [intros [= <-]; repeat split|].
  destruct (na + 1 =? num); [intros E; apply bind_ok in E; destruct E as (mem & _ & [= <-])|intros [= <-]];
    apply same_config_set.
Qed.

Lemma sr_get_packets_config now s seq avail s' pkts seq' avail' :
  sr_inv now s -> sr_get_packets s seq avail now = Ok (s', pkts, seq', avail') -> same_config s s'.
Proof.
  intros Hinv E. rewrite (tf_frame (sr_get_packets_facts Hinv E)). apply same_config_set.
Qed.

Definition demo_state (n : nat) : send_rel :=
  match sr_send (send_rel_new 0 100 100000) (repeatN 7 n) with Ok s => s | _ => send_rel_new 0 0 0 end.

(* a single message of 1198 bytes with id 0 has entry size 1198 + 2 + 1 = 1201 > SLICE_SIZE:
   an EMPTY SmallReliable packet is emitted first, then the packet holding the message *)
Example empty_packet_quirk :
  match sr_get_packets (demo_state 1198) 0 60000 0 with
  | Ok (_, pkts, seq', _) =>
      pkts = [SmallReliable 0 0 []; SmallReliable 1 0 [(0, repeatN 7 1198)]] /\ seq' = 2
  | _ => False
  end.
Proof. vm_compute. split; reflexivity. Qed.

(* one byte less and the entry fits: a single packet *)
Example no_empty_packet_1197 :
  match sr_get_packets (demo_state 1197) 0 60000 0 with
  | Ok (_, pkts, seq', _) => pkts = [SmallReliable 0 0 [(0, repeatN 7 1197)]] /\ seq' = 1
  | _ => False
  end.
Proof. vm_compute. split; reflexivity. Qed.

(* promptness needs slack: one message of SLICE_SIZE + 1 bytes (slices of 1200 and 1 bytes), budget
   2399 = sr_mem + SLICE_SIZE - 2: the 1-byte slice is NOT sent because 1199 < SLICE_SIZE remain *)
Example slice_starvation :
  sr_mem (demo_state 1201) = 1201 /\
  match sr_get_packets (demo_state 1201) 0 2399 0 with
  | Ok (_, pkts, _, avail') => parts_of pkts = [(0, Some 0)] /\ avail' = 1199
  | _ => False
  end.
Proof. vm_compute. repeat split; reflexivity. Qed.

Example slice_no_starvation :
  match sr_get_packets (demo_state 1201) 0 2400 0 with
  | Ok (_, pkts, _, avail') => parts_of pkts = [(0, Some 0); (0, Some 1)] /\ avail' = 1199
  | _ => False
  end.
Proof. vm_compute. split; reflexivity. Qed.

Print Assumptions sr_inv_init.
Print Assumptions sr_inv_mono.
Print Assumptions sr_send_safe.
Print Assumptions sr_get_packets_safe.
Print Assumptions sr_get_packets_sizes.
Print Assumptions no_empty_packet.
Print Assumptions small_bodies_shape.
Print Assumptions empty_packet_iff.
Print Assumptions no_early_resend.
Print Assumptions no_early_resend_slice.
Print Assumptions transmission_stamps.
Print Assumptions transmission_stamps_slice.
Print Assumptions untransmitted_keep_stamp.
Print Assumptions untransmitted_keep_stamp_slice.
Print Assumptions acked_flags_kept.
Print Assumptions budget_consumed_le_pending.
Print Assumptions prompt_if_budget_left.
Print Assumptions prompt_small.
Print Assumptions prompt_all.
Print Assumptions no_duplicates_in_tick.
Print Assumptions sr_ack_message_safe.
Print Assumptions sr_ack_slice_safe.
Print Assumptions acked_slice_not_resent.
Print Assumptions acked_message_not_resent.
Print Assumptions drained_send.
Print Assumptions sr_available_ok.

(* RSysBaseP.v - helpers for the system-level proofs (RSysP.v): the application logs, stability
   of the honest-event executions under growth of the log, the symmetry A <-> B, monotonicity
   of the "was delivered" predicates.  From here on the projections of dinv (Spec/RSysInvSpec.v) other
   than di_usnd take its parameters implicitly. *)
From RenetV Require Import Base Consts Varint Packet Channels Conn.
From RenetV Require Import CodecSpec RecvSpec SendSpec ConnSpec ConnInvSpec RSysSpec RSysInvSpec.
From RenetV Require Import BaseP SMapP ConnBaseP ConnProcP ConnFlushP ConnP.
From RenetV Require RecvRelP.
Require Import Lia.
Open Scope N_scope.

Local Opaque SLICE_SIZE.

Arguments di_sender {ordf sr su seq recs rr ru acks oa ob sent got dlv} _.
Arguments di_out {ordf sr su seq recs rr ru acks oa ob sent got dlv} _.
Arguments di_receiver {ordf sr su seq recs rr ru acks oa ob sent got dlv} _.
Arguments di_acks {ordf sr su seq recs rr ru acks oa ob sent got dlv} _.
Arguments di_track {ordf sr su seq recs rr ru acks oa ob sent got dlv} _.
Arguments di_release {ordf sr su seq recs rr ru acks oa ob sent got dlv} _.
Arguments di_uout {ordf sr su seq recs rr ru acks oa ob sent got dlv} _.
Arguments di_urcv {ordf sr su seq recs rr ru acks oa ob sent got dlv} _.
Arguments di_got {ordf sr su seq recs rr ru acks oa ob sent got dlv} _.

Lemma log_get_add l ch m ch' :
  log_get (log_add l ch m) ch' = if ch' =? ch then log_get l ch' ++ [m] else log_get l ch'.
Proof.
  rewrite (N.eqb_sym ch' ch). induction l as [|[c ms] t IH]; cbn [log_add log_get].
  - destruct (ch =? ch'); reflexivity.
  - destruct (N.eqb_spec c ch) as [->|Hne]; cbn [log_get].
    + destruct (ch =? ch'); reflexivity.
    + destruct (N.eqb_spec c ch') as [->|Hne']; [|exact IH].
      destruct (N.eqb_spec ch ch'); [congruence|reflexivity].
Qed.

Lemma log_get_add_same l ch m : log_get (log_add l ch m) ch = log_get l ch ++ [m].
Proof. rewrite log_get_add, N.eqb_refl. reflexivity. Qed.

Lemma log_get_add_other l ch m ch' : ch' <> ch -> log_get (log_add l ch m) ch' = log_get l ch'.
Proof. intros H. rewrite log_get_add. destruct (N.eqb_spec ch' ch); [congruence|reflexivity]. Qed.

Definition log_ext (l l' : chan_log) : Prop := forall ch, exists more, log_get l' ch = log_get l ch ++ more.

Lemma log_ext_refl l : log_ext l l.
Proof. intros ch. exists []. now rewrite app_nil_r. Qed.

Lemma log_ext_add l ch m : log_ext l (log_add l ch m).
Proof.
  intros ch'. rewrite log_get_add. destruct (ch' =? ch); [exists [m]|exists []; rewrite app_nil_r]; reflexivity.
Qed.

Lemma small_ok_app l l' im : small_ok l im -> small_ok (l ++ l') im.
Proof. intros [A B]. split; [now apply RecvRelP.msg_at_app|exact B]. Qed.

Lemma slice_ok_app l l' sl : slice_ok l sl -> slice_ok (l ++ l') sl.
Proof. intros (m & A & B). exists m. split; [now apply RecvRelP.msg_at_app|exact B]. Qed.

Lemma uslice_ok_app l l' sl : uslice_ok l sl -> uslice_ok (l ++ l') sl.
Proof. intros (m & A & B). exists m. split; [apply in_or_app; now left|exact B]. Qed.

Lemma pkt_honest_ext sent sent' p : log_ext sent sent' -> pkt_honest sent p -> pkt_honest sent' p.
Proof.
  intros He. destruct p as [sq ch ms|sq ch ms|sq ch sl|sq ch sl|sq rs]; cbn [pkt_honest]; auto;
    destruct (He ch) as (more & ->).
  - intros H. eapply Forall_impl; [|exact H]. intros im. apply small_ok_app.
  - intros H. eapply Forall_impl; [|exact H]. intros m Hm. apply in_or_app. now left.
  - apply slice_ok_app.
  - apply uslice_ok_app.
Qed.

Lemma out_ok_ext out sent sent' : log_ext sent sent' -> out_ok out sent -> out_ok out sent'.
Proof. intros He H bytes p Hin Hp. eapply pkt_honest_ext; eauto. Qed.

Lemma rev_ok_app sent more e : rev_ok sent e -> rev_ok (sent ++ more) e.
Proof.
  destruct e as [id|id idx|]; cbn [rev_ok]; auto.
  - intros (m & A & B). exists m. split; [now apply RecvRelP.msg_at_app|exact B].
  - intros (m & A & B). exists m. split; [now apply RecvRelP.msg_at_app|exact B].
Qed.

Lemma rr_step_sent_app sent more r e : rev_ok sent e -> rr_step (sent ++ more) r e = rr_step sent r e.
Proof.
  destruct e as [id|id idx|]; cbn [rev_ok rr_step]; auto.
  - intros (m & A & _). now rewrite (RecvRelP.msg_at_app _ more _ _ A), A.
  - intros (m & A & _). now rewrite (RecvRelP.msg_at_app _ more _ _ A), A.
Qed.

Lemma rr_exec_sent_app sent more evs : Forall (rev_ok sent) evs ->
  forall r outs, rr_exec (sent ++ more) r evs outs = rr_exec sent r evs outs.
Proof.
  induction 1 as [|e t He _ IH]; intros r outs; cbn [rr_exec]; [reflexivity|].
  rewrite (rr_step_sent_app sent more r e He).
  destruct (rr_step sent r e) as [[r' o]| |]; [apply IH|reflexivity|reflexivity].
Qed.

Lemma rr_exec_app sent evs1 evs2 : forall r outs r1 outs1,
  rr_exec sent r evs1 outs = (r1, outs1, false) ->
  rr_exec sent r (evs1 ++ evs2) outs = rr_exec sent r1 evs2 outs1.
Proof.
  induction evs1 as [|e t IH]; intros r outs r1 outs1 E; cbn [rr_exec app] in *.
  - injection E as <- <-. reflexivity.
  - destruct (rr_step sent r e) as [[r' o]| |]; [eauto|discriminate|discriminate].
Qed.

Lemma rr_refines_app sent more got o r : rr_refines sent got o r -> rr_refines (sent ++ more) got o r.
Proof.
  intros (max & evs & outs & F & E & G). exists max, evs, outs.
  split; [eapply Forall_impl; [|exact F]; intros e; apply rev_ok_app|].
  split; [rewrite rr_exec_sent_app by exact F; exact E|exact G].
Qed.

Lemma rr_refines_ext sent got o r evs2 r' outs2 :
  rr_refines sent got o r -> Forall (rev_ok sent) evs2 ->
  (forall outs, rr_exec sent r evs2 outs = (r', outs ++ outs2, false)) ->
  rr_refines sent (got ++ map snd outs2) o r'.
Proof.
  intros (max & evs & outs & F & E & G) F2 E2. exists max, (evs ++ evs2), (outs ++ outs2).
  split; [apply Forall_app; auto|].
  split; [rewrite (rr_exec_app _ _ _ _ _ _ _ E); apply E2|].
  rewrite map_app, G. reflexivity.
Qed.

Lemma rr_refines_ext0 sent got o r evs2 r' :
  rr_refines sent got o r -> Forall (rev_ok sent) evs2 ->
  (forall outs, rr_exec sent r evs2 outs = (r', outs, false)) ->
  rr_refines sent got o r'.
Proof.
  intros H F E. rewrite <- (app_nil_r got). change (@nil (list N)) with (map snd (@nil (N * list N))).
  eapply rr_refines_ext; eauto. intros outs. rewrite app_nil_r. apply E.
Qed.

Lemma process_rel_msgs_exec sent ms : forall r r' outs,
  Forall (small_ok sent) ms -> process_rel_msgs r ms = Ok r' ->
  rr_exec sent r (map (fun im => RSmall (fst im)) ms) outs = (r', outs, false).
Proof.
  induction ms as [|[id m] t IH]; intros r r' outs F E; cbn [process_rel_msgs map rr_exec] in *.
  - injection E as <-. reflexivity.
  - inversion F as [|? ? [Hat _] Ft]; subst. cbn [fst snd] in *.
    cbn [rr_step]. rewrite Hat.
    destruct (rr_process_message r m id) as [r1| |]; cbn [bind] in *; try discriminate.
    now apply IH.
Qed.

Lemma small_events_ok sent ms : Forall (small_ok sent) ms -> Forall (rev_ok sent) (map (fun im => RSmall (fst im)) ms).
Proof.
  intros F. apply Forall_map. eapply Forall_impl; [|exact F].
  intros [id m] [A B]. cbn [fst snd rev_ok] in *. eauto.
Qed.

Lemma process_slice_exec sent sl r r' outs :
  slice_ok sent sl -> rr_process_slice r sl = Ok r' ->
  rr_exec sent r [RSlice (sl_id sl) (sl_index sl)] outs = (r', outs, false).
Proof. intros (m & Hat & Hlen & Hsl & Hidx) E. cbn [rr_exec rr_step]. rewrite Hat, <- Hsl, E. reflexivity. Qed.

Lemma slice_event_ok sent sl : slice_ok sent sl -> rev_ok sent (RSlice (sl_id sl) (sl_index sl)).
Proof. intros (m & Hat & Hlen & Hsl & Hidx). cbn [rev_ok]. eauto. Qed.

Lemma rr_receive_exec sent r r' mo :
  rr_receive r = Ok (r', mo) ->
  exists outs2, (forall outs, rr_exec sent r [RRecv] outs = (r', outs ++ outs2, false)) /\
                map snd outs2 = match mo with Some m => [m] | None => [] end.
Proof.
  intros E. cbn [rr_exec rr_step]. rewrite E. cbn [bind].
  destruct mo as [m|].
  - destruct (RecvRelP.rr_receive_next_id _ _ _ E) as (id & ->). exists [(id, m)]. split; reflexivity.
  - exists []. split; [intros outs; now rewrite app_nil_r|reflexivity].
Qed.

Lemma rr_refines_outs sent got o r : rr_refines sent got o r -> Forall (fun m => In m sent) got.
Proof.
  intros (max & evs & outs & F & E & <-).
  destruct (RecvRelP.exec_from_init sent max o evs r outs false F E) as (H & _).
  pose proof (RecvRelP.hc_outs_ok _ _ _ H) as Hok. unfold RecvRelP.outs_ok in Hok.
  apply Forall_map. eapply Forall_impl; [|exact Hok]. intros [id m] Hat. cbn [fst snd] in *.
  eapply RecvRelP.msg_at_in; eauto.
Qed.

Lemma flip_flip s : flip (flip s) = s.
Proof. destruct s; reflexivity. Qed.

Lemma flip_op_flip o : flip_op (flip_op o) = o.
Proof. destruct o as [[] ?|[] ?]; reflexivity. Qed.

Lemma sys_step_flip_ok s o s' : sys_step s o = Ok s' -> sys_step (flip s) (flip_op o) = Ok (flip s').
Proof.
  destruct o as [x op|x i].
  - cbn [flip_op sys_step]. destruct (is_process op); [now intros [= <-]|].
    destruct x; cbn [flip_side conn_of flip ra rb];
      (destruct (cstep _ op) as [[c' out]| |]; cbn [bind]; [now intros [= <-]|discriminate..]).
  - destruct x; cbn [flip_op flip_side sys_step flip out_a out_b ra rb].
    + destruct (nth_error (out_b s) i) as [bytes|]; [|now intros [= <-]].
      destruct (process_packet (ra s) bytes) as [c'| |]; [now intros [= <-]|discriminate..].
    + destruct (nth_error (out_a s) i) as [bytes|]; [|now intros [= <-]].
      destruct (process_packet (rb s) bytes) as [c'| |]; [now intros [= <-]|discriminate..].
Qed.

Lemma delivered_mono oa oa' dlv dlv' x :
  delivered oa dlv x -> delivered (oa ++ oa') (dlv ++ dlv') x.
Proof.
  intros (i & bytes & p & A & B & C & D). exists i, bytes, p.
  split; [apply in_or_app; now left|]. split; [now apply nth_error_app_some|auto].
Qed.

Lemma part_delivered_mono oa oa' dlv dlv' ch id part :
  part_delivered oa dlv ch id part -> part_delivered (oa ++ oa') (dlv ++ dlv') ch id part.
Proof.
  intros (i & bytes & A & B & C). exists i, bytes.
  split; [apply in_or_app; now left|]. split; [now apply nth_error_app_some|exact C].
Qed.

Lemma all_delivered_mono oa oa' dlv dlv' ch id m :
  all_delivered oa dlv ch id m -> all_delivered (oa ++ oa') (dlv ++ dlv') ch id m.
Proof.
  unfold all_delivered. destruct (len m <=? SLICE_SIZE).
  - apply part_delivered_mono.
  - intros H idx Hidx. apply part_delivered_mono. auto.
Qed.

Lemma log_ext_in l l' ch m : log_ext l l' -> In m (log_get l ch) -> In m (log_get l' ch).
Proof. intros H Hin. destruct (H ch) as (more & ->). apply in_or_app. now left. Qed.

Lemma receiver_ok_ext ordf rr sent sent' got :
  log_ext sent sent' -> receiver_ok ordf rr sent got -> receiver_ok ordf rr sent' got.
Proof.
  intros He H ch. specialize (H ch). destruct (sm_find ch rr) as [r|]; [|exact H].
  destruct H as (o & Ho & Hr). exists o. split; [exact Ho|].
  destruct (He ch) as (more & ->). now apply rr_refines_app.
Qed.

Lemma acks_ok_mono acks ob oa dlv oa' dlv' :
  acks_ok acks ob oa dlv -> acks_ok acks ob (oa ++ oa') (dlv ++ dlv').
Proof.
  intros [A B]. split.
  - intros x Hx. apply delivered_mono. auto.
  - intros bytes sq rs Hin Hp x Hx. apply delivered_mono. eauto.
Qed.

Lemma track_ok_sub oa seq seq' recs recs' :
  (forall k v, sm_find k recs' = Some v -> sm_find k recs = Some v) -> seq <= seq' ->
  track_ok oa seq recs -> track_ok oa seq' recs'.
Proof.
  intros Hsub Hle H bytes p Hin Hp. destruct (H bytes p Hin Hp) as [A B].
  split; [lia|]. intros t info Hf. apply B with t. now apply Hsub.
Qed.

Lemma release_ok_mono sr sent oa dlv oa' dlv' :
  release_ok sr sent oa dlv -> release_ok sr sent (oa ++ oa') (dlv ++ dlv').
Proof.
  intros H ch sa Hs id m Hat. destruct (H ch sa Hs id m Hat) as [A B]. split.
  - intros Hk. apply all_delivered_mono. auto.
  - intros idx Hidx. apply part_delivered_mono. auto.
Qed.

Lemma unrel_snd_ok_ext su oa sent sent' : log_ext sent sent' -> unrel_snd_ok su oa sent -> unrel_snd_ok su oa sent'.
Proof.
  intros He H ch s Hs. destruct (H ch s Hs) as [A B]. split; [|exact B].
  eapply Forall_impl; [|exact A]. intros m. now apply log_ext_in.
Qed.

Lemma unrel_out_ok_ext oa sent sent' : log_ext sent sent' -> unrel_out_ok oa sent -> unrel_out_ok oa sent'.
Proof.
  intros He H bytes sq ch sl Hin Hp. destruct (H bytes sq ch sl Hin Hp) as (m & A & B).
  exists m. split; [now apply (log_ext_in _ _ _ _ He)|exact B].
Qed.

Lemma unrel_rcv_ok_ext ru oa sent sent' : log_ext sent sent' -> unrel_rcv_ok ru oa sent -> unrel_rcv_ok ru oa sent'.
Proof.
  intros He H ch r Hr. destruct (H ch r Hr) as [A B]. split.
  - eapply Forall_impl; [|exact A]. intros m. now apply log_ext_in.
  - intros sid c Hc. destruct (B sid c Hc) as (m & C & D). exists m.
    split; [now apply (log_ext_in _ _ _ _ He)|exact D].
Qed.

Lemma got_ok_ext sent sent' got : log_ext sent sent' -> got_ok sent got -> got_ok sent' got.
Proof. intros He H ch m Hin. eapply log_ext_in; eauto. Qed.

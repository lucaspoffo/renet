(* RSysP.v - the two-endpoint system (Spec/RSysSpec.v): the system invariant holds after every
   run, whatever the network loses, duplicates, delays or reorders and however the calls of the
   two applications interleave; the end-to-end theorems C01 (ordered prefix), C02 (unordered,
   exactly once), C03 (unreliable: only submitted messages), C08 (release implies delivered,
   acknowledged only if received) are read off the invariant. *)
From RenetV Require Import Base Consts Varint Packet Channels Conn.
From RenetV Require Import CodecSpec RecvSpec SendSpec ConnSpec ConnInvSpec RSysSpec RSysInvSpec.
From RenetV Require Import RMultSpec(msg_eq_dec, occ).
From RenetV Require Import BaseP RunP SMapP ConnBaseP ConnProcP ConnFlushP ConnP RSysBaseP RSysStepP RSysInvP.
From RenetV Require RecvRelP.
Require Import Lia.
Open Scope N_scope.

Local Opaque SLICE_SIZE MAX_ACK_RANGES SER_BUFFER NC_MAX_PAYLOAD_BYTES DISCARD_PACKET_SECS VARINT_MAX MAX_NUM_SLICES.

Lemma sys_inv_dirs cfg_ab cfg_ba s :
  sys_inv cfg_ab cfg_ba s <-> dir_ok (ordf_of cfg_ab) (dir_ab s) /\ dir_ok (ordf_of cfg_ba) (dir_ab (flip s)).
Proof.
  split.
  - intros ([A B C D E F] & D1 & D2). split; constructor; assumption.
  - intros [[A B C D E F D1] [_ _ _ _ _ _ D2]]. split; [constructor; assumption|split; assumption].
Qed.

Lemma sys_inv_flip cfg_ab cfg_ba s : sys_inv cfg_ab cfg_ba s -> sys_inv cfg_ba cfg_ab (flip s).
Proof. rewrite !sys_inv_dirs, flip_flip. tauto. Qed.

Lemma sys_inv_step cfg_ab cfg_ba s o s' :
  sys_inv cfg_ab cfg_ba s -> sys_step s o = Ok s' -> sys_inv cfg_ab cfg_ba s'.
Proof.
  rewrite !sys_inv_dirs. intros [Oa Ob] E. destruct (sys_step_dir s o s' E) as [Sa Sb].
  split; eapply dir_ok_step; eauto.
Qed.

Lemma sys_run_both (Q : dir -> Prop) :
  (forall ordf d d', dir_ok ordf d -> dstep d d' -> Q d -> Q d') ->
  forall cfg_ab cfg_ba ops s s', sys_inv cfg_ab cfg_ba s -> sys_run s ops = Ok s' ->
    Q (dir_ab s) /\ Q (dir_ab (flip s)) -> Q (dir_ab s') /\ Q (dir_ab (flip s')).
Proof.
  intros Hstep cfg_ab cfg_ba ops s s' Hs E HQ.
  refine (steps_inv_under sys_step _ (fun s => Q (dir_ab s) /\ Q (dir_ab (flip s))) (sys_inv_step cfg_ab cfg_ba) _
            ops s s' Hs HQ E).
  clear - Hstep. intros s o s' Hs [Qa Qb] E. apply sys_inv_dirs in Hs. destruct Hs as [Oa Ob].
  destruct (sys_step_dir s o s' E) as [Sa Sb]. split; eauto.
Qed.

Definition sr_fresh (e : N * send_rel) : Prop := sr_next_id (snd e) = 0 /\ sr_unacked (snd e) = [].
Definition su_fresh (e : N * send_unrel) : Prop := su_queue (snd e) = [].
Definition ru_fresh (e : N * recv_unrel) : Prop := ru_messages (snd e) = [] /\ ru_slices (snd e) = [].

Lemma build_send_fresh cfgs : forall su sr ord su' sr' ord',
  build_send cfgs su sr ord = Ok (su', sr', ord') -> cfg_u8 cfgs ->
  Forall su_fresh su -> Forall sr_fresh sr ->
  (forall ch, sm_mem ch sr = true \/ sm_mem ch su = true -> ch < 256) ->
  Forall su_fresh su' /\ Forall sr_fresh sr' /\
  (forall ch, sm_mem ch sr' = true \/ sm_mem ch su' = true -> ch < 256).
Proof.
  induction cfgs as [|cfg t IH]; intros su sr ord su' sr' ord' E Hu8 Fsu Fsr Hlt.
  - cbn [build_send] in E. injection E as <- <- <-. auto.
  - inversion Hu8 as [|? ? Hid Hu8']; subst. rewrite build_send_cons in E. destruct (cc_rel cfg) as [rt|].
    + destruct (sm_mem (cc_id cfg) sr); [discriminate|].
      eapply IH; [exact E|exact Hu8'|exact Fsu| |].
      * apply Forall_sm_insert; [split; reflexivity|exact Fsr].
      * intros ch. rewrite sm_mem_insert. destruct (N.eqb_spec ch (cc_id cfg)) as [->|Hne]; [auto|].
        cbn [orb]. apply Hlt.
    + destruct (sm_mem (cc_id cfg) su); [discriminate|].
      eapply IH; [exact E|exact Hu8'| |exact Fsr|].
      * apply Forall_sm_insert; [reflexivity|exact Fsu].
      * intros ch. rewrite sm_mem_insert. destruct (N.eqb_spec ch (cc_id cfg)) as [->|Hne]; [auto|].
        cbn [orb]. apply Hlt.
Qed.

Lemma ordf_of_cons cfg t ch :
  ordf_of (cfg :: t) ch =
  if cc_id cfg =? ch then match cc_ord cfg with Some o => Some o | None => ordf_of t ch end else ordf_of t ch.
Proof.
  unfold ordf_of, is_rel_cfg, cc_ord. cbn [find]. destruct (cc_id cfg =? ch); [|reflexivity].
  destruct (cc_type cfg) eqn:Et; cbn [andb]; cbv beta iota; rewrite ?Et; reflexivity.
Qed.

Lemma build_recv_fresh cfgs : forall ru rr ru' rr',
  build_recv cfgs ru rr = Ok (ru', rr') -> Forall ru_fresh ru ->
  Forall ru_fresh ru' /\
  forall ch, match sm_find ch rr' with
             | Some r => sm_find ch rr = Some r \/
                         (sm_find ch rr = None /\ exists max o, ordf_of cfgs ch = Some o /\ r = recv_rel_new max o)
             | None => sm_find ch rr = None /\ ordf_of cfgs ch = None
             end.
Proof.
  induction cfgs as [|cfg t IH]; intros ru rr ru' rr' E Fru.
  - cbn [build_recv] in E. injection E as <- <-. split; [exact Fru|]. intros ch. destruct (sm_find ch rr); auto.
  - rewrite build_recv_cons in E. destruct (cc_ord cfg) as [o|] eqn:Eo.
    + destruct (sm_mem (cc_id cfg) rr) eqn:Hm; [discriminate|].
      destruct (IH _ _ _ _ E Fru) as [A B]. split; [exact A|].
      intros ch. specialize (B ch). rewrite sm_find_insert in B. rewrite ordf_of_cons, Eo.
      destruct (N.eqb_spec ch (cc_id cfg)) as [Heq|Hne]; [subst ch|].
      * rewrite N.eqb_refl. apply sm_find_none_mem in Hm.
        destruct (sm_find (cc_id cfg) rr') as [r|].
        -- destruct B as [[= <-]|[[=] _]]. right. split; [exact Hm|]. eauto.
        -- destruct B as [[=] _].
      * destruct (N.eqb_spec (cc_id cfg) ch); [congruence|]. exact B.
    + destruct (sm_mem (cc_id cfg) ru); [discriminate|].
      destruct (IH _ _ _ _ E) as [A B]; [apply Forall_sm_insert; [split; reflexivity|exact Fru]|].
      split; [exact A|]. intros ch. specialize (B ch). rewrite ordf_of_cons, Eo. destruct (cc_id cfg =? ch); exact B.
Qed.

Set Implicit Arguments.
Record conn_fresh (rcfg : list chan_config) (c : conn) : Prop := {
  cf_inv : conn_inv c;
  cf_u8 : chans_u8 c;
  cf_sr : Forall sr_fresh (c_sr c);
  cf_su : Forall su_fresh (c_su c);
  cf_ru : Forall ru_fresh (c_ru c);
  cf_rr : forall ch, match sm_find ch (c_rr c) with
                     | Some r => exists max o, ordf_of rcfg ch = Some o /\ r = recv_rel_new max o
                     | None => ordf_of rcfg ch = None
                     end;
  cf_acks : c_acks c = [];
  cf_sent : c_sent c = [] }.
Unset Implicit Arguments.

Lemma conn_new_cf budget scfg rcfg c : conn_new budget scfg rcfg = Ok c -> cfg_u8 scfg -> conn_fresh rcfg c.
Proof.
  intros E Hu8. pose proof (conn_new_cases budget scfg rcfg) as Hc. rewrite E in Hc.
  destruct Hc as (Hi & _ & _ & Hsent & Hacks & _).
  unfold conn_new in E.
  destruct (build_send scfg [] [] []) as [[[su sr] ord]| |] eqn:Es; cbn [bind] in E; try discriminate.
  destruct (build_recv rcfg [] []) as [[ru rr]| |] eqn:Er; cbn [bind] in E; try discriminate.
  injection E as <-. cbn [c_sr c_su c_ru c_rr c_acks c_sent] in *.
  destruct (build_send_fresh _ _ _ _ _ _ _ Es Hu8 (Forall_nil _) (Forall_nil _)) as (A1 & A2 & A3).
  { intros ch [H|H]; discriminate. }
  destruct (build_recv_fresh _ _ _ _ _ Er (Forall_nil _)) as (B1 & B2).
  constructor; cbn [c_sr c_su c_ru c_rr c_acks c_sent]; auto.
  intros ch. specialize (B2 ch). destruct (sm_find ch rr) as [r|].
  - destruct B2 as [[=]|[_ H]]. exact H.
  - tauto.
Qed.

Lemma dinv_init ca cb a b : conn_fresh ca a -> conn_fresh cb b ->
  dinv (ordf_of cb) (c_sr a) (c_su a) (c_seq a) (c_sent a) (c_rr b) (c_ru b) (c_acks b) [] [] [] [] [].
Proof.
  intros Fa Fb. constructor.
  - intros ch sa Hs. destruct (Forall_sm_find _ _ _ _ (cf_sr Fa) Hs) as [A B]. cbn [snd] in A, B.
    split; [exact A|]. rewrite B. intros id u [=].
  - intros b0 p [].
  - intros ch. pose proof (cf_rr Fb ch) as Hrr. destruct (sm_find ch (c_rr b)) as [r|]; [|exact Hrr].
    destruct Hrr as (max & o & Ho & ->). exists o. split; [exact Ho|].
    exists max, [], []. split; [constructor|]. split; reflexivity.
  - rewrite (cf_acks Fb). split; [intros x []|intros b0 sq rs []].
  - intros b0 p [].
  - intros ch sa Hs id m Hat. cbn [log_get] in Hat. unfold msg_at in Hat. destruct (N.to_nat id); discriminate.
  - intros ch s Hs. pose proof (Forall_sm_find _ _ _ _ (cf_su Fa) Hs) as A. unfold su_fresh in A. cbn [snd] in A.
    rewrite A. split; [constructor|intros b0 sq sl []].
  - intros b0 sq ch sl [].
  - intros ch r Hr. destruct (Forall_sm_find _ _ _ _ (cf_ru Fb) Hr) as [A B]. cbn [snd] in A, B.
    rewrite A, B. split; [constructor|intros sid c0 [=]].
  - intros ch m [].
Qed.

Lemma sys_init_ok ba bb cfg_ab cfg_ba s0 : sys_init ba bb cfg_ab cfg_ba = Ok s0 ->
  exists a b, conn_new ba cfg_ab cfg_ba = Ok a /\ conn_new bb cfg_ba cfg_ab = Ok b /\
    s0 = {| ra := a; rb := b; out_a := []; out_b := []; sent_a := []; sent_b := []; got_a := []; got_b := [];
            dlv_a := []; dlv_b := [] |}.
Proof.
  unfold sys_init. intros E. apply bind_ok in E. destruct E as (a & Ea & E).
  apply bind_ok in E. destruct E as (b & Eb & [= <-]). eauto.
Qed.

Lemma sys_init_inv ba bb cfg_ab cfg_ba s0 :
  cfg_u8 cfg_ab -> cfg_u8 cfg_ba -> sys_init ba bb cfg_ab cfg_ba = Ok s0 -> sys_inv cfg_ab cfg_ba s0.
Proof.
  intros Hab Hba E. destruct (sys_init_ok _ _ _ _ _ E) as (a & b & Ea & Eb & ->).
  pose proof (conn_new_cf _ _ _ _ Ea Hab) as Fa. pose proof (conn_new_cf _ _ _ _ Eb Hba) as Fb.
  split.
  { constructor; cbn [ra rb out_a out_b];
      [exact (cf_inv Fa)|exact (cf_inv Fb)|exact (cf_u8 Fa)|exact (cf_u8 Fb)|apply out_wf_nil..]. }
  split; unfold dir_inv; cbn [flip ra rb out_a out_b sent_a got_b dlv_b sent_b got_a dlv_a]; eapply dinv_init; eauto.
Qed.

Lemma run_inv ba bb cfg_ab cfg_ba s0 s ops :
  cfg_u8 cfg_ab -> cfg_u8 cfg_ba -> sys_init ba bb cfg_ab cfg_ba = Ok s0 -> sys_run s0 ops = Ok s ->
  sys_inv cfg_ab cfg_ba s.
Proof.
  intros Hab Hba Hinit Hrun.
  apply (steps_inv sys_step _ (sys_inv_step cfg_ab cfg_ba) ops s0 s); [eapply sys_init_inv; eauto|exact Hrun].
Qed.

Lemma run_inv_ba ba bb cfg_ab cfg_ba s0 s ops :
  cfg_u8 cfg_ab -> cfg_u8 cfg_ba -> sys_init ba bb cfg_ab cfg_ba = Ok s0 -> sys_run s0 ops = Ok s ->
  sys_inv cfg_ba cfg_ab (flip s).
Proof. intros Hab Hba Hinit Hrun. apply sys_inv_flip. eapply run_inv; eauto. Qed.

Lemma chan_kind_ordf cfg_ab ch ty : chan_kind cfg_ab ch = Some ty -> ty <> TUnreliable ->
  ordf_of cfg_ab ch = Some (match ty with TReliableOrdered _ => true | _ => false end).
Proof.
  unfold chan_kind. induction cfg_ab as [|cfg t IH]; cbn [find]; [discriminate|].
  rewrite ordf_of_cons. destruct (N.eqb_spec (cc_id cfg) ch) as [_|Hne].
  - intros [= <-] Hty. unfold cc_ord. destruct (cc_type cfg); [contradiction|reflexivity|reflexivity].
  - exact IH.
Qed.

Section Inv.
  Variables (cfg_ab cfg_ba : list chan_config) (s : rsys).
  Hypothesis Hinv : sys_inv cfg_ab cfg_ba s.

  Let D : dir_inv (ordf_of cfg_ab) s := proj1 (proj2 Hinv).

  Lemma rel_channel_refined ch ty : chan_kind cfg_ab ch = Some ty -> ty <> TUnreliable ->
    exists r, sm_find ch (c_rr (rb s)) = Some r /\
      rr_refines (log_get (sent_a s) ch) (log_get (got_b s) ch)
                 (match ty with TReliableOrdered _ => true | _ => false end) r.
  Proof.
    intros Hk Hty. pose proof (chan_kind_ordf cfg_ab ch ty Hk Hty) as Ho.
    pose proof (di_receiver D ch) as D3.
    destruct (sm_find ch (c_rr (rb s))) as [r|]; [|congruence].
    destruct D3 as (o & Ho' & Hre). exists r. split; [reflexivity|]. congruence.
  Qed.

  (* C01 *)
  Theorem inv_ordered_prefix : forall ch resend,
    chan_kind cfg_ab ch = Some (TReliableOrdered resend) ->
    exists k, log_get (got_b s) ch = firstn k (log_get (sent_a s) ch).
  Proof.
    intros ch resend Hk. destruct (rel_channel_refined ch _ Hk ltac:(discriminate)) as (r & _ & max & evs & outs & F & E & G).
    destruct (RecvRelP.ordered_prefix _ max evs r outs false F E) as [H _].
    exists (length outs). congruence.
  Qed.

  (* C02 *)
  Theorem inv_unordered_exactly_once : forall ch resend,
    chan_kind cfg_ab ch = Some (TReliableUnordered resend) ->
    exists ids, NoDup ids /\
      log_get (got_b s) ch = map (fun id => nth (N.to_nat id) (log_get (sent_a s) ch) []) ids /\
      Forall (fun id => id < len (log_get (sent_a s) ch)) ids.
  Proof.
    intros ch resend Hk. destruct (rel_channel_refined ch _ Hk ltac:(discriminate)) as (r & _ & max & evs & outs & F & E & G).
    destruct (RecvRelP.unordered_exactly_once _ max evs r outs false F E) as [Hnd Hok].
    exists (map fst outs). split; [exact Hnd|]. split.
    - rewrite <- G, map_map. apply map_ext_in. intros [id m] Hin. rewrite Forall_forall in Hok.
      specialize (Hok _ Hin). cbn [fst snd] in *. unfold msg_at in Hok. symmetry. now apply nth_error_nth.
    - apply Forall_map. eapply Forall_impl; [|exact Hok]. intros [id m] Hat. cbn [fst snd] in *.
      eapply RecvRelP.msg_at_lt; eauto.
  Qed.
End Inv.

(* sysop_ok (the calls name configured channels) is not used by any of the proofs: on a live connection
   a call naming an unknown channel panics, so that sys_run does not return Ok, and on a disconnected
   one it returns Ok and changes nothing; cfg_u8 is needed, see channel_ids_must_be_u8 below *)

Theorem sys_inv_holds : forall ba bb cfg_ab cfg_ba s0 ops s,
  cfg_u8 cfg_ab -> cfg_u8 cfg_ba ->
  sys_init ba bb cfg_ab cfg_ba = Ok s0 -> sys_run s0 ops = Ok s -> Forall (sysop_ok cfg_ab cfg_ba) ops ->
  sys_inv cfg_ab cfg_ba s.
Proof. intros ba bb cfg_ab cfg_ba s0 ops s Hab Hba Hinit Hrun _. exact (run_inv ba bb cfg_ab cfg_ba s0 s ops Hab Hba Hinit Hrun). Qed.

(* the invariant, spelled out for the direction A -> B: sender consistency, every packet A ever
   emitted carries logged messages only, receiver refinement *)
Theorem sys_invariant : forall ba bb cfg_ab cfg_ba s0 ops s,
  cfg_u8 cfg_ab -> cfg_u8 cfg_ba ->
  sys_init ba bb cfg_ab cfg_ba = Ok s0 -> sys_run s0 ops = Ok s -> Forall (sysop_ok cfg_ab cfg_ba) ops ->
  conn_inv (ra s) /\ conn_inv (rb s) /\
  (forall ch sa, sm_find ch (c_sr (ra s)) = Some sa ->
     sr_next_id sa = len (log_get (sent_a s) ch) /\
     forall id u, sm_find id (sr_unacked sa) = Some u ->
                  msg_at (log_get (sent_a s) ch) id = Some (unacked_msg u)) /\
  (forall bytes sq ch ms, In bytes (out_a s) -> from_bytes bytes = Ok (SmallReliable sq ch ms) ->
     Forall (fun im => msg_at (log_get (sent_a s) ch) (fst im) = Some (snd im) /\ len (snd im) <= SLICE_SIZE) ms) /\
  (forall bytes sq ch sl, In bytes (out_a s) -> from_bytes bytes = Ok (ReliableSlice sq ch sl) ->
     exists m, msg_at (log_get (sent_a s) ch) (sl_id sl) = Some m /\ SLICE_SIZE < len m /\
               sl = slice_of m (sl_id sl) (sl_index sl) /\ sl_index sl < num_slices_of m) /\
  (forall ch r, sm_find ch (c_rr (rb s)) = Some r ->
     exists o max evs outs,
       ordf_of cfg_ab ch = Some o /\
       Forall (rev_ok (log_get (sent_a s) ch)) evs /\
       rr_exec (log_get (sent_a s) ch) (recv_rel_new max o) evs [] = (r, outs, false) /\
       map snd outs = log_get (got_b s) ch).
Proof.
  intros ba bb cfg_ab cfg_ba s0 ops s Hab Hba Hinit Hrun _.
  destruct (run_inv ba bb cfg_ab cfg_ba s0 s ops Hab Hba Hinit Hrun)
    as ([Ha Hb _ _ _ _] & [D1 D2 D3 _ _ _ _ _ _ _] & _).
  split; [exact Ha|]. split; [exact Hb|]. split; [exact D1|]. split; [|split].
  - intros bytes sq ch ms Hin Hp. exact (D2 bytes _ Hin Hp).
  - intros bytes sq ch sl Hin Hp. exact (D2 bytes _ Hin Hp).
  - intros ch r Hr. specialize (D3 ch). rewrite Hr in D3.
    destruct D3 as (o & Ho & max & evs & outs & A & B & C). exists o, max, evs, outs. auto.
Qed.

(* C01 *)
Theorem sys_ordered_prefix : forall ba bb cfg_ab cfg_ba s0 ops s,
  cfg_u8 cfg_ab -> cfg_u8 cfg_ba ->
  sys_init ba bb cfg_ab cfg_ba = Ok s0 -> sys_run s0 ops = Ok s -> Forall (sysop_ok cfg_ab cfg_ba) ops ->
  forall ch resend, chan_kind cfg_ab ch = Some (TReliableOrdered resend) ->
  exists k, log_get (got_b s) ch = firstn k (log_get (sent_a s) ch).
Proof. intros ba bb cfg_ab cfg_ba s0 ops s Hab Hba Hinit Hrun _. exact (inv_ordered_prefix _ _ _ (run_inv ba bb cfg_ab cfg_ba s0 s ops Hab Hba Hinit Hrun)). Qed.

(* C02 *)
Theorem sys_unordered_exactly_once : forall ba bb cfg_ab cfg_ba s0 ops s,
  cfg_u8 cfg_ab -> cfg_u8 cfg_ba ->
  sys_init ba bb cfg_ab cfg_ba = Ok s0 -> sys_run s0 ops = Ok s -> Forall (sysop_ok cfg_ab cfg_ba) ops ->
  forall ch resend, chan_kind cfg_ab ch = Some (TReliableUnordered resend) ->
  exists ids, NoDup ids /\
    log_get (got_b s) ch = map (fun id => nth (N.to_nat id) (log_get (sent_a s) ch) []) ids /\
    Forall (fun id => id < len (log_get (sent_a s) ch)) ids.
Proof. intros ba bb cfg_ab cfg_ba s0 ops s Hab Hba Hinit Hrun _. exact (inv_unordered_exactly_once _ _ _ (run_inv ba bb cfg_ab cfg_ba s0 s ops Hab Hba Hinit Hrun)). Qed.

(* C08 *)
Theorem release_implies_delivered : forall ba bb cfg_ab cfg_ba s0 ops s,
  cfg_u8 cfg_ab -> cfg_u8 cfg_ba ->
  sys_init ba bb cfg_ab cfg_ba = Ok s0 -> sys_run s0 ops = Ok s -> Forall (sysop_ok cfg_ab cfg_ba) ops ->
  forall ch sa, sm_find ch (c_sr (ra s)) = Some sa -> is_disconnected (ra s) = false ->
  forall id m, msg_at (log_get (sent_a s) ch) id = Some m -> kind_of sa id = None ->
    if len m <=? SLICE_SIZE
    then exists i bytes, In i (dlv_b s) /\ nth_error (out_a s) i = Some bytes /\ carries_small bytes ch id
    else forall idx, idx < num_slices_of m ->
           exists i bytes, In i (dlv_b s) /\ nth_error (out_a s) i = Some bytes /\ carries_slice bytes ch id idx.
Proof.
  intros ba bb cfg_ab cfg_ba s0 ops s Hab Hba Hinit Hrun _ ch sa Hs _ id m Hat.
  destruct (run_inv ba bb cfg_ab cfg_ba s0 s ops Hab Hba Hinit Hrun) as (_ & D & _).
  exact (proj1 (di_release D ch sa Hs id m Hat)).
Qed.

Theorem acked_slice_delivered : forall ba bb cfg_ab cfg_ba s0 ops s,
  cfg_u8 cfg_ab -> cfg_u8 cfg_ba ->
  sys_init ba bb cfg_ab cfg_ba = Ok s0 -> sys_run s0 ops = Ok s -> Forall (sysop_ok cfg_ab cfg_ba) ops ->
  forall ch sa, sm_find ch (c_sr (ra s)) = Some sa ->
  forall id m idx, msg_at (log_get (sent_a s) ch) id = Some m -> slice_acked sa id idx = Some true ->
    exists i bytes, In i (dlv_b s) /\ nth_error (out_a s) i = Some bytes /\ carries_slice bytes ch id idx.
Proof.
  intros ba bb cfg_ab cfg_ba s0 ops s Hab Hba Hinit Hrun _ ch sa Hs id m idx Hat.
  destruct (run_inv ba bb cfg_ab cfg_ba s0 s ops Hab Hba Hinit Hrun) as (_ & D & _).
  exact (proj2 (di_release D ch sa Hs id m Hat) idx).
Qed.

(* C08 *)
Theorem acks_only_received : forall ba bb cfg_ab cfg_ba s0 ops s,
  cfg_u8 cfg_ab -> cfg_u8 cfg_ba ->
  sys_init ba bb cfg_ab cfg_ba = Ok s0 -> sys_run s0 ops = Ok s -> Forall (sysop_ok cfg_ab cfg_ba) ops ->
  forall x, in_ranges x (c_acks (rb s)) ->
  exists i bytes p, In i (dlv_b s) /\ nth_error (out_a s) i = Some bytes /\
                    from_bytes bytes = Ok p /\ packet_seq p = x.
Proof.
  intros ba bb cfg_ab cfg_ba s0 ops s Hab Hba Hinit Hrun _.
  destruct (run_inv ba bb cfg_ab cfg_ba s0 s ops Hab Hba Hinit Hrun) as (_ & D & _).
  exact (proj1 (di_acks D)).
Qed.

Theorem ack_packets_only_received : forall ba bb cfg_ab cfg_ba s0 ops s,
  cfg_u8 cfg_ab -> cfg_u8 cfg_ba ->
  sys_init ba bb cfg_ab cfg_ba = Ok s0 -> sys_run s0 ops = Ok s -> Forall (sysop_ok cfg_ab cfg_ba) ops ->
  forall bytes sq rs x, In bytes (out_b s) -> from_bytes bytes = Ok (Ack sq rs) -> in_ranges x rs ->
  exists i b p, In i (dlv_b s) /\ nth_error (out_a s) i = Some b /\ from_bytes b = Ok p /\ packet_seq p = x.
Proof.
  intros ba bb cfg_ab cfg_ba s0 ops s Hab Hba Hinit Hrun _ bytes sq rs x Hin Hp.
  destruct (run_inv ba bb cfg_ab cfg_ba s0 s ops Hab Hba Hinit Hrun) as (_ & D & _).
  exact (proj2 (di_acks D) bytes sq rs Hin Hp x).
Qed.

(* C03 for every kind of channel, against the log *)
Theorem sys_got_logged : forall ba bb cfg_ab cfg_ba s0 ops s,
  cfg_u8 cfg_ab -> cfg_u8 cfg_ba ->
  sys_init ba bb cfg_ab cfg_ba = Ok s0 -> sys_run s0 ops = Ok s -> Forall (sysop_ok cfg_ab cfg_ba) ops ->
  forall ch m, In m (log_get (got_b s) ch) -> In m (log_get (sent_a s) ch).
Proof.
  intros ba bb cfg_ab cfg_ba s0 ops s Hab Hba Hinit Hrun _.
  destruct (run_inv ba bb cfg_ab cfg_ba s0 s ops Hab Hba Hinit Hrun) as (_ & D & _).
  exact (di_got D).
Qed.

Definition side_eqb (x y : side) : bool := match x, y with SA, SA | SB, SB => true | _, _ => false end.

(* the messages side x passed to send_message on channel ch, in order *)
Fixpoint submitted (x : side) (ch : N) (ops : list sysop) : list (list N) :=
  match ops with
  | [] => []
  | SysApi y (CSend c m) :: t => if side_eqb x y && (c =? ch) then m :: submitted x ch t else submitted x ch t
  | _ :: t => submitted x ch t
  end.

Lemma sys_step_sent_a s o s' : sys_step s o = Ok s' ->
  sent_a s' = sent_a s \/ exists ch m, o = SysApi SA (CSend ch m) /\ sent_a s' = log_add (sent_a s) ch m.
Proof.
  intros E. destruct (sys_step_inv s o s' E) as [o|x op c' out Hnp Ec|i bytes c' En Ep|i bytes c' En Ep];
    try (now left).
  destruct x; cbn [upd_side sent_a]; [|now left]. destruct op; try (now left). cbn [sent_upd].
  destruct (negb (is_disconnected (conn_of s SA)) && negb (is_disconnected c')); [right; eauto|now left].
Qed.

Lemma sent_a_count ops : forall s s' ch m, sys_run s ops = Ok s' ->
  (occ (log_get (sent_a s') ch) m <= occ (log_get (sent_a s) ch) m + occ (submitted SA ch ops) m)%nat.
Proof.
  unfold occ. induction ops as [|o t IH]; intros s s' ch m E; cbn [sys_run] in E.
  - injection E as <-. apply Nat.le_add_r.
  - destruct (sys_step s o) as [s1| |] eqn:E1; cbn [bind] in E; try discriminate.
    specialize (IH s1 s' ch m E).
    destruct (sys_step_sent_a _ _ _ E1) as [Hs|(c & m0 & -> & Hs)]; rewrite Hs in IH.
    + assert (Hle : (count_occ msg_eq_dec (submitted SA ch t) m <=
                     count_occ msg_eq_dec (submitted SA ch (o :: t)) m)%nat).
      { destruct o as [y op|y i]; cbn [submitted]; [|lia]. destruct op; try lia.
        destruct (side_eqb SA y && (ch0 =? ch)); cbn [count_occ]; [destruct (msg_eq_dec _ m)|]; lia. }
      lia.
    + cbn [submitted side_eqb andb]. rewrite log_get_add in IH. destruct (N.eqb_spec ch c) as [->|Hne].
      * rewrite N.eqb_refl. rewrite count_occ_app in IH. cbn [count_occ] in *. destruct (msg_eq_dec m0 m); lia.
      * destruct (N.eqb_spec c ch); [congruence|]. lia.
Qed.

Lemma sent_a_submitted ops s s' ch m :
  sys_run s ops = Ok s' -> In m (log_get (sent_a s') ch) -> In m (log_get (sent_a s) ch) \/ In m (submitted SA ch ops).
Proof.
  intros E Hin. pose proof (sent_a_count ops s s' ch m E) as Hc. unfold occ in Hc.
  rewrite !(count_occ_In msg_eq_dec). apply (count_occ_In msg_eq_dec) in Hin. lia.
Qed.

(* C03 for every kind of channel *)
Theorem sys_got_submitted : forall ba bb cfg_ab cfg_ba s0 ops s,
  cfg_u8 cfg_ab -> cfg_u8 cfg_ba ->
  sys_init ba bb cfg_ab cfg_ba = Ok s0 -> sys_run s0 ops = Ok s ->
  forall ch m, In m (log_get (got_b s) ch) -> In m (submitted SA ch ops).
Proof.
  intros ba bb cfg_ab cfg_ba s0 ops s Hab Hba Hinit Hrun ch m Hin.
  destruct (run_inv ba bb cfg_ab cfg_ba s0 s ops Hab Hba Hinit Hrun) as (_ & D & _).
  pose proof (di_got D ch m Hin) as Hlog.
  destruct (sent_a_submitted ops s0 s ch m Hrun Hlog) as [H|H]; [|exact H].
  destruct (sys_init_ok _ _ _ _ _ Hinit) as (a & b & _ & _ & ->). destruct H.
Qed.

(* C03 *)
Theorem sys_unreliable_submitted : forall ba bb cfg_ab cfg_ba s0 ops s,
  cfg_u8 cfg_ab -> cfg_u8 cfg_ba ->
  sys_init ba bb cfg_ab cfg_ba = Ok s0 -> sys_run s0 ops = Ok s -> Forall (sysop_ok cfg_ab cfg_ba) ops ->
  forall ch, chan_kind cfg_ab ch = Some TUnreliable ->
  forall m, In m (log_get (got_b s) ch) -> In m (submitted SA ch ops).
Proof.
  intros ba bb cfg_ab cfg_ba s0 ops s Hab Hba Hinit Hrun _ ch _.
  exact (sys_got_submitted ba bb cfg_ab cfg_ba s0 ops s Hab Hba Hinit Hrun ch).
Qed.

(* the direction B -> A: the same theorems of the flipped state *)

Lemma sysop_ok_flip cfg_ab cfg_ba o : sysop_ok cfg_ab cfg_ba o -> sysop_ok cfg_ba cfg_ab (flip_op o).
Proof. destruct o as [[] []|[] i]; cbn [flip_op flip_side sysop_ok]; auto. Qed.

Section RunBA.
  Variables (ba bb : N) (cfg_ab cfg_ba : list chan_config) (s0 s : rsys) (ops : list sysop).
  Hypothesis Hu8ab : cfg_u8 cfg_ab.
  Hypothesis Hu8ba : cfg_u8 cfg_ba.
  Hypothesis Hinit : sys_init ba bb cfg_ab cfg_ba = Ok s0.
  Hypothesis Hrun : sys_run s0 ops = Ok s.

  Theorem sys_ordered_prefix_ba : forall ch resend,
    chan_kind cfg_ba ch = Some (TReliableOrdered resend) ->
    exists k, log_get (got_a s) ch = firstn k (log_get (sent_b s) ch).
  Proof. exact (inv_ordered_prefix _ _ _ (run_inv_ba ba bb cfg_ab cfg_ba s0 s ops Hu8ab Hu8ba Hinit Hrun)). Qed.

  Theorem sys_unordered_exactly_once_ba : forall ch resend,
    chan_kind cfg_ba ch = Some (TReliableUnordered resend) ->
    exists ids, NoDup ids /\
      log_get (got_a s) ch = map (fun id => nth (N.to_nat id) (log_get (sent_b s) ch) []) ids /\
      Forall (fun id => id < len (log_get (sent_b s) ch)) ids.
  Proof. exact (inv_unordered_exactly_once _ _ _ (run_inv_ba ba bb cfg_ab cfg_ba s0 s ops Hu8ab Hu8ba Hinit Hrun)). Qed.

  Theorem sys_got_logged_ba : forall ch m, In m (log_get (got_a s) ch) -> In m (log_get (sent_b s) ch).
  Proof.
    destruct (run_inv_ba ba bb cfg_ab cfg_ba s0 s ops Hu8ab Hu8ba Hinit Hrun) as (_ & D & _).
    exact (di_got D).
  Qed.

  Theorem release_implies_delivered_ba : forall ch sb,
    sm_find ch (c_sr (rb s)) = Some sb -> is_disconnected (rb s) = false ->
    forall id m, msg_at (log_get (sent_b s) ch) id = Some m -> kind_of sb id = None ->
      if len m <=? SLICE_SIZE
      then exists i bytes, In i (dlv_a s) /\ nth_error (out_b s) i = Some bytes /\ carries_small bytes ch id
      else forall idx, idx < num_slices_of m ->
             exists i bytes, In i (dlv_a s) /\ nth_error (out_b s) i = Some bytes /\ carries_slice bytes ch id idx.
  Proof.
    intros ch sb Hs _ id m Hat.
    destruct (run_inv_ba ba bb cfg_ab cfg_ba s0 s ops Hu8ab Hu8ba Hinit Hrun) as (_ & D & _).
    exact (proj1 (di_release D ch sb Hs id m Hat)).
  Qed.

  Theorem acks_only_received_ba : forall x, in_ranges x (c_acks (ra s)) ->
    exists i bytes p, In i (dlv_a s) /\ nth_error (out_b s) i = Some bytes /\
                      from_bytes bytes = Ok p /\ packet_seq p = x.
  Proof.
    destruct (run_inv_ba ba bb cfg_ab cfg_ba s0 s ops Hu8ab Hu8ba Hinit Hrun) as (_ & D & _).
    exact (proj1 (di_acks D)).
  Qed.
End RunBA.

(* non-vacuity: one ordered channel, a small and a 2500-byte message, the four packets
   delivered out of order with a duplicate, B's application takes both, B's Ack releases both *)

Definition sx_cfg : list chan_config :=
  [ {| cc_id := 2; cc_max := 10000; cc_type := TReliableOrdered 300000000 |} ].
Definition sx_small : list N := [104; 105; 33].
Definition sx_big : list N := map (fun i => N.of_nat i mod 251) (seq 0 2500).

(* A's flush emits slice 0, slice 1, slice 2 of message 1 (sequence numbers 0, 1, 2) and then the
   SmallReliable packet with message 0 (sequence number 3) *)
Definition sx_ops1 : list sysop :=
  [ SysApi SA (CSend 2 sx_small); SysApi SA (CSend 2 sx_big); SysApi SA CFlush;
    SysDeliver SB 2; SysDeliver SB 3; SysDeliver SB 0; SysDeliver SB 2; SysDeliver SB 1;
    SysApi SB (CRecv 2); SysApi SB (CRecv 2); SysApi SB (CRecv 2); SysApi SB CFlush ].
Definition sx_ops : list sysop := sx_ops1 ++ [SysDeliver SA 0].

Definition run_from_init (cfg : list chan_config) (ops : list sysop) : pres rsys :=
  do s0 <- sys_init 60000 60000 cfg cfg; sys_run s0 ops.

Lemma sys_run_app s a b : sys_run s (a ++ b) = (do s' <- sys_run s a; sys_run s' b).
Proof. exact (steps_app sys_step a b s). Qed.

Lemma run_from_init_app cfg a b :
  run_from_init cfg (a ++ b) = (do s <- run_from_init cfg a; sys_run s b).
Proof.
  unfold run_from_init. destruct (sys_init 60000 60000 cfg cfg); cbn [bind]; [apply sys_run_app|reflexivity..].
Qed.

Lemma run_from_init_ok cfg ops s : run_from_init cfg ops = Ok s ->
  exists s0, sys_init 60000 60000 cfg cfg = Ok s0 /\ sys_run s0 ops = Ok s.
Proof. apply bind_ok. Qed.

(* sx_big with its elements counted in binary ([seq 0 2500] counts them in unary); equal to sx_big by
   sx_big_eq, and every evaluation below first replaces sx_big by this literal. *)
Fixpoint upto (k : nat) (a : N) : list N := match k with O => [] | S k => a :: upto k (N.succ a) end.

Lemma map_of_nat_seq {A} (f : N -> A) k : forall s,
  map (fun i => f (N.of_nat i)) (seq s k) = map f (upto k (N.of_nat s)).
Proof.
  induction k as [|k IH]; intros s; [reflexivity|].
  cbn [seq map upto]. rewrite IH, Nat2N.inj_succ. reflexivity.
Qed.

Definition sx_big_lit : list N := Eval vm_compute in map (fun x => x mod 251) (upto 2500 0).

Lemma sx_big_eq : sx_big = sx_big_lit.
Proof. unfold sx_big. rewrite (map_of_nat_seq (fun x => x mod 251) 2500 0). evaluates. Qed.

(* the state after sx_ops1; sx_ops goes on from it by one step (A processes B's Ack) *)
Definition sx_s1 : rsys := ltac:(evaluated (run_from_init sx_cfg sx_ops1)).
Lemma sx_s1_eq : run_from_init sx_cfg sx_ops1 = Ok sx_s1.
Proof. unfold sx_ops1. rewrite sx_big_eq. evaluates. Qed.

Definition sx_summary (r : pres rsys) :=
  match r with
  | Ok s => Some (got_b s, sent_a s, dlv_b s, dlv_a s, pending_ids (ra s) 2,
                  map from_bytes (out_b s), c_acks (rb s), is_disconnected (ra s) || is_disconnected (rb s))
  | _ => None
  end.

Example sys_roundtrip :
  cfg_u8 sx_cfg /\ Forall (sysop_ok sx_cfg sx_cfg) sx_ops /\
  (* before A processes the Ack: both messages obtained, in order; both still pending at A *)
  sx_summary (run_from_init sx_cfg sx_ops1) =
    Some ([(2, [sx_small; sx_big])], [(2, [sx_small; sx_big])], [2; 3; 0; 2; 1]%nat, @nil nat,
          Some [0; 1], [Ok (Ack 0 [(0, 4)])], [(0, 4)], false) /\
  (* after: both released *)
  sx_summary (run_from_init sx_cfg sx_ops) =
    Some ([(2, [sx_small; sx_big])], [(2, [sx_small; sx_big])], [2; 3; 0; 2; 1]%nat, [0%nat],
          Some [], [Ok (Ack 0 [(0, 4)])], [(0, 4)], false) /\
  (* what A's four packets are *)
  match run_from_init sx_cfg sx_ops with
  | Ok s => map (fun b => match from_bytes b with
                          | Ok (ReliableSlice sq ch sl) => Some (sq, sl_id sl, Some (sl_index sl))
                          | Ok (SmallReliable sq ch ms) => Some (sq, len ms, None)
                          | _ => None
                          end) (out_a s)
  | _ => []
  end = [Some (0, 1, Some 0); Some (1, 1, Some 1); Some (2, 1, Some 2); Some (3, 1, None)].
Proof.
  split; [repeat constructor|].
  split; [repeat constructor; cbn [sysop_ok chan_kind sx_cfg find cc_id]; discriminate|].
  unfold sx_ops. rewrite run_from_init_app, sx_s1_eq, sx_big_eq. split; [evaluates|]. split; evaluates.
Qed.

(* the hypothesis cfg_u8 is needed: the model keeps channel ids in N while the encoder writes
   [ch mod 256] (in the library the id is a u8, so this cannot happen there).  With channels 0 and
   256 a message submitted on 256 is obtained on channel 0, on which nothing was submitted *)
Definition bad_cfg : list chan_config :=
  [ {| cc_id := 0; cc_max := 10000; cc_type := TReliableOrdered 300000000 |};
    {| cc_id := 256; cc_max := 10000; cc_type := TReliableOrdered 300000000 |} ].
Definition bad_ops : list sysop :=
  [ SysApi SA (CSend 256 sx_small); SysApi SA CFlush; SysDeliver SB 0; SysApi SB (CRecv 0) ].

Example channel_ids_must_be_u8 :
  Forall (sysop_ok bad_cfg bad_cfg) bad_ops /\
  match run_from_init bad_cfg bad_ops with
  | Ok s => Some (log_get (got_b s) 0, log_get (sent_a s) 0, log_get (sent_a s) 256)
  | _ => None
  end = Some ([sx_small], [], [sx_small]).
Proof.
  split; [repeat constructor; cbn [sysop_ok chan_kind bad_cfg find cc_id]; discriminate|].
  evaluates.
Qed.

(* two observations on the model (and, as far as the model is faithful, on the library) *)

(* (a) an acknowledgement can be forgotten: when the peer acknowledges an Ack packet whose last
   range ended at L, acked_largest drops every pending acknowledgement <= L - also that of a packet
   which arrived after that Ack packet was built.  Below, A's packet 2 is handed to B (index 2 is in
   dlv_b) after B's first Ack [(0,2);(3,4)]; A's acknowledgement of that Ack makes B forget
   sequence number 2, B's next Ack is [(4,5)], and message 2 stays pending at A although B holds it:
   A has to retransmit it.  Safety is not affected (acks_only_received, release_implies_delivered). *)
Definition la_msg (i : N) : list N := [i].
Definition la_ops : list sysop :=
  [ SysApi SA (CSend 2 (la_msg 0)); SysApi SA CFlush; SysApi SA (CSend 2 (la_msg 1)); SysApi SA CFlush;
    SysApi SA (CSend 2 (la_msg 2)); SysApi SA CFlush; SysApi SA (CSend 2 (la_msg 3)); SysApi SA CFlush;
    SysDeliver SB 0; SysDeliver SB 1; SysDeliver SB 3;
    SysApi SB CFlush;            (* B's Ack, sequence 0, ranges [(0,2);(3,4)] *)
    SysDeliver SA 0;             (* A releases 0, 1, 3 and owes an acknowledgement for B's packet 0 *)
    SysDeliver SB 2;             (* A's packet 2 arrives late *)
    SysApi SA CFlush;            (* A's Ack packet (index 4 of out_a) *)
    SysDeliver SB 4;             (* B learns that its Ack arrived and forgets every pending ack <= 3 *)
    SysApi SB CFlush; SysDeliver SA 1 ].

Example late_ack_forgotten :
  match run_from_init sx_cfg la_ops with
  | Ok s => Some (map from_bytes (out_b s), c_acks (rb s), pending_ids (ra s) 2, dlv_b s)
  | _ => None
  end = Some ([Ok (Ack 0 [(0, 2); (3, 4)]); Ok (Ack 1 [(4, 5)])], [(4, 5)], Some [2], [0; 1; 3; 2; 4]%nat).
Proof. evaluates. Qed.

(* (b) conn_new rejects a channel id configured twice only within one kind: the same id may be
   configured once as unreliable and once as reliable.  send_message and receive_message then use the
   reliable channel (it is looked up first), whatever the order of the configuration entries; here
   chan_kind says TUnreliable and the message travels in a SmallReliable packet.  The theorems above
   do not assume distinct ids. *)
Definition dup_cfg : list chan_config :=
  [ {| cc_id := 0; cc_max := 10000; cc_type := TUnreliable |};
    {| cc_id := 0; cc_max := 10000; cc_type := TReliableOrdered 300000000 |} ].

Definition dup_ops : list sysop :=
  [SysApi SA (CSend 0 (la_msg 7)); SysApi SA CFlush; SysDeliver SB 0; SysApi SB (CRecv 0)].
Definition dup_s : rsys := ltac:(evaluated (run_from_init dup_cfg dup_ops)).
Lemma dup_s_eq : run_from_init dup_cfg dup_ops = Ok dup_s.
Proof. evaluates. Qed.

Example cross_kind_duplicate_id :
  match run_from_init dup_cfg [SysApi SA (CSend 0 (la_msg 7)); SysApi SA CFlush; SysDeliver SB 0; SysApi SB (CRecv 0)] with
  | Ok s => Some (chan_kind dup_cfg 0, map from_bytes (out_a s), got_b s)
  | _ => None
  end = Some (Some TUnreliable, [Ok (SmallReliable 0 0 [(0, [7])])], [(0, [[7]])]).
Proof. fold dup_ops. rewrite dup_s_eq. evaluates. Qed.

Print Assumptions sys_inv_holds.
Print Assumptions sys_invariant.
Print Assumptions sys_ordered_prefix.
Print Assumptions sys_unordered_exactly_once.
Print Assumptions sys_unreliable_submitted.
Print Assumptions sys_got_submitted.
Print Assumptions sys_got_logged.
Print Assumptions release_implies_delivered.
Print Assumptions acked_slice_delivered.
Print Assumptions acks_only_received.
Print Assumptions ack_packets_only_received.
Print Assumptions sys_ordered_prefix_ba.
Print Assumptions sys_unordered_exactly_once_ba.
Print Assumptions sys_got_logged_ba.
Print Assumptions release_implies_delivered_ba.
Print Assumptions acks_only_received_ba.
Print Assumptions sys_roundtrip.
Print Assumptions channel_ids_must_be_u8.
Print Assumptions late_ack_forgotten.
Print Assumptions cross_kind_duplicate_id.

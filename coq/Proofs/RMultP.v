(* RMultP.v - multiplicity on an Unreliable channel (Spec/RMultSpec.v): a message is obtained at
   most as many times as the network delivered each of the packets carrying it; a lost slice
   loses the whole message.  The accounting invariant mult_inv is kept by every system step. *)
From RenetV Require Import Base Consts Varint Packet Channels Conn.
From RenetV Require Import CodecSpec RecvSpec SendSpec ConnSpec ConnInvSpec RSysSpec RSysInvSpec RMultSpec.
From RenetV Require Import BaseP SMapP ConnBaseP ConnProcP ConnFlushP ConnP RSysBaseP RSysStepP RSysInvP RSysP.
From RenetV Require RecvUnrelP SendRelP SendUnrelP SliceP.
Require Import Lia.
Open Scope N_scope.

Local Opaque SLICE_SIZE MAX_ACK_RANGES SER_BUFFER NC_MAX_PAYLOAD_BYTES DISCARD_PACKET_SECS VARINT_MAX MAX_NUM_SLICES.

Lemma occ_app a b m : occ (a ++ b) m = (occ a m + occ b m)%nat.
Proof. unfold occ. apply count_occ_app. Qed.

Lemma occ_cons x t m : occ (x :: t) m = ((if msg_eq_dec x m then 1 else 0) + occ t m)%nat.
Proof. unfold occ. cbn [count_occ]. destruct (msg_eq_dec x m); reflexivity. Qed.

Lemma occ_one x m : occ [x] m = if msg_eq_dec x m then 1%nat else 0%nat.
Proof. rewrite occ_cons. cbn [occ count_occ]. apply Nat.add_0_r. Qed.

Lemma occ_nil m : occ [] m = 0%nat.
Proof. reflexivity. Qed.

Lemma occ_zero l m : (forall x, In x l -> x <> m) -> occ l m = 0%nat.
Proof. intros H. unfold occ. apply count_occ_not_In. intros Hin. exact (H m Hin eq_refl). Qed.

Lemma subseq_occ_le l l' m : SendUnrelP.subseq l l' -> (occ l m <= occ l' m)%nat.
Proof. induction 1 as [|x l l' _ IH|x l l' _ IH]; rewrite ?occ_cons; lia. Qed.

Lemma occ_pos_in l m : (0 < occ l m)%nat <-> In m l.
Proof. unfold occ. symmetry. apply count_occ_In. Qed.

Lemma list_sum_cons x l : list_sum (x :: l) = (x + list_sum l)%nat.
Proof. reflexivity. Qed.

Lemma dlv_sum_app f oa d d' : dlv_sum f oa (d ++ d') = (dlv_sum f oa d + dlv_sum f oa d')%nat.
Proof. unfold dlv_sum. rewrite map_app, list_sum_app. reflexivity. Qed.

Lemma dlv_sum_snoc f oa d i b : nth_error oa i = Some b -> dlv_sum f oa (d ++ [i]) = (dlv_sum f oa d + f b)%nat.
Proof.
  intros H. unfold dlv_sum. rewrite map_app, list_sum_app. cbn [map]. rewrite list_sum_cons, H.
  cbn [list_sum fold_right]. lia.
Qed.

Lemma dlv_sum_oa_mono f oa more d : (dlv_sum f oa d <= dlv_sum f (oa ++ more) d)%nat.
Proof.
  unfold dlv_sum. induction d as [|i t IH]; cbn [map]; [lia|]. rewrite !list_sum_cons.
  destruct (nth_error oa i) as [b|] eqn:E.
  - rewrite (nth_error_app_some oa more i b E). lia.
  - lia.
Qed.

Lemma dlv_sum_dlv_mono f oa d more : (dlv_sum f oa d <= dlv_sum f oa (d ++ more))%nat.
Proof. rewrite dlv_sum_app. lia. Qed.

Section Cnt.
  Context {V : Type} (g : V -> bool).
  Definition cnt (l : list (N * V)) : nat := length (filter (fun e => g (snd e)) l).
  Definition b2n (b : bool) : nat := if b then 1%nat else 0%nat.

  Lemma cnt_cons k v l : cnt ((k, v) :: l) = (b2n (g v) + cnt l)%nat.
  Proof. unfold cnt. cbn [filter snd]. destruct (g v); reflexivity. Qed.

  Definition bopt (o : option V) : nat := match o with Some v => b2n (g v) | None => 0%nat end.

  (* SMapP's accounting of a sum over the values applies: the measure is N-valued there *)
  Lemma cnt_vsum l : N.of_nat (cnt l) = vsum (fun v => N.of_nat (b2n (g v))) l.
  Proof.
    induction l as [|[k v] t IH]; [reflexivity|].
    rewrite cnt_cons, Nat2N.inj_add, IH. unfold vsum. cbn [map snd]. now rewrite sum_cons.
  Qed.

  Lemma cnt_insert k v l : asc (map fst l) ->
    (cnt (sm_insert k v l) + bopt (sm_find k l) = cnt l + b2n (g v))%nat.
  Proof.
    intros Ha. pose proof (vsum_insert (fun v => N.of_nat (b2n (g v))) k v l Ha) as E. rewrite <- !cnt_vsum in E.
    destruct (sm_find k l); cbn [fopt bopt] in *; lia.
  Qed.

  Lemma cnt_remove k l : (cnt (sm_remove k l) + bopt (sm_find k l) = cnt l)%nat.
  Proof.
    pose proof (vsum_remove (fun v => N.of_nat (b2n (g v))) k l) as E. rewrite <- !cnt_vsum in E.
    destruct (sm_find k l); cbn [fopt bopt] in *; lia.
  Qed.

  Lemma cnt_drop_stale_le now la l : (cnt (RecvUnrelP.drop_stale now la l) <= cnt l)%nat.
  Proof.
    pose proof (RecvUnrelP.vsum_drop_stale_le (fun v => N.of_nat (b2n (g v))) now la l) as E. rewrite <- !cnt_vsum in E.
    lia.
  Qed.
End Cnt.

Lemma ctor_cnt_cnt sl m idx : ctor_cnt sl m idx = cnt (ctor_holds m idx) sl.
Proof. reflexivity. Qed.

Definition held (r : recv_unrel) (m : list N) (idx : N) : nat :=
  (occ (ru_messages r) m + ctor_cnt (ru_slices r) m idx)%nat.

Lemma ctor_holds_iff m2 c m idx : ctor_ok' m2 c ->
  ctor_holds m idx c = true <->
  (num_slices_of m2 = num_slices_of m /\ SliceP.has c idx /\ slice_payload m2 idx = slice_payload m idx).
Proof.
  intros [O1 O2]. unfold ctor_holds, SliceP.has. rewrite andb_true_iff, N.eqb_eq, O1.
  destruct (nth_error (sc_chunks c) (N.to_nat idx)) as [[x|]|] eqn:En.
  - pose proof (O2 _ _ En) as Hx. rewrite N2Nat.id in Hx. subst x.
    destruct (msg_eq_dec (slice_payload m2 idx) (slice_payload m idx)) as [e|ne].
    + split; [intros [H _]; eauto|intros (H & _ & _); auto].
    + split; [intros [_ H]; discriminate|intros (_ & _ & H); contradiction].
  - split; [intros [_ H]; discriminate|intros (_ & (x & Hx) & _); discriminate].
  - split; [intros [_ H]; discriminate|intros (_ & (x & Hx) & _); discriminate].
Qed.

Lemma ctor_holds_new m idx n : ctor_holds m idx (sctor_new n) = false.
Proof.
  unfold ctor_holds, sctor_new. cbn [sc_num sc_chunks].
  destruct (nth_error (repeatN None (N.to_nat n)) (N.to_nat idx)) as [[x|]|] eqn:En;
    [|apply andb_false_r|apply andb_false_r].
  apply nth_error_repeatN in En. discriminate.
Qed.

Lemma slice_is_of m idx m2 sid idx' :
  slice_is m idx (slice_of m2 sid idx') =
  (idx' =? idx) && (num_slices_of m2 =? num_slices_of m) &&
  (if msg_eq_dec (slice_payload m2 idx') (slice_payload m idx) then true else false).
Proof. reflexivity. Qed.

Lemma ru_process_slice_acct oa sent ch r now bytes sq sl r' :
  ru_inv now r -> ru_ok_one oa sent ch r -> unrel_out_ok oa sent ->
  In bytes oa -> from_bytes bytes = Ok (UnreliableSlice sq ch sl) ->
  ru_process_slice r sl now = Ok r' ->
  (forall m, len m <= SLICE_SIZE -> occ (ru_messages r') m = occ (ru_messages r) m) /\
  (forall m idx, idx < num_slices_of m -> (held r' m idx <= held r m idx + b2n (slice_is m idx sl))%nat).
Proof.
  intros Hinv Hone Hout Hin Hp E.
  pose proof (RecvUnrelP.ru_inv_tbl now r Hinv) as [_ A].
  destruct (slice_msg oa sent ch r bytes sq sl Hone Hout Hin Hp) as (m2 & _ & Hl & Hidx & _ & Hsl & Hc).
  rewrite Hsl in E |- *. cbn [slice_of sl_id sl_index] in E |- *.
  set (sid := sl_id sl) in *. set (ix := sl_index sl) in *.
  (* c0, the constructor the slice goes into, holds slices of m2 only; a fresh one holds nothing *)
  set (c0 := match sm_find sid (ru_slices r) with Some c => c | None => sctor_new (num_slices_of m2) end).
  assert (O0 : ctor_ok' m2 c0) by (unfold c0; destruct (sm_find sid (ru_slices r)); [auto|apply SliceP.ctor_ok_new]).
  assert (C0 : forall m idx, bopt (ctor_holds m idx) (sm_find sid (ru_slices r)) = b2n (ctor_holds m idx c0)).
  { intros m idx. unfold c0. destruct (sm_find sid (ru_slices r)); [reflexivity|]. now rewrite ctor_holds_new. }
  assert (Hnew : forall m idx, ix = idx -> num_slices_of m2 = num_slices_of m ->
                   slice_payload m2 idx = slice_payload m idx -> slice_is m idx (slice_of m2 sid ix) = true).
  { intros m idx -> En Ep. rewrite slice_is_of, N.eqb_refl, En, N.eqb_refl. cbn [andb].
    destruct (msg_eq_dec (slice_payload m2 idx) (slice_payload m idx)); [reflexivity|contradiction]. }
  pose proof (RecvUnrelP.ru_process_slice_honest now r sid ix m2 r' Hinv Hl Hidx Hc E) as F.
  unfold RecvUnrelP.ru_fed in F. cbv zeta in F. fold c0 in F.
  destruct F as [->|[(E1 & E2 & Hall)|(c' & E1 & E2 & _ & O' & Hh)]].
  - split; [reflexivity|]. intros; lia.
  - (* the message is complete *)
    unfold held. rewrite E1, E2. split.
    + intros m Hm. rewrite occ_app, occ_one. destruct (msg_eq_dec m2 m) as [->|_]; lia.
    + intros m idx Hi. rewrite occ_app, occ_one, !ctor_cnt_cnt.
      pose proof (cnt_remove (ctor_holds m idx) sid (ru_slices r)) as Hr. rewrite C0 in Hr.
      destruct (msg_eq_dec m2 m) as [->|_]; [|lia].
      destruct (Hall idx Hi) as [Hhas|Hix].
      * rewrite (proj2 (ctor_holds_iff m c0 m idx O0)) in Hr by auto. cbn [b2n] in Hr. lia.
      * rewrite (Hnew m idx) by auto. cbn [b2n]. lia.
  - (* still partial *)
    unfold held. rewrite E1, E2. split; [reflexivity|].
    intros m idx Hi. rewrite !ctor_cnt_cnt.
    pose proof (cnt_insert (ctor_holds m idx) sid c' (ru_slices r) A) as Hc'. rewrite C0 in Hc'.
    destruct (ctor_holds m idx c') eqn:Hh'; [|cbn [b2n] in Hc'; lia].
    apply (ctor_holds_iff m2 c' m idx O') in Hh'. destruct Hh' as (Hn & Hhas & Hpay).
    apply Hh in Hhas. destruct Hhas as [Hhas|Hix].
    + rewrite (proj2 (ctor_holds_iff m2 c0 m idx O0)) in Hc' by auto. cbn [b2n] in Hc'. lia.
    + rewrite (Hnew m idx) by auto. cbn [b2n] in *. lia.
Qed.

Definition chan_acct (ru : list (N * recv_unrel)) (got : chan_log) (oa : list (list N)) (dlv : list nat) (ch : N) : Prop :=
  match sm_find ch ru with
  | None => log_get got ch = []
  | Some r => acct (log_get got ch) r oa dlv ch
  end.

Lemma acct_step got got' r r' oa dlv oa' dlv' ch :
  (forall m, len m <= SLICE_SIZE ->
     (occ got' m + occ (ru_messages r') m + small_copies oa dlv ch m <=
      occ got m + occ (ru_messages r) m + small_copies oa' dlv' ch m)%nat) ->
  (forall m idx, SLICE_SIZE < len m -> idx < num_slices_of m ->
     (occ got' m + held r' m idx + slice_copies oa dlv ch m idx <=
      occ got m + held r m idx + slice_copies oa' dlv' ch m idx)%nat) ->
  acct got r oa dlv ch -> acct got' r' oa' dlv' ch.
Proof.
  intros Hs Hl A m. destruct (A m) as [A1 A2]. split.
  - intros Hm. specialize (Hs m Hm). specialize (A1 Hm). lia.
  - intros Hm idx Hi. specialize (Hl m idx Hm Hi). specialize (A2 Hm idx Hi). unfold held in Hl. lia.
Qed.

Lemma chan_acct_weaken ru got oa dlv oa' dlv' ch :
  (forall f, (dlv_sum f oa dlv <= dlv_sum f oa' dlv')%nat) ->
  chan_acct ru got oa dlv ch -> chan_acct ru got oa' dlv' ch.
Proof.
  intros Hle. unfold chan_acct. destruct (sm_find ch ru); [|auto]. apply acct_step.
  - intros m _. specialize (Hle (pkt_small ch m)). unfold small_copies. lia.
  - intros m idx _ _. specialize (Hle (pkt_slice ch m idx)). unfold slice_copies. lia.
Qed.

Lemma chan_acct_update ru got got' oa dlv oa' dlv' ch0 r r' ch :
  sm_find ch0 ru = Some r ->
  (ch <> ch0 -> chan_acct ru got oa dlv ch -> chan_acct ru got' oa' dlv' ch) ->
  (acct (log_get got ch0) r oa dlv ch0 -> acct (log_get got' ch0) r' oa' dlv' ch0) ->
  chan_acct ru got oa dlv ch -> chan_acct (sm_insert ch0 r' ru) got' oa' dlv' ch.
Proof.
  intros Hr Hother Hsame H. destruct (N.eq_dec ch ch0) as [->|Hne].
  - unfold chan_acct in *. rewrite sm_find_insert_same. rewrite Hr in H. auto.
  - specialize (Hother Hne H). unfold chan_acct in *. now rewrite sm_find_insert_other.
Qed.

Lemma pkt_small_here bytes sq ch ms m :
  from_bytes bytes = Ok (SmallUnreliable sq ch ms) -> pkt_small ch m bytes = occ ms m.
Proof. intros H. unfold pkt_small. now rewrite H, N.eqb_refl. Qed.

Lemma pkt_slice_here bytes sq ch sl m idx :
  from_bytes bytes = Ok (UnreliableSlice sq ch sl) -> pkt_slice ch m idx bytes = b2n (slice_is m idx sl).
Proof. intros H. unfold pkt_slice. rewrite H, N.eqb_refl. cbn [andb]. reflexivity. Qed.

Lemma mult_fwd ordf d i bytes c' :
  dir_ok ordf d -> nth_error (d_oa d) i = Some bytes -> process_packet (d_rcv d) bytes = Ok c' ->
  small_out_ok (d_oa d) ->
  forall ch, chan_acct (c_ru (d_rcv d)) (d_got d) (d_oa d) (d_dlv d) ch ->
             chan_acct (c_ru c') (d_got d) (d_oa d) (if is_disconnected (d_rcv d) then d_dlv d else d_dlv d ++ [i]) ch.
Proof.
  destruct d as [cs c oa ob sent got dlv]. intros O Hn E Hsz ch H.
  pose proof (do_rcv O) as Hi. pose proof (do_wfa O) as Hw. pose proof (do_inv O) as D.
  unfold Dinv in D. cbn [d_snd d_rcv d_oa d_ob d_sent d_got d_dlv] in *.
  assert (Hin : In bytes oa) by (eapply nth_error_In; eauto).
  pose proof (chan_acct_weaken _ _ _ _ _ _ _ (fun f => dlv_sum_dlv_mono f oa dlv [i]) H) as H0.
  destruct (process_packet_cases _ _ _ E) as [(st & _ & ->)|(p & Hd & Hp & PS)].
  { cbn [set_status c_ru]. destruct (is_disconnected c); [exact H|exact H0]. }
  rewrite Hd. pose proof (inv_note_seq c p Hi (Hw bytes p Hin Hp)) as Hi1.
  change (c_ru c) with (c_ru (note_seq c (packet_seq p))) in H, H0.
  remember (note_seq c (packet_seq p)) as c1 eqn:Ec1.
  destruct PS
    as [p r _|sq ch0 ms r r' Hr Epm|sq ch0 ms r Hr|sq ch0 sl r r' Hr Eps|sq ch0 sl r r' Hr Eps|sq rs l c' _ Ea].
  - exact H0.
  - exact H0.
  - apply (chan_acct_update _ got got oa dlv oa (dlv ++ [i]) ch0 r _ ch Hr); [intros _ _; exact H0| |exact H].
    destruct (process_unrel_msgs_spec ms r) as (kept & Hsub & Emsg & Hsl).
    assert (Hocc : forall m, (occ (ru_messages (process_unrel_msgs r ms)) m <= occ (ru_messages r) m + occ ms m)%nat).
    { intros m. rewrite Emsg, occ_app. pose proof (subseq_occ_le _ _ m Hsub). lia. }
    pose proof (Hsz bytes _ Hin Hp) as Hsmall. cbn [small_sz] in Hsmall. rewrite Forall_forall in Hsmall.
    apply acct_step.
    + intros m _. unfold small_copies. rewrite (dlv_sum_snoc _ _ _ _ _ Hn), (pkt_small_here _ _ _ _ _ Hp).
      specialize (Hocc m). lia.
    + intros m idx Hm _. unfold held. rewrite Hsl. specialize (Hocc m).
      assert (Hz : occ ms m = 0%nat).
      { apply occ_zero. intros x Hx ->. specialize (Hsmall _ Hx). cbn beta in Hsmall. lia. }
      pose proof (dlv_sum_dlv_mono (pkt_slice ch0 m idx) oa dlv [i]). unfold slice_copies. lia.
  - exact H0.
  - apply (chan_acct_update _ got got oa dlv oa (dlv ++ [i]) ch0 r _ ch Hr); [intros _ _; exact H0| |exact H].
    destruct (ru_process_slice_acct oa sent ch0 r (c_now c1) bytes sq sl r') as [Hsm Hhd]; auto.
    + apply (inv_find_ru c1 ch0 r Hi1 Hr).
    + subst c1. exact (di_urcv D ch0 r Hr).
    + exact (di_uout D).
    + apply acct_step.
      * intros m Hm. rewrite (Hsm m Hm).
        pose proof (dlv_sum_dlv_mono (pkt_small ch0 m) oa dlv [i]). unfold small_copies. lia.
      * intros m idx _ Hidx. specialize (Hhd m idx Hidx). unfold slice_copies.
        rewrite (dlv_sum_snoc _ _ _ _ _ Hn), (pkt_slice_here _ _ _ _ _ _ Hp). lia.
  - rewrite (af_ru (apply_acks_frame _ _ _ Ea)). exact H0.
Qed.

Lemma gather_small_sz : forall ord c avail c1 av pk,
  gather_rel ord c avail c1 av pk -> conn_inv c -> Forall small_sz pk.
Proof.
  apply (gather_rel_inv_ind (fun _ _ _ _ _ pk => Forall small_sz pk)).
  - constructor.
  - intros ch t c av s s' pk seq' av1 c2 av2 pk2 _ Hsi _ Eg _ IH.
    pose proof (SendRelP.sr_get_packets_facts Hsi Eg) as T.
    apply Forall_app. split; [|exact IH].
    eapply Forall_impl; [|exact (SendRelP.tf_pkts T)].
    intros p Hp. apply pkt_ok_is_rel in Hp. destruct p; try discriminate; exact I.
  - intros ch t c av s s' pk seq' av1 c2 av2 pk2 _ Hsi _ Eg _ IH.
    apply Forall_app. split; [|exact IH].
    eapply Forall_impl; [|exact (SendUnrelP.su_get_packets_sizes _ _ _ _ _ _ _ Hsi Eg)].
    intros p Hp. destruct p; cbn [SendUnrelP.unrel_size_ok small_sz] in *; try exact I. tauto.
Qed.

Lemma api_small_sz c op c' out :
  conn_inv c -> chans_u8 c -> cstep c op = Ok (c', out) -> small_out_ok (outs_of out).
Proof.
  intros Hi Hu8 E. destruct (api_outs c op c' out E) as [->|[Hd Eg]]; [exact (out_all_nil small_sz)|].
  intros b p' Hin Hp'.
  destruct (flush_summary c c' _ Hi Hu8 Hd Eg) as (c1 & av & pk0 & pk & F).
  destruct (fl_decoded F b p' Hin Hp') as [Hp _].
  rewrite (fl_pk F) in Hp. unfold flush_pkts in Hp. apply in_app_or in Hp. destruct Hp as [Hp|Hp].
  - pose proof (gather_small_sz _ _ _ _ _ _ (fl_gather F) Hi) as Hsz. rewrite Forall_forall in Hsz. auto.
  - destruct (c_acks c1); cbn [ack_part] in Hp; [destruct Hp|]. destruct Hp as [<-|[]]. exact I.
Qed.

Lemma chan_acct_got ru got got' oa dlv ch :
  log_get got' ch = log_get got ch -> chan_acct ru got oa dlv ch -> chan_acct ru got' oa dlv ch.
Proof. unfold chan_acct. intros ->. auto. Qed.

Lemma chan_acct_ru ru ru' got oa dlv ch :
  sm_find ch ru' = sm_find ch ru -> chan_acct ru got oa dlv ch -> chan_acct ru' got oa dlv ch.
Proof. unfold chan_acct. intros ->. auto. Qed.

Lemma mult_receiver_api c op c' out got oa dlv :
  conn_inv c -> chans_u8 c -> is_process op = false -> cstep c op = Ok (c', out) ->
  forall ch, sm_find ch (c_rr c) = None ->
    chan_acct (c_ru c) got oa dlv ch -> chan_acct (c_ru c') (got_upd op out got) oa dlv ch.
Proof.
  intros Hi Hu8 Hnp E ch Hrr H.
  destruct (cstep_inv c op c' out E)
    as [op st S|ch0 m s s' Hd Hs Es|ch0 m s Hd Hs Hu|ch0 r r' mo _ Hr Er|ch0 r r' mo _ Hr Hu Er
       |dt ru1 sent1 Hru Hdl|c' bytes Hd Eg|b p c' _ _ _].
  - rewrite got_upd_idle. exact H.
  - exact H.
  - exact H.
  - apply (chan_acct_got _ got); [|exact H]. apply got_upd_other. congruence.
  - apply (chan_acct_update _ got _ oa dlv oa dlv ch0 r r' ch Hu); [| |exact H].
    + intros Hne. apply chan_acct_got. now apply got_upd_other.
    + (* a message moves from the queue to what the application obtained *)
      rewrite got_upd_same.
      destruct (RecvUnrelP.ru_receive_cases r r' mo Er) as [(_ & -> & ->)|(m0 & t & mem & Em & -> & ->)].
      * now rewrite app_nil_r.
      * apply acct_step.
        -- intros m _. cbn [ru_with ru_messages]. rewrite Em, occ_app, occ_one, occ_cons. lia.
        -- intros m idx _ _. unfold held. cbn [ru_with ru_messages ru_slices].
           rewrite Em, occ_app, occ_one, occ_cons. lia.
  - (* discarding stale reassemblies only lowers what the channel holds *)
    change (chan_acct ru1 got oa dlv ch). unfold chan_acct in *.
    pose proof (discard_all_find _ _ _ Hru ch) as Hd. destruct (sm_find ch ru1) as [r'|].
    + destruct Hd as (r & Hr & Ed). rewrite Hr in H.
      destruct (RecvUnrelP.discard_old_spec (c_now c) (c_now c + dt) r (inv_find_ru c ch r Hi Hr) ltac:(lia))
        as (r2 & E2 & _ & _ & Hm & Hsl & _).
      rewrite Ed in E2. injection E2 as <-.
      revert H. apply acct_step.
      * intros m _. rewrite Hm. lia.
      * intros m idx _ _. unfold held. rewrite Hm, Hsl, !ctor_cnt_cnt.
        pose proof (cnt_drop_stale_le (ctor_holds m idx) (c_now c + dt) (ru_last r) (ru_slices r)). lia.
    + rewrite Hd in H. exact H.
  - destruct (flush_summary c c' bytes Hi Hu8 Hd Eg) as (c1 & av & pk0 & pk & F).
    cbn [got_upd]. now rewrite (fl_ru F).
  - discriminate Hnp.
Qed.

(* mult_inv s is Dmult (dir_ab s) *)
Definition Dmult (d : dir) : Prop :=
  small_out_ok (d_oa d) /\
  forall ch, sm_find ch (c_rr (d_rcv d)) = None -> chan_acct (c_ru (d_rcv d)) (d_got d) (d_oa d) (d_dlv d) ch.

Lemma Dmult_step ordf d d' : dir_ok ordf d -> dstep d d' -> Dmult d -> Dmult d'.
Proof.
  intros O S [Hsz Hacc]. pose proof (do_rcv O) as Hr.
  destruct S as [|op c' out Hnp Ec|op c' out Hnp Ec|i bytes c' En Ep|i bytes c' En Ep];
    unfold Dmult; cbn [with_snd with_rcv d_rcv d_oa d_got d_dlv]; auto.
  - split; [exact (out_all_app small_sz _ _ Hsz (api_small_sz _ _ _ _ (do_snd O) (do_u8s O) Ec))|].
    intros ch Hrr. apply (chan_acct_weaken _ _ _ _ _ _ _ (fun f => dlv_sum_oa_mono f _ _ _)). auto.
  - split; [exact Hsz|]. pose proof (cstep_channels _ _ _ _ Hr Ec) as Hsc.
    intros ch Hrr. pose proof (same_channels_rr_none _ _ _ Hsc Hrr) as Hrr0.
    exact (mult_receiver_api _ _ _ _ (d_got d) (d_oa d) (d_dlv d) Hr (do_u8r O) Hnp Ec ch Hrr0 (Hacc ch Hrr0)).
  - split; [exact Hsz|].
    pose proof (conn_step_channels _ _ _ _ Hr (process_packet_step _ _ _ Ep)) as Hsc.
    intros ch Hrr. pose proof (same_channels_rr_none _ _ _ Hsc Hrr) as Hrr0.
    exact (mult_fwd ordf d i bytes c' O En Ep Hsz ch (Hacc ch Hrr0)).
Qed.

Lemma Dmult_fresh d :
  d_oa d = [] -> d_got d = [] -> d_dlv d = [] -> Forall ru_fresh (c_ru (d_rcv d)) -> Dmult d.
Proof.
  intros Ho Hg Hd Hf. unfold Dmult. rewrite Ho, Hg, Hd. split; [exact (out_all_nil small_sz)|].
  intros ch _. unfold chan_acct. destruct (sm_find ch (c_ru (d_rcv d))) as [r|] eqn:Hr; [|reflexivity].
  destruct (Forall_sm_find _ _ _ _ Hf Hr) as [A B]. cbn [snd] in A, B.
  intros m. rewrite A, B. cbn [log_get]. split; intros; cbn; lia.
Qed.

Lemma run_mult_inv ba bb cfg_ab cfg_ba s0 s ops :
  cfg_u8 cfg_ab -> cfg_u8 cfg_ba -> sys_init ba bb cfg_ab cfg_ba = Ok s0 -> sys_run s0 ops = Ok s ->
  mult_inv s /\ mult_inv (flip s).
Proof.
  intros Hab Hba Hinit Hrun.
  apply (sys_run_both Dmult Dmult_step cfg_ab cfg_ba ops s0 s); [eapply sys_init_inv; eauto|exact Hrun|].
  destruct (sys_init_ok _ _ _ _ _ Hinit) as (a & b & Ea & Eb & ->).
  pose proof (cf_ru (conn_new_cf _ _ _ _ Ea Hab)) as A3. pose proof (cf_ru (conn_new_cf _ _ _ _ Eb Hba)) as B3.
  split; apply Dmult_fresh; cbn [dir_ab flip ra rb out_a got_b dlv_b d_oa d_got d_dlv d_rcv]; auto.
Qed.

Lemma fold_min_ge X t : forall a, (X <= a)%nat -> (forall x, In x t -> (X <= x)%nat) -> (X <= fold_left Nat.min t a)%nat.
Proof.
  induction t as [|y t IH]; intros a Ha Ht; cbn [fold_left]; [exact Ha|].
  apply IH; [|intros x Hx; apply Ht; now right].
  specialize (Ht y (or_introl eq_refl)). lia.
Qed.

Lemma fold_min_le t : forall a, (fold_left Nat.min t a <= a)%nat /\ forall x, In x t -> (fold_left Nat.min t a <= x)%nat.
Proof.
  induction t as [|y t IH]; intros a; cbn [fold_left]; [split; [lia|intros x []]|].
  destruct (IH (Nat.min a y)) as [A B]. split; [lia|].
  intros x [<-|Hx]; [lia|auto].
Qed.

Lemma min_list_ge X l : l <> [] -> (forall x, In x l -> (X <= x)%nat) -> (X <= min_list l)%nat.
Proof.
  destruct l as [|a t]; [congruence|]. intros _ H. cbn [min_list].
  apply fold_min_ge; [apply H; now left|intros x Hx; apply H; now right].
Qed.

Lemma min_list_le l x : In x l -> (min_list l <= x)%nat.
Proof.
  destruct l as [|a t]; [intros []|]. cbn [min_list]. destruct (fold_min_le t a) as [A B].
  intros [<-|Hx]; auto.
Qed.

Lemma acct_bound got r oa dlv ch m : acct got r oa dlv ch -> (occ got m <= copies_bound oa dlv ch m)%nat.
Proof.
  intros A. destruct (A m) as [A1 A2]. unfold copies_bound.
  destruct (N.leb_spec (len m) SLICE_SIZE) as [Hs|Hl].
  - specialize (A1 Hs). lia.
  - destruct (SliceP.num_bounds m Hl) as (_ & _ & B3).
    apply min_list_ge.
    + intros Hnil. apply (f_equal (@length _)) in Hnil. rewrite map_length, iota_length in Hnil. cbn [length] in Hnil. lia.
    + intros x Hx. apply in_map_iff in Hx. destruct Hx as (idx & <- & Hidx). apply in_iota in Hidx.
      specialize (A2 Hl idx Hidx). lia.
Qed.

Lemma copies_bound_small oa dlv ch m : len m <= SLICE_SIZE -> copies_bound oa dlv ch m = small_copies oa dlv ch m.
Proof. intros H. unfold copies_bound. destruct (N.leb_spec (len m) SLICE_SIZE); [reflexivity|lia]. Qed.

Lemma copies_bound_sliced oa dlv ch m : SLICE_SIZE < len m ->
  copies_bound oa dlv ch m = min_list (map (slice_copies oa dlv ch m) (iota (num_slices_of m))).
Proof. intros H. unfold copies_bound. destruct (N.leb_spec (len m) SLICE_SIZE); [lia|reflexivity]. Qed.

Lemma copies_bound_slice oa dlv ch m idx : SLICE_SIZE < len m -> idx < num_slices_of m ->
  (copies_bound oa dlv ch m <= slice_copies oa dlv ch m idx)%nat.
Proof.
  intros Hl Hidx. rewrite (copies_bound_sliced _ _ _ _ Hl). apply min_list_le. apply in_map. now apply in_iota.
Qed.

Lemma inv_multiplicity cfg_ab cfg_ba s : sys_inv cfg_ab cfg_ba s -> mult_inv s ->
  forall ch, ordf_of cfg_ab ch = None ->
  forall m, (count_occ msg_eq_dec (log_get (got_b s) ch) m <= copies_bound (out_a s) (dlv_b s) ch m)%nat.
Proof.
  intros (_ & D & _) [_ M] ch Hord m. specialize (M ch).
  pose proof (di_receiver D ch) as R.
  destruct (sm_find ch (c_rr (rb s))) as [r|]; [destruct R as (o & Ho & _); congruence|].
  specialize (M eq_refl).
  destruct (sm_find ch (c_ru (rb s))) as [r|]; [now apply (acct_bound _ r)|]. rewrite M. cbn. lia.
Qed.

(* C03.5: on an Unreliable channel a message is obtained at most as many times as the network
   delivered each of the packets carrying it.  [ordf_of cfg_ab ch = None] says that no reliable
   channel is configured with the same id: see multiplicity_without_distinct_ids_refuted below. *)
Theorem sys_unreliable_multiplicity : forall ba bb cfg_ab cfg_ba s0 ops s,
  cfg_u8 cfg_ab -> cfg_u8 cfg_ba ->
  sys_init ba bb cfg_ab cfg_ba = Ok s0 -> sys_run s0 ops = Ok s -> Forall (sysop_ok cfg_ab cfg_ba) ops ->
  forall ch, chan_kind cfg_ab ch = Some TUnreliable -> ordf_of cfg_ab ch = None ->
  forall m, (count_occ msg_eq_dec (log_get (got_b s) ch) m <= copies_bound (out_a s) (dlv_b s) ch m)%nat.
Proof.
  intros ba bb cfg_ab cfg_ba s0 ops s Hab Hba Hinit Hrun _ ch _.
  exact (inv_multiplicity cfg_ab cfg_ba s (run_inv ba bb cfg_ab cfg_ba s0 s ops Hab Hba Hinit Hrun)
           (proj1 (run_mult_inv ba bb cfg_ab cfg_ba s0 s ops Hab Hba Hinit Hrun)) ch).
Qed.

Theorem sys_unreliable_multiplicity_ba : forall ba bb cfg_ab cfg_ba s0 ops s,
  cfg_u8 cfg_ab -> cfg_u8 cfg_ba ->
  sys_init ba bb cfg_ab cfg_ba = Ok s0 -> sys_run s0 ops = Ok s -> Forall (sysop_ok cfg_ab cfg_ba) ops ->
  forall ch, chan_kind cfg_ba ch = Some TUnreliable -> ordf_of cfg_ba ch = None ->
  forall m, (count_occ msg_eq_dec (log_get (got_a s) ch) m <= copies_bound (out_b s) (dlv_a s) ch m)%nat.
Proof.
  intros ba bb cfg_ab cfg_ba s0 ops s Hab Hba Hinit Hrun _ ch _.
  exact (inv_multiplicity cfg_ba cfg_ab (flip s) (run_inv_ba ba bb cfg_ab cfg_ba s0 s ops Hab Hba Hinit Hrun)
           (proj2 (run_mult_inv ba bb cfg_ab cfg_ba s0 s ops Hab Hba Hinit Hrun)) ch).
Qed.

Theorem lost_slice_loses_message : forall ba bb cfg_ab cfg_ba s0 ops s,
  cfg_u8 cfg_ab -> cfg_u8 cfg_ba ->
  sys_init ba bb cfg_ab cfg_ba = Ok s0 -> sys_run s0 ops = Ok s -> Forall (sysop_ok cfg_ab cfg_ba) ops ->
  forall ch, chan_kind cfg_ab ch = Some TUnreliable -> ordf_of cfg_ab ch = None ->
  forall m idx, SLICE_SIZE < len m -> idx < num_slices_of m ->
    slice_copies (out_a s) (dlv_b s) ch m idx = 0%nat ->
    ~ In m (log_get (got_b s) ch).
Proof.
  intros ba bb cfg_ab cfg_ba s0 ops s Hab Hba Hinit Hrun Hops ch Hk Hord m idx Hl Hidx Hz Hin.
  pose proof (sys_unreliable_multiplicity ba bb cfg_ab cfg_ba s0 ops s Hab Hba Hinit Hrun Hops ch Hk Hord m) as B.
  pose proof (copies_bound_slice (out_a s) (dlv_b s) ch m idx Hl Hidx).
  apply (count_occ_In msg_eq_dec) in Hin. lia.
Qed.

Theorem lost_packet_loses_message : forall ba bb cfg_ab cfg_ba s0 ops s,
  cfg_u8 cfg_ab -> cfg_u8 cfg_ba ->
  sys_init ba bb cfg_ab cfg_ba = Ok s0 -> sys_run s0 ops = Ok s -> Forall (sysop_ok cfg_ab cfg_ba) ops ->
  forall ch, chan_kind cfg_ab ch = Some TUnreliable -> ordf_of cfg_ab ch = None ->
  forall m, len m <= SLICE_SIZE -> small_copies (out_a s) (dlv_b s) ch m = 0%nat ->
    ~ In m (log_get (got_b s) ch).
Proof.
  intros ba bb cfg_ab cfg_ba s0 ops s Hab Hba Hinit Hrun Hops ch Hk Hord m Hl Hz Hin.
  pose proof (sys_unreliable_multiplicity ba bb cfg_ab cfg_ba s0 ops s Hab Hba Hinit Hrun Hops ch Hk Hord m) as B.
  rewrite (copies_bound_small _ _ _ _ Hl) in B. apply (count_occ_In msg_eq_dec) in Hin. lia.
Qed.

Lemma list_sum_nodup_le (g : nat -> nat) : forall l l', NoDup l ->
  (forall a, In a l -> In a l' \/ g a = 0%nat) -> (list_sum (map g l) <= list_sum (map g l'))%nat.
Proof.
  induction l as [|a t IH]; intros l' Hnd H; cbn [map]; [cbn; lia|].
  inversion Hnd as [|? ? Hna Hnd']; subst. rewrite list_sum_cons.
  destruct (H a (or_introl eq_refl)) as [Hin|Hz].
  - apply in_split in Hin. destruct Hin as (l1 & l2 & ->).
    rewrite map_app, list_sum_app. cbn [map]. rewrite list_sum_cons.
    assert (IH' : (list_sum (map g t) <= list_sum (map g (l1 ++ l2)))%nat).
    { apply IH; [exact Hnd'|]. intros x Hx. destruct (H x (or_intror Hx)) as [Hx'|Hx']; [|now right].
      left. apply in_app_or in Hx'. apply in_or_app. destruct Hx' as [Hx'|[->|Hx']]; auto. contradiction. }
    rewrite map_app, list_sum_app in IH'. lia.
  - rewrite Hz. apply IH; [exact Hnd'|]. intros x Hx. apply H. now right.
Qed.

Lemma list_sum_nth (f : list N -> nat) : forall oa,
  list_sum (map (fun i => match nth_error oa i with Some b => f b | None => 0%nat end) (seq 0 (length oa))) =
  list_sum (map f oa).
Proof.
  induction oa as [|b t IH]; [reflexivity|].
  cbn [length seq map nth_error]. rewrite !list_sum_cons, <- seq_shift, map_map. cbn [nth_error]. now rewrite IH.
Qed.

Lemma dlv_sum_nodup f oa dlv : NoDup dlv -> (dlv_sum f oa dlv <= list_sum (map f oa))%nat.
Proof.
  intros Hnd. rewrite <- list_sum_nth. unfold dlv_sum. apply list_sum_nodup_le; [exact Hnd|].
  intros a _. destruct (nth_error oa a) as [b|] eqn:E; [left|now right].
  apply in_seq. split; [lia|]. cbn [Nat.add]. apply nth_error_Some. congruence.
Qed.

Theorem non_duplicating_network_bound : forall ba bb cfg_ab cfg_ba s0 ops s,
  cfg_u8 cfg_ab -> cfg_u8 cfg_ba ->
  sys_init ba bb cfg_ab cfg_ba = Ok s0 -> sys_run s0 ops = Ok s -> Forall (sysop_ok cfg_ab cfg_ba) ops ->
  forall ch, chan_kind cfg_ab ch = Some TUnreliable -> ordf_of cfg_ab ch = None ->
  NoDup (dlv_b s) ->
  forall m,
    (len m <= SLICE_SIZE ->
       (count_occ msg_eq_dec (log_get (got_b s) ch) m <= out_small_total (out_a s) ch m)%nat) /\
    (SLICE_SIZE < len m -> forall idx, idx < num_slices_of m ->
       (count_occ msg_eq_dec (log_get (got_b s) ch) m <= out_slice_total (out_a s) ch m idx)%nat).
Proof.
  intros ba bb cfg_ab cfg_ba s0 ops s Hab Hba Hinit Hrun Hops ch Hk Hord Hnd m.
  pose proof (sys_unreliable_multiplicity ba bb cfg_ab cfg_ba s0 ops s Hab Hba Hinit Hrun Hops ch Hk Hord m) as B.
  split.
  - intros Hs. rewrite (copies_bound_small _ _ _ _ Hs) in B.
    pose proof (dlv_sum_nodup (pkt_small ch m) (out_a s) (dlv_b s) Hnd) as Hle.
    unfold small_copies in B. unfold out_small_total. lia.
  - intros Hl idx Hidx. pose proof (copies_bound_slice (out_a s) (dlv_b s) ch m idx Hl Hidx) as Hmin.
    pose proof (dlv_sum_nodup (pkt_slice ch m idx) (out_a s) (dlv_b s) Hnd) as Hle.
    unfold slice_copies in Hmin. unfold out_slice_total. lia.
Qed.

Theorem non_duplicating_network_at_most_once : forall ba bb cfg_ab cfg_ba s0 ops s,
  cfg_u8 cfg_ab -> cfg_u8 cfg_ba ->
  sys_init ba bb cfg_ab cfg_ba = Ok s0 -> sys_run s0 ops = Ok s -> Forall (sysop_ok cfg_ab cfg_ba) ops ->
  forall ch, chan_kind cfg_ab ch = Some TUnreliable -> ordf_of cfg_ab ch = None ->
  NoDup (dlv_b s) ->
  forall m, carried_once (out_a s) ch m ->
    (count_occ msg_eq_dec (log_get (got_b s) ch) m <= 1)%nat.
Proof.
  intros ba bb cfg_ab cfg_ba s0 ops s Hab Hba Hinit Hrun Hops ch Hk Hord Hnd m Hc.
  destruct (non_duplicating_network_bound ba bb cfg_ab cfg_ba s0 ops s Hab Hba Hinit Hrun Hops ch Hk Hord Hnd m) as [A B].
  unfold carried_once in Hc. destruct (N.leb_spec (len m) SLICE_SIZE) as [Hs|Hl].
  - specialize (A Hs). lia.
  - destruct Hc as (idx & Hidx & Hc). specialize (B Hl idx Hidx). lia.
Qed.

(* non-vacuity: one unreliable channel, a small and a 2500-byte message (three slices).
   A's flush emits slice 0, slice 1, slice 2 (indices 0, 1, 2 of out_a) and then the
   SmallUnreliable packet with the small message (index 3). *)

Definition ux_cfg : list chan_config := [ {| cc_id := 0; cc_max := 10000; cc_type := TUnreliable |} ].

Definition ux_send : list sysop :=
  [ SysApi SA (CSend 0 sx_small); SysApi SA (CSend 0 sx_big); SysApi SA CFlush ].
Definition ux_recv5 : list sysop :=
  [ SysApi SB (CRecv 0); SysApi SB (CRecv 0); SysApi SB (CRecv 0); SysApi SB (CRecv 0); SysApi SB (CRecv 0) ].

Definition ux_ops_lost : list sysop :=
  ux_send ++ [ SysDeliver SB 0; SysDeliver SB 0; SysDeliver SB 2; SysDeliver SB 3 ] ++ ux_recv5.

Definition ux_ops_twice : list sysop :=
  ux_send ++ [ SysDeliver SB 0; SysDeliver SB 1; SysDeliver SB 2; SysDeliver SB 3;
               SysDeliver SB 0; SysDeliver SB 1; SysDeliver SB 2; SysDeliver SB 3 ] ++ ux_recv5.

(* every packet delivered twice, each duplicate right after the original: the duplicates of slices
   0 and 1 are absorbed by the open constructor, the duplicate of slice 2 opens a new one that
   never completes: the bound (2) is not reached *)
Definition ux_ops_pairs : list sysop :=
  ux_send ++ [ SysDeliver SB 0; SysDeliver SB 0; SysDeliver SB 1; SysDeliver SB 1;
               SysDeliver SB 2; SysDeliver SB 2; SysDeliver SB 3; SysDeliver SB 3 ] ++ ux_recv5.

Definition ux_summary (r : pres rsys) :=
  match r with
  | Ok s => Some (got_b s, dlv_b s,
                  map (fun b => match from_bytes b with
                                | Ok (UnreliableSlice sq ch sl) => Some (sq, Some (sl_id sl, sl_index sl, sl_num sl))
                                | Ok (SmallUnreliable sq ch ms) => Some (sq, None)
                                | _ => None
                                end) (out_a s),
                  map (slice_copies (out_a s) (dlv_b s) 0 sx_big) [0; 1; 2],
                  copies_bound (out_a s) (dlv_b s) 0 sx_big, count_occ msg_eq_dec (log_get (got_b s) 0) sx_big,
                  copies_bound (out_a s) (dlv_b s) 0 sx_small, count_occ msg_eq_dec (log_get (got_b s) 0) sx_small,
                  is_disconnected (ra s) || is_disconnected (rb s))
  | _ => None
  end.

(* the summary of a state whose per-slice delivery counts for sx_big are cs; the bound is their
   minimum, so the examples below evaluate the counts (which compare slice payloads) once *)
Lemma ux_summary_counts s cs : map (slice_copies (out_a s) (dlv_b s) 0 sx_big) [0; 1; 2] = cs ->
  ux_summary (Ok s) =
  Some (got_b s, dlv_b s,
        map (fun b => match from_bytes b with
                      | Ok (UnreliableSlice sq ch sl) => Some (sq, Some (sl_id sl, sl_index sl, sl_num sl))
                      | Ok (SmallUnreliable sq ch ms) => Some (sq, None)
                      | _ => None
                      end) (out_a s),
        cs, min_list cs, count_occ msg_eq_dec (log_get (got_b s) 0) sx_big,
        copies_bound (out_a s) (dlv_b s) 0 sx_small, count_occ msg_eq_dec (log_get (got_b s) 0) sx_small,
        is_disconnected (ra s) || is_disconnected (rb s)).
Proof.
  intros <-. unfold ux_summary.
  (* the pattern is closed: with holes, rewrite would try to unify sx_big with sx_small by unfolding both *)
  rewrite (copies_bound_sliced (out_a s) (dlv_b s) 0 sx_big) by (rewrite sx_big_eq; unfold N.lt; evaluates).
  replace (iota (num_slices_of sx_big)) with [0; 1; 2] by (rewrite sx_big_eq; evaluates). reflexivity.
Qed.

Definition ux_s1 : rsys := ltac:(evaluated (run_from_init ux_cfg ux_send)).
Lemma ux_s1_eq : run_from_init ux_cfg ux_send = Ok ux_s1.
Proof. unfold ux_send. rewrite sx_big_eq. evaluates. Qed.

Lemma ux_run_from_s1 rest : run_from_init ux_cfg (ux_send ++ rest) = sys_run ux_s1 rest.
Proof. rewrite run_from_init_app, ux_s1_eq. reflexivity. Qed.

Example unreliable_lost_slice :
  cfg_u8 ux_cfg /\ Forall (sysop_ok ux_cfg ux_cfg) ux_ops_lost /\
  chan_kind ux_cfg 0 = Some TUnreliable /\ ordf_of ux_cfg 0 = None /\
  ux_summary (run_from_init ux_cfg ux_ops_lost) =
    Some ([(0, [sx_small])], [0; 0; 2; 3]%nat,
          [Some (0, Some (0, 0, 3)); Some (1, Some (0, 1, 3)); Some (2, Some (0, 2, 3)); Some (3, None)],
          [2; 0; 1]%nat, 0%nat, 0%nat, 1%nat, 1%nat, false).
Proof.
  split; [repeat constructor|].
  split; [repeat constructor; cbn [sysop_ok chan_kind ux_cfg find cc_id]; discriminate|].
  split; [reflexivity|]. split; [reflexivity|].
  unfold ux_ops_lost, ux_summary. rewrite ux_run_from_s1, sx_big_eq. evaluates.
Qed.

Definition ux_twice : rsys := ltac:(evaluated (run_from_init ux_cfg ux_ops_twice)).
Lemma ux_twice_eq : run_from_init ux_cfg ux_ops_twice = Ok ux_twice.
Proof. unfold ux_ops_twice. rewrite ux_run_from_s1. evaluates. Qed.

(* the bound is tight: everything delivered twice, both messages obtained twice *)
Example unreliable_obtained_twice :
  Forall (sysop_ok ux_cfg ux_cfg) ux_ops_twice /\
  ux_summary (run_from_init ux_cfg ux_ops_twice) =
    Some ([(0, [sx_big; sx_small; sx_big; sx_small])], [0; 1; 2; 3; 0; 1; 2; 3]%nat,
          [Some (0, Some (0, 0, 3)); Some (1, Some (0, 1, 3)); Some (2, Some (0, 2, 3)); Some (3, None)],
          [2; 2; 2]%nat, 2%nat, 2%nat, 2%nat, 2%nat, false).
Proof.
  split; [repeat constructor; cbn [sysop_ok chan_kind ux_cfg find cc_id]; discriminate|].
  rewrite ux_twice_eq, (ux_summary_counts ux_twice [2; 2; 2]%nat) by (rewrite sx_big_eq; evaluates).
  rewrite sx_big_eq. evaluates.
Qed.

Definition ux_pairs : rsys := ltac:(evaluated (run_from_init ux_cfg ux_ops_pairs)).
Lemma ux_pairs_eq : run_from_init ux_cfg ux_ops_pairs = Ok ux_pairs.
Proof. unfold ux_ops_pairs. rewrite ux_run_from_s1. evaluates. Qed.

Example unreliable_duplicates_absorbed :
  ux_summary (run_from_init ux_cfg ux_ops_pairs) =
    Some ([(0, [sx_big; sx_small; sx_small])], [0; 0; 1; 1; 2; 2; 3; 3]%nat,
          [Some (0, Some (0, 0, 3)); Some (1, Some (0, 1, 3)); Some (2, Some (0, 2, 3)); Some (3, None)],
          [2; 2; 2]%nat, 2%nat, 1%nat, 2%nat, 2%nat, false).
Proof.
  rewrite ux_pairs_eq, (ux_summary_counts ux_pairs [2; 2; 2]%nat) by (rewrite sx_big_eq; evaluates).
  rewrite sx_big_eq. evaluates.
Qed.

(* an observation on the model: the duplicate of the last slice, arriving after the message was
   completed, opens a fresh constructor that reserves room for the whole message (3 * SLICE_SIZE
   bytes of the channel's memory) and holds one slice; it can only be completed by further
   duplicates (which is what copies_bound allows), otherwise it stays until discard_old drops it
   (DISCARD_SLICE_SECS after its last slice). *)
Example late_duplicate_opens_constructor :
  (match run_from_init ux_cfg ux_ops_pairs with
  | Ok s => match sm_find 0 (c_ru (rb s)) with
            | Some r => Some (map (fun e => (fst e, sc_num (snd e), sc_nrecv (snd e))) (ru_slices r), ru_mem r,
                              ctor_cnt (ru_slices r) sx_big 2, ctor_cnt (ru_slices r) sx_big 0)
            | None => None
            end
  | _ => None
  end = Some ([(0, 3, 1)], 3600, 1%nat, 0%nat)) /\
  (* four seconds later update() has dropped it *)
  (match run_from_init ux_cfg (ux_ops_pairs ++ [SysApi SB (CUpdate 4000000000)]) with
  | Ok s => match sm_find 0 (c_ru (rb s)) with
            | Some r => Some (map fst (ru_slices r), ru_mem r)
            | None => None
            end
  | _ => None
  end = Some ([], 0)).
Proof. rewrite run_from_init_app, ux_pairs_eq, sx_big_eq. split; evaluates. Qed.

(* the statement without [ordf_of cfg_ab ch = None] is false of the model.
   conn_new accepts one id configured both as unreliable and as reliable (RSysP.cross_kind_duplicate_id);
   chan_kind then says TUnreliable (first entry), but send_message and receive_message use the
   reliable channel: the message travels in a SmallReliable packet, is obtained once, and no
   SmallUnreliable packet carrying it was ever delivered (there is none). *)
Theorem multiplicity_without_distinct_ids_refuted :
  ~ (forall ba bb cfg_ab cfg_ba s0 ops s,
       cfg_u8 cfg_ab -> cfg_u8 cfg_ba ->
       sys_init ba bb cfg_ab cfg_ba = Ok s0 -> sys_run s0 ops = Ok s -> Forall (sysop_ok cfg_ab cfg_ba) ops ->
       forall ch, chan_kind cfg_ab ch = Some TUnreliable ->
       forall m, (count_occ msg_eq_dec (log_get (got_b s) ch) m <= copies_bound (out_a s) (dlv_b s) ch m)%nat).
Proof.
  intros H. destruct (run_from_init_ok _ _ _ dup_s_eq) as (s0 & Ei & Er).
  assert (Hu8 : cfg_u8 dup_cfg) by (repeat constructor).
  assert (Hops : Forall (sysop_ok dup_cfg dup_cfg) dup_ops).
  { repeat constructor; cbn [sysop_ok chan_kind dup_cfg find cc_id]; discriminate. }
  specialize (H 60000 60000 dup_cfg dup_cfg s0 dup_ops dup_s Hu8 Hu8 Ei Er Hops 0 eq_refl (la_msg 7)).
  assert (F1 : count_occ msg_eq_dec (log_get (got_b dup_s) 0) (la_msg 7) = 1%nat) by evaluates.
  assert (F2 : copies_bound (out_a dup_s) (dlv_b dup_s) 0 (la_msg 7) = 0%nat) by evaluates.
  rewrite F1, F2 in H. lia.
Qed.

Print Assumptions sys_unreliable_multiplicity.
Print Assumptions sys_unreliable_multiplicity_ba.
Print Assumptions non_duplicating_network_at_most_once.
Print Assumptions non_duplicating_network_bound.
Print Assumptions lost_slice_loses_message.
Print Assumptions lost_packet_loses_message.
Print Assumptions unreliable_lost_slice.
Print Assumptions unreliable_obtained_twice.
Print Assumptions unreliable_duplicates_absorbed.
Print Assumptions late_duplicate_opens_constructor.
Print Assumptions multiplicity_without_distinct_ids_refuted.

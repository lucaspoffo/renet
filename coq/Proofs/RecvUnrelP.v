(* RecvUnrelP.v - ReceiveChannelUnreliable: safety under hostile input, memory accounting,
   what a slice of an honest sender does (ru_fed), and the discard of stale partial messages. *)
From RenetV Require Import Base Consts Varint Packet Channels RecvSpec SMapP SliceP BaseP.
Require Import Lia.
Open Scope N_scope.

Lemma lasts_bytes_snoc a m : lasts_bytes (a ++ [m]) = lasts_bytes a + len m.
Proof. unfold lasts_bytes. rewrite map_app, sum_app. cbn [map]. rewrite sum_cons, sum_nil. lia. Qed.

Lemma ru_inv_tbl now r : ru_inv now r -> tbl_ok (ru_slices r).
Proof. intros (_ & _ & I3 & _ & _ & I6 & _). exact (conj I3 I6). Qed.

Theorem ru_inv_init : forall now max, ru_inv now (recv_unrel_new max).
Proof.
  intros now max. unfold ru_inv, recv_unrel_new.
  cbn [ru_messages ru_slices ru_last ru_max ru_mem map].
  split; [reflexivity|]. split; [lia|]. split; [constructor|].
  split; [intros id H; discriminate|]. split; [intros id t H; discriminate|]. split; exact I.
Qed.

Lemma ru_inv_msgs now r ms mem :
  ru_inv now r -> mem + lasts_bytes (ru_messages r) = ru_mem r + lasts_bytes ms -> mem <= ru_max r ->
  ru_inv now (ru_with r ms (ru_slices r) (ru_last r) mem).
Proof.
  intros (I1 & I2 & I) Hmem Hmax. unfold ru_inv. cbn [ru_with ru_messages ru_slices ru_last ru_max ru_mem].
  split; [lia|]. split; [exact Hmax|exact I].
Qed.

Theorem ru_process_message_safe : forall now r m, ru_inv now r ->
  ru_inv now (ru_process_message r m) /\ ru_max (ru_process_message r m) = ru_max r.
Proof.
  intros now r m Hinv. unfold ru_process_message.
  destruct (N.ltb_spec (ru_max r) (ru_mem r + len m)); [auto|].
  split; [|reflexivity]. apply ru_inv_msgs; [exact Hinv|rewrite lasts_bytes_snoc; lia|lia].
Qed.

Lemma ru_receive_cases r r' mo : ru_receive r = Ok (r', mo) ->
  (ru_messages r = [] /\ mo = None /\ r' = r) \/
  exists m t mem, ru_messages r = m :: t /\ mo = Some m /\ r' = ru_with r t (ru_slices r) (ru_last r) mem.
Proof.
  unfold ru_receive. intros E. destruct (ru_messages r) as [|m t].
  - left. injection E as <- <-. auto.
  - destruct (sub_chk SITE_RECV_MEM_SUB (ru_mem r) (len m)) as [mem| |]; cbn [bind] in E; try discriminate.
    injection E as <- <-. right. exists m, t, mem. auto.
Qed.

Theorem ru_receive_safe : forall now r, ru_inv now r ->
  match ru_receive r with
  | Ok (r', _) => ru_inv now r' /\ ru_max r' = ru_max r
  | _ => False
  end.
Proof.
  intros now r Hinv. unfold ru_receive. destruct (ru_messages r) as [|m t] eqn:E; [auto|].
  pose proof Hinv as (I1 & I2 & _). rewrite E in I1.
  change (lasts_bytes (m :: t)) with (len m + lasts_bytes t) in I1.
  rewrite sub_chk_ok by lia. cbn [bind].
  split; [|reflexivity]. apply ru_inv_msgs; [exact Hinv| |lia].
  rewrite E. change (lasts_bytes (m :: t)) with (len m + lasts_bytes t). lia.
Qed.

Theorem ru_inv_mono : forall now now' r, ru_inv now r -> now <= now' -> ru_inv now' r.
Proof.
  intros now now' r (I1 & I2 & I3 & I4 & I5 & I6 & I7) H. unfold ru_inv.
  repeat (split; [assumption|]). split; [|auto]. intros id t Hf. specialize (I5 id t Hf). lia.
Qed.

Lemma ru_inv_drop now r id c ms mem :
  ru_inv now r -> sm_find id (ru_slices r) = Some c ->
  mem + sc_num c * SLICE_SIZE + lasts_bytes (ru_messages r) = ru_mem r + lasts_bytes ms ->
  mem <= ru_max r ->
  ru_inv now (ru_with r ms (sm_remove id (ru_slices r)) (sm_remove id (ru_last r)) mem).
Proof.
  intros Hinv Hf Hmem Hmax. destruct (tbl_close id c _ (ru_inv_tbl now r Hinv) Hf) as [[W A] R].
  destruct Hinv as (I1 & I2 & I3 & I4 & I5 & I6 & I7).
  unfold ru_inv. cbn [ru_with ru_messages ru_slices ru_last ru_max ru_mem].
  split; [lia|]. split; [exact Hmax|]. split; [exact W|].
  split; [|split; [|split; [exact A|apply asc_sm_remove; exact I7]]].
  - intros k. rewrite !sm_mem_remove by auto. intros Hk. apply andb_true_iff in Hk.
    destruct Hk as [K1 K2]. rewrite K1, (I4 k K2). reflexivity.
  - intros k t. rewrite sm_find_remove by auto. destruct (k =? id); [discriminate|apply I5].
Qed.

Definition ru_body (r1 : recv_unrel) (id idx : N) (payload : list N) (now : N) (c : sctor)
  : cres recv_unrel :=
  match sctor_process c idx payload with
  | Panic p => Panic p
  | Err e => Err e
  | Ok (c', None) =>
      Ok (ru_with r1 (ru_messages r1) (sm_insert id c' (ru_slices r1)) (sm_insert id now (ru_last r1))
                  (ru_mem r1))
  | Ok (c', Some m) =>
      do mem <- sub_chk SITE_RECV_MEM_SUB (ru_mem r1) (sc_num c * SLICE_SIZE);
      Ok (ru_with r1 (ru_messages r1 ++ [m]) (sm_remove id (ru_slices r1)) (sm_remove id (ru_last r1))
                  (mem + len m))
  end.

Lemma ru_body_safe now r1 id idx payload c :
  ru_inv now r1 -> sm_find id (ru_slices r1) = Some c ->
  match ru_body r1 id idx payload now c with
  | Ok r' => ru_inv now r' /\ ru_max r' = ru_max r1
  | Err e => e = InvalidSliceMessage
  | Panic _ => False
  end.
Proof.
  intros Hinv Hf. pose proof (ru_inv_tbl now r1 Hinv) as T.
  pose proof (sctor_process_safe c idx payload (tbl_find id c _ T Hf)) as P. unfold ru_body.
  destruct (sctor_process c idx payload) as [[c' [m|]]|e|p]; auto.
  - destruct (tbl_close id c _ T Hf) as [_ R]. pose proof Hinv as (I1 & I2 & _).
    rewrite sub_chk_ok by lia. cbn [bind].
    split; [|reflexivity]. apply (ru_inv_drop now r1 id c); auto.
    + rewrite lasts_bytes_snoc. lia.
    + lia.
  - destruct P as [W' En]. destruct (tbl_put id c c' _ T Hf W' En) as [[W A] E].
    destruct Hinv as (I1 & I2 & I3 & I4 & I5 & I6 & I7). split; [|reflexivity].
    unfold ru_inv. cbn [ru_with ru_messages ru_slices ru_last ru_max ru_mem].
    split; [lia|]. split; [exact I2|]. split; [exact W|].
    split; [|split; [|split; [exact A|apply asc_sm_insert; exact I7]]].
    + intros k. rewrite !sm_mem_insert. destruct (k =? id); cbn [orb]; auto.
    + intros k t. rewrite sm_find_insert. destruct (k =? id); [intros [= <-]; lia|apply I5].
Qed.

Definition ru_reserve (r : recv_unrel) (id n : N) : recv_unrel :=
  ru_with r (ru_messages r) (sm_insert id (sctor_new n) (ru_slices r)) (ru_last r) (ru_mem r + n * SLICE_SIZE).

Lemma ru_ps_spec r s now :
  ru_process_slice r s now =
  match sm_find (sl_id s) (ru_slices r) with
  | Some c => ru_body r (sl_id s) (sl_index s) (sl_payload s) now c
  | None =>
      if ru_max r <? ru_mem r + sl_num s * SLICE_SIZE then Ok r
      else ru_body (ru_reserve r (sl_id s) (sl_num s)) (sl_id s) (sl_index s) (sl_payload s) now
                   (sctor_new (sl_num s))
  end.
Proof.
  unfold ru_process_slice, ru_body.
  destruct (sm_find (sl_id s) (ru_slices r)) as [c|] eqn:Ef.
  - rewrite Ef. destruct (sctor_process c (sl_index s) (sl_payload s)) as [[c' [m|]]|e|p]; reflexivity.
  - destruct (ru_max r <? ru_mem r + sl_num s * SLICE_SIZE); [reflexivity|].
    unfold ru_reserve. cbn [ru_with ru_slices]. rewrite sm_find_insert_same.
    destruct (sctor_process (sctor_new (sl_num s)) (sl_index s) (sl_payload s)) as [[c' [m|]]|e|p]; reflexivity.
Qed.

Lemma ru_inv_reserve now r id n : ru_inv now r -> 1 <= n -> sm_find id (ru_slices r) = None ->
  ru_mem r + n * SLICE_SIZE <= ru_max r ->
  ru_inv now (ru_reserve r id n).
Proof.
  intros Hinv Hn Hf Hmax. destruct (tbl_open id n _ (ru_inv_tbl now r Hinv) Hn Hf) as [[W A] E].
  destruct Hinv as (I1 & I2 & I3 & I4 & I5 & I6 & I7).
  unfold ru_inv, ru_reserve. cbn [ru_with ru_messages ru_slices ru_last ru_max ru_mem].
  split; [lia|]. split; [exact Hmax|]. split; [exact W|].
  split; [|split; [exact I5|split; [exact A|exact I7]]].
  intros k Hk. rewrite sm_mem_insert, (I4 k Hk). apply orb_true_r.
Qed.

Theorem ru_process_slice_safe : forall now r s, ru_inv now r -> slice_decoded s ->
  match ru_process_slice r s now with
  | Ok r' => ru_inv now r' /\ ru_max r' = ru_max r
  | Err e => e = InvalidSliceMessage
  | Panic _ => False
  end.
Proof.
  intros now r s Hinv [Hn _]. rewrite ru_ps_spec.
  destruct (sm_find (sl_id s) (ru_slices r)) as [c|] eqn:Ef.
  - apply ru_body_safe; auto.
  - destruct (N.ltb_spec (ru_max r) (ru_mem r + sl_num s * SLICE_SIZE)); [auto|].
    apply (ru_body_safe now (ru_reserve r (sl_id s) (sl_num s))); [|apply sm_find_insert_same].
    apply ru_inv_reserve; [exact Hinv|exact Hn|exact Ef|lia].
Qed.

(* The honest sender: what feeding slice idx of message m to the entry sid does to the two fields an observer
   reads.  c0 is the constructor the slice goes into, a fresh one if sid has none; the first case is the
   refusal for lack of memory, which the code passes over in silence. *)
Definition ru_fed (r : recv_unrel) (sid idx : N) (m : list N) (r' : recv_unrel) : Prop :=
  r' = r \/
  let c0 := match sm_find sid (ru_slices r) with Some c => c | None => sctor_new (num_slices_of m) end in
  (ru_messages r' = ru_messages r ++ [m] /\ ru_slices r' = sm_remove sid (ru_slices r) /\
   forall i, i < num_slices_of m -> has c0 i \/ i = idx) \/
  (exists c', ru_messages r' = ru_messages r /\ ru_slices r' = sm_insert sid c' (ru_slices r) /\
     sctor_wf c' /\ ctor_ok m c' /\ forall i, has c' i <-> has c0 i \/ i = idx).

Lemma ru_body_honest r1 sid idx m c now r' :
  sctor_wf c -> ctor_ok m c -> SLICE_SIZE < len m -> idx < num_slices_of m ->
  ru_body r1 sid idx (slice_payload m idx) now c = Ok r' ->
  (ru_messages r' = ru_messages r1 ++ [m] /\ ru_slices r' = sm_remove sid (ru_slices r1) /\
   forall i, i < num_slices_of m -> has c i \/ i = idx) \/
  (exists c', ru_messages r' = ru_messages r1 /\ ru_slices r' = sm_insert sid c' (ru_slices r1) /\
     sctor_wf c' /\ ctor_ok m c' /\ forall i, has c' i <-> has c i \/ i = idx).
Proof.
  intros W O Hl Hi E. unfold ru_body in E. pose proof (sctor_process_honest m c idx Hl W O Hi) as P.
  destruct (sctor_process c idx (slice_payload m idx)) as [[c' [m'|]]|e|s]; try contradiction.
  - destruct P as [-> Hall]. left.
    destruct (sub_chk SITE_RECV_MEM_SUB (ru_mem r1) (sc_num c * SLICE_SIZE)); cbn [bind] in E; try discriminate.
    injection E as <-. auto.
  - destruct P as (W' & O' & _ & Hh). injection E as <-. right. exists c'. auto.
Qed.

Lemma ru_process_slice_honest now r sid idx m r' :
  ru_inv now r -> SLICE_SIZE < len m -> idx < num_slices_of m ->
  (forall c, sm_find sid (ru_slices r) = Some c -> ctor_ok m c) ->
  ru_process_slice r (slice_of m sid idx) now = Ok r' -> ru_fed r sid idx m r'.
Proof.
  intros Hinv Hl Hi Hc E. pose proof (ru_inv_tbl now r Hinv) as T. pose proof T as [_ A].
  rewrite ru_ps_spec in E. cbn [slice_of sl_id sl_index sl_num sl_payload] in E.
  unfold ru_fed. destruct (sm_find sid (ru_slices r)) as [c|] eqn:Ef.
  - right. exact (ru_body_honest r sid idx m c now r' (tbl_find _ _ _ T Ef) (Hc c eq_refl) Hl Hi E).
  - destruct (ru_max r <? ru_mem r + num_slices_of m * SLICE_SIZE); [injection E as <-; left; reflexivity|].
    right.
    pose proof (num_bounds m Hl) as (_ & _ & B).
    assert (W : sctor_wf (sctor_new (num_slices_of m))) by (apply sctor_new_wf; lia).
    destruct (ru_body_honest _ sid idx m _ now r' W (ctor_ok_new m) Hl Hi E)
      as [(E1 & E2 & H)|(c' & E1 & E2 & H)]; cbn [ru_reserve ru_with ru_messages ru_slices] in E1, E2.
    + left. rewrite sm_remove_insert in E2 by exact A. auto.
    + right. exists c'. rewrite sm_insert_insert in E2. auto.
Qed.

Definition stale (now t : N) : bool := DISCARD_SLICE_SECS * 1000000000 <=? now - t.

Definition stale_in (now : N) (la : list (N * N)) (id : N) : bool :=
  match sm_find id la with Some t => stale now t | None => false end.

Definition stale_sum (now : N) (la : list (N * N)) (sl : list (N * sctor)) : N :=
  sum (map (fun it => if stale now (snd it)
                      then match sm_find (fst it) sl with Some c => sc_num c * SLICE_SIZE | None => 0 end
                      else 0) la).

Definition stale_bytes (now : N) (r : recv_unrel) : N := stale_sum now (ru_last r) (ru_slices r).

Lemma stale_sum_remove now la sl id : Forall (fun k => id < k) (map fst la) ->
  stale_sum now la (sm_remove id sl) = stale_sum now la sl.
Proof.
  unfold stale_sum. induction la as [|[k t] la IH]; intros F; [reflexivity|].
  cbn [map fst snd] in *. inversion F; subst.
  rewrite !sum_cons, sm_find_remove_other by lia. f_equal. apply IH. assumption.
Qed.

(* what the loop does to each of the two maps: the stale ids of la are removed *)
Fixpoint drop_stale {V} (now : N) (la : list (N * N)) (m : list (N * V)) : list (N * V) :=
  match la with
  | [] => m
  | (id, t) :: rest => drop_stale now rest (if stale now t then sm_remove id m else m)
  end.

Lemma find_drop_stale {V} now la : forall (m : list (N * V)) k,
  asc (map fst la) -> asc (map fst m) ->
  sm_find k (drop_stale now la m) = if stale_in now la k then None else sm_find k m.
Proof.
  induction la as [|[id t] rest IH]; intros m k A Am; [reflexivity|].
  cbn [map fst] in A. destruct A as [Alt Arest]. cbn [drop_stale].
  rewrite IH; [|exact Arest|destruct (stale now t); [apply asc_sm_remove|]; exact Am].
  unfold stale_in. cbn [sm_find]. destruct (N.eqb_spec k id) as [->|Hne].
  - rewrite (sm_find_lt_none id rest Alt).
    destruct (stale now t); [rewrite sm_find_remove, N.eqb_refl by exact Am|]; reflexivity.
  - destruct (stale now t); [rewrite sm_find_remove_other by exact Hne|]; reflexivity.
Qed.

Lemma vsum_drop_stale_le {V} (f : V -> N) now la : forall m : list (N * V), vsum f (drop_stale now la m) <= vsum f m.
Proof.
  induction la as [|[id t] rest IH]; intros m; cbn [drop_stale]; [lia|].
  destruct (stale now t); [|apply IH]. pose proof (IH (sm_remove id m)). pose proof (vsum_remove f id m). lia.
Qed.

Lemma discard_loop_spec now : forall la r,
  ru_inv now r -> asc (map fst la) ->
  (forall id t, sm_find id la = Some t -> sm_find id (ru_last r) = Some t) ->
  exists r', ru_discard_loop now la r = Ok r' /\
    ru_inv now r' /\ ru_max r' = ru_max r /\ ru_messages r' = ru_messages r /\
    ru_slices r' = drop_stale now la (ru_slices r) /\ ru_last r' = drop_stale now la (ru_last r) /\
    ru_mem r' + stale_sum now la (ru_slices r) = ru_mem r.
Proof.
  induction la as [|[id t] rest IH]; intros r Hinv A Hsub.
  - exists r. cbn [ru_discard_loop drop_stale]. unfold stale_sum. cbn [map]. rewrite sum_nil.
    repeat (split; [reflexivity || exact Hinv|]). lia.
  - pose proof Hinv as (I1 & I2 & I3 & I4 & I5 & I6 & I7).
    cbn [map fst] in A. destruct A as [Alt Arest].
    assert (Hlast : sm_find id (ru_last r) = Some t).
    { apply Hsub. cbn [sm_find]. rewrite N.eqb_refl. reflexivity. }
    assert (Hrest : forall k t', sm_find k rest = Some t' ->
                      k <> id /\ sm_find k (ru_last r) = Some t').
    { intros k t' Hk. assert (k <> id) by (intros ->; rewrite (sm_find_lt_none id rest Alt) in Hk; discriminate).
      split; [assumption|]. apply Hsub. cbn [sm_find]. destruct (N.eqb_spec k id); [contradiction|exact Hk]. }
    pose proof (I5 id t Hlast) as Ht.
    cbn [ru_discard_loop drop_stale]. rewrite sub_chk_ok by exact Ht. cbn [bind].
    unfold stale_sum. cbn [map fst snd]. rewrite sum_cons. fold (stale_sum now rest (ru_slices r)).
    fold (stale now t). destruct (stale now t) eqn:Est.
    + (* stale: the entry and its reservation are dropped *)
      destruct (sm_mem_find _ _ (I4 id (sm_find_some_mem _ _ _ Hlast))) as [c Hc]. rewrite Hc.
      destruct (tbl_close id c _ (ru_inv_tbl now r Hinv) Hc) as [_ R].
      rewrite sub_chk_ok by lia. cbn [bind].
      set (r2 := ru_with r (ru_messages r) (sm_remove id (ru_slices r)) (sm_remove id (ru_last r))
                         (ru_mem r - sc_num c * SLICE_SIZE)).
      assert (Hinv2 : ru_inv now r2) by (apply (ru_inv_drop now r id c); auto; lia).
      destruct (IH r2 Hinv2 Arest) as (r' & E & Hinv' & Emax & Emsgs & Esl & Ela & Emem).
      { intros k t' Hk. destruct (Hrest k t' Hk) as [Hne Hk']. unfold r2. cbn [ru_with ru_last].
        rewrite sm_find_remove_other by exact Hne. exact Hk'. }
      exists r'. unfold r2 in Emem. cbn [ru_with ru_slices ru_mem] in Emem.
      rewrite stale_sum_remove in Emem by exact Alt.
      repeat (split; [assumption|]). lia.
    + (* kept *)
      destruct (IH r Hinv Arest) as (r' & E & Hinv' & Emax & Emsgs & Esl & Ela & Emem).
      { intros k t' Hk. apply (Hrest k t' Hk). }
      exists r'. repeat (split; [assumption|]). lia.
Qed.

Lemma discard_old_spec now now' r : ru_inv now r -> now <= now' ->
  exists r', ru_discard_old r now' = Ok r' /\
    ru_inv now' r' /\ ru_max r' = ru_max r /\ ru_messages r' = ru_messages r /\
    ru_slices r' = drop_stale now' (ru_last r) (ru_slices r) /\ ru_last r' = drop_stale now' (ru_last r) (ru_last r) /\
    ru_mem r' + stale_bytes now' r = ru_mem r.
Proof.
  intros Hinv Hle. pose proof (ru_inv_mono now now' r Hinv Hle) as Hinv'.
  pose proof Hinv' as (_ & _ & _ & _ & _ & _ & I7).
  exact (discard_loop_spec now' (ru_last r) r Hinv' I7 (fun _ _ H => H)).
Qed.

Theorem ru_discard_old_safe : forall now now' r, ru_inv now r -> now <= now' ->
  match ru_discard_old r now' with
  | Ok r' => ru_inv now' r' /\ ru_max r' = ru_max r
  | _ => False
  end.
Proof.
  intros now now' r Hinv Hle.
  destruct (discard_old_spec now now' r Hinv Hle) as (r' & -> & H1 & H2 & _). auto.
Qed.

Theorem stale_discarded : forall now now' r r', ru_inv now r -> now <= now' ->
  ru_discard_old r now' = Ok r' ->
  (forall id t, sm_find id (ru_last r) = Some t ->
                DISCARD_SLICE_SECS * 1000000000 <= now' - t ->
                sm_mem id (ru_slices r') = false) /\
  (* exactly the stale ids are dropped, everything else is untouched *)
  (forall id, sm_find id (ru_slices r') =
              if stale_in now' (ru_last r) id then None else sm_find id (ru_slices r)) /\
  (forall id, sm_find id (ru_last r') =
              if stale_in now' (ru_last r) id then None else sm_find id (ru_last r)) /\
  ru_messages r' = ru_messages r /\
  (* and exactly their reservations are released *)
  ru_mem r' + stale_bytes now' r = ru_mem r.
Proof.
  intros now now' r r' Hinv Hle E.
  destruct (discard_old_spec now now' r Hinv Hle) as (r'' & E' & _ & _ & Hm & Hsl & Hla & Hmem).
  rewrite E in E'. injection E' as <-.
  destruct Hinv as (_ & _ & _ & _ & _ & I6 & I7).
  pose proof (fun k => find_drop_stale now' (ru_last r) (ru_slices r) k I7 I6) as Fsl. rewrite <- Hsl in Fsl.
  pose proof (fun k => find_drop_stale now' (ru_last r) (ru_last r) k I7 I7) as Fla. rewrite <- Hla in Fla.
  split; [|auto]. intros id t Hf Hst. apply sm_find_none_mem. rewrite Fsl.
  unfold stale_in. rewrite Hf. unfold stale.
  destruct (N.leb_spec (DISCARD_SLICE_SECS * 1000000000) (now' - t)); [reflexivity|lia].
Qed.

Print Assumptions ru_inv_init.
Print Assumptions ru_process_message_safe.
Print Assumptions ru_process_slice_safe.
Print Assumptions ru_discard_old_safe.
Print Assumptions ru_receive_safe.
Print Assumptions ru_inv_mono.
Print Assumptions stale_discarded.

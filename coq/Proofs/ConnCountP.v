(* ConnCountP.v - how many packets one get_packets_to_send can emit, and that under
   counters_small every integer the encoder writes as a varint is at most 2^62 - 1. *)
From RenetV Require Import Base Consts Varint Packet Channels Conn.
From RenetV Require Import CodecSpec RecvSpec SendSpec ConnSpec ConnInvSpec.
From RenetV Require Import SMapP ConnBaseP ConnProcP ConnFlushP BaseP.
From RenetV Require SMapSendP SendRelP SendUnrelP PacketP ConnEncP.
Require Import Lia ZifyBool ZifyN ZifyNat.
Open Scope N_scope.

Local Opaque SLICE_SIZE MAX_ACK_RANGES SER_BUFFER NC_MAX_PAYLOAD_BYTES DISCARD_PACKET_SECS VARINT_MAX.

Lemma len_le_length {A B} (a : list A) (b : list B) : (length a <= length b)%nat -> len a <= len b.
Proof. unfold len. lia. Qed.

(* a reliable channel: every packet carries a pending part, except at most one empty one *)

Definition all_parts (us : list (N * unacked)) : list (N * option N) :=
  flat_map (fun iu => match snd iu with
                      | USmall _ _ => [(fst iu, None)]
                      | USliced _ num _ _ _ _ => map (fun i => (fst iu, Some i)) (iota num)
                      end) us.

Lemma len_all_parts us : len (all_parts us) = sum (map (fun iu => unacked_parts (snd iu)) us).
Proof.
  induction us as [|[id u] t IH]; [reflexivity|].
  cbn [all_parts flat_map map snd fst]. fold (all_parts t). rewrite len_app, sum_cons, IH.
  f_equal. destruct u; cbn [unacked_parts]; [reflexivity|]. now rewrite len_map, len_iota.
Qed.

Lemma pkt_ok_parts ch us p :
  SendRelP.pkt_ok ch (SendRelP.st_of us) p -> incl (parts_of [p]) (all_parts us).
Proof.
  destruct p as [sq c ms|sq c ms|sq c sl|sq c sl|sq rs]; cbn [SendRelP.pkt_ok parts_of]; try contradiction.
  - intros [_ HF] x Hx. rewrite app_nil_r in Hx. apply in_map_iff in Hx. destruct Hx as (im & <- & Him).
    rewrite Forall_forall in HF. specialize (HF _ Him). apply SendRelP.st_of_small in HF. destruct HF as (l & Ef).
    apply sm_find_in in Ef. unfold all_parts. apply in_flat_map. exists (fst im, USmall (snd im) l).
    split; [exact Ef|now left].
  - intros [_ (m & num & Hst & _ & Hidx)] x [<-|[]].
    apply SendRelP.st_of_sliced in Hst. destruct Hst as (na & nx & ak & ls & Ef).
    apply sm_find_in in Ef. unfold all_parts. apply in_flat_map. exists (sl_id sl, USliced m num na nx ak ls).
    split; [exact Ef|]. cbn [fst snd]. apply in_map_iff. exists (sl_index sl). split; [reflexivity|].
    now apply in_iota.
Qed.

Lemma parts_of_cons p t : parts_of (p :: t) = parts_of [p] ++ parts_of t.
Proof. apply (SendRelP.parts_of_app [p] t). Qed.

Lemma pkts_ok_parts ch us pkts :
  Forall (SendRelP.pkt_ok ch (SendRelP.st_of us)) pkts -> incl (parts_of pkts) (all_parts us).
Proof.
  induction 1 as [|p t Hp _ IH]; [intros x []|].
  rewrite parts_of_cons. apply incl_app; [eapply pkt_ok_parts; eauto|exact IH].
Qed.

Definition is_nil {A} (l : list A) : bool := match l with [] => true | _ => false end.

Lemma pkts_count ch st pkts :
  Forall (SendRelP.pkt_ok ch st) pkts ->
  len pkts <= len (parts_of pkts) + len (filter is_nil (SendRelP.bodies pkts)).
Proof.
  induction 1 as [|p t Hp _ IH]; [rewrite !len_nil; lia|].
  rewrite len_cons, parts_of_cons, len_app.
  change (p :: t) with ([p] ++ t). rewrite SendRelP.bodies_app, filter_app, len_app.
  destruct p as [sq c ms|sq c ms|sq c sl|sq c sl|sq rs]; cbn [SendRelP.pkt_ok] in Hp; try contradiction.
  - unfold SendRelP.bodies at 1. cbn [flat_map app parts_of filter]. rewrite app_nil_r, len_map.
    destruct ms as [|im ms]; cbn [is_nil]; rewrite ?len_cons, ?len_nil; lia.
  - unfold SendRelP.bodies at 1. cbn [flat_map app parts_of filter]. rewrite len_cons, !len_nil. lia.
Qed.

Lemma filter_nil_nonempty {A} (more : list (list A)) :
  Forall (fun b => b <> []) more -> filter is_nil more = [].
Proof.
  induction 1 as [|b t Hb _ IH]; [reflexivity|]. cbn [filter].
  destruct b; [contradiction|]. cbn [is_nil]. exact IH.
Qed.

Lemma shape_empties F : SendRelP.shape F -> len (filter is_nil F) <= 1.
Proof.
  destruct F as [|[|im r] F']; cbn [SendRelP.shape filter is_nil].
  - intros _. rewrite len_nil. lia.
  - destruct F' as [|[|im r] more]; try contradiction. intros [_ H].
    cbn [filter is_nil]. rewrite (filter_nil_nonempty _ H), len_cons, len_nil. lia.
  - intros [_ H]. rewrite (filter_nil_nonempty _ H), len_nil. lia.
Qed.

Lemma same_static_parts u u' : SendRelP.same_static u u' -> unacked_parts u' = unacked_parts u.
Proof.
  destruct u, u'; cbn [SendRelP.same_static unacked_parts]; try tauto. intros (_ & -> & _). reflexivity.
Qed.

Lemma sr_len_bound now s seq avail s' pkts seq' avail' :
  sr_inv now s -> sr_get_packets s seq avail now = Ok (s', pkts, seq', avail') ->
  len pkts <= sr_pkt_bound s /\ sr_pkt_bound s' = sr_pkt_bound s.
Proof.
  intros Hinv E. pose proof (SendRelP.sr_get_packets_facts Hinv E) as T.
  split.
  - pose proof (pkts_count _ _ _ (SendRelP.tf_pkts T)) as H1.
    pose proof (shape_empties _ (SendRelP.tf_shape T)) as H2.
    pose proof (pkts_ok_parts _ _ _ (SendRelP.tf_pkts T)) as H3.
    pose proof (SendRelP.tf_nodup T) as H4.
    pose proof (NoDup_incl_length H4 H3) as H5. apply len_le_length in H5.
    rewrite len_all_parts in H5. unfold sr_pkt_bound. lia.
  - unfold sr_pkt_bound. f_equal.
    eapply Forall2_sum_eq; [|exact (SendRelP.tf_rel T)].
    intros x y (_ & _ & V3 & _). cbv beta. now apply same_static_parts.
Qed.

Lemma su_msg_bound_large m : SendUnrelP.is_large m = true -> su_msg_bound m = num_slices_of m.
Proof. unfold su_msg_bound, SendUnrelP.is_large. intros ->. reflexivity. Qed.
Lemma su_msg_bound_small m : SendUnrelP.is_large m = false -> su_msg_bound m = 1.
Proof. unfold su_msg_bound, SendUnrelP.is_large. intros ->. reflexivity. Qed.

Lemma su_pack_len ch : forall kept sid seq cur,
  len (SendUnrelP.su_pack ch kept sid seq cur) <= sum (map su_msg_bound kept) + 1.
Proof.
  induction kept as [|m t IH]; intros sid seq cur; cbn [SendUnrelP.su_pack map].
  - rewrite sum_nil. destruct cur; rewrite ?len_cons, len_nil; lia.
  - rewrite sum_cons. destruct (SendUnrelP.is_large m) eqn:El.
    + rewrite len_app, SendUnrelP.len_unrel_slice_pkts, (su_msg_bound_large _ El).
      specialize (IH (sid + 1) (seq + num_slices_of m) cur). lia.
    + rewrite (su_msg_bound_small _ El). destruct (SLICE_SIZE <? _).
      * rewrite len_cons. specialize (IH sid (seq + 1) [m]). lia.
      * specialize (IH sid seq (cur ++ [m])). lia.
Qed.

Lemma su_len_bound s seq avail s' pkts seq' avail' :
  su_inv s -> su_get_packets s seq avail = Ok (s', pkts, seq', avail') ->
  len pkts <= su_pkt_bound s /\ su_pkt_bound s' <= su_pkt_bound s.
Proof.
  intros Hinv E. rewrite (SendUnrelP.su_get_packets_spec s seq avail Hinv) in E.
  unfold SendUnrelP.su_spec in E. inversion E; subst. clear E. unfold su_pkt_bound. cbn [su_queue map].
  pose proof (su_pack_len (su_ch s) (SendUnrelP.su_kept avail (su_queue s)) (su_sliced_id s) seq []).
  pose proof (SendUnrelP.subseq_sum_le su_msg_bound _ _ (SendUnrelP.su_kept_subseq avail (su_queue s))).
  rewrite sum_nil. split; lia.
Qed.

Definition order_bound (c : conn) (ord : list (bool * N)) : N := sum (map (chan_pkt_bound c) ord).

Lemma order_bound_mono c c' ord :
  (forall e, chan_pkt_bound c' e <= chan_pkt_bound c e) -> order_bound c' ord <= order_bound c ord.
Proof.
  intros H. unfold order_bound. induction ord as [|e t IH]; cbn [map]; [lia|].
  rewrite !sum_cons. specialize (H e). lia.
Qed.

Lemma order_bound_cons c e t : order_bound c (e :: t) = chan_pkt_bound c e + order_bound c t.
Proof. unfold order_bound. cbn [map]. apply sum_cons. Qed.

(* the channel served uses up part of its own bound and leaves the other channels' bounds alone *)
Lemma gather_len : forall ord c avail c1 av pk,
  gather_rel ord c avail c1 av pk -> conn_inv c -> len pk <= order_bound c ord.
Proof.
  apply (gather_rel_inv_ind (fun ord c _ _ _ pk => len pk <= order_bound c ord)).
  - intros c av _. rewrite len_nil. lia.
  - intros ch t c av s s' pk seq' av1 c2 av2 pk2 Hs Hsi _ Eg _ IH.
    destruct (sr_len_bound _ _ _ _ _ _ _ _ Hsi Eg) as [Hlen Hsame].
    rewrite len_app, order_bound_cons. unfold chan_pkt_bound at 1. cbn [fst snd]. rewrite Hs.
    enough (order_bound (with_seq (with_sr c (sm_insert ch s' (c_sr c))) seq') t <= order_bound c t) by lia.
    apply order_bound_mono. intros [b k]. unfold chan_pkt_bound. cbn [fst snd with_seq with_sr c_sr c_su].
    destruct b; [|lia]. rewrite sm_find_insert. destruct (N.eqb_spec k ch) as [->|]; [|lia]. rewrite Hs. lia.
  - intros ch t c av s s' pk seq' av1 c2 av2 pk2 Hs Hsi _ Eg _ IH.
    destruct (su_len_bound _ _ _ _ _ _ _ Hsi Eg) as [Hlen Hsame].
    rewrite len_app, order_bound_cons. unfold chan_pkt_bound at 1. cbn [fst snd]. rewrite Hs.
    enough (order_bound (with_seq (with_su c (sm_insert ch s' (c_su c))) seq') t <= order_bound c t) by lia.
    apply order_bound_mono. intros [b k]. unfold chan_pkt_bound. cbn [fst snd with_seq with_su c_sr c_su].
    destruct b; [lia|]. rewrite sm_find_insert. destruct (N.eqb_spec k ch) as [->|]; [|lia]. rewrite Hs. lia.
Qed.

Definition body_vok (p : packet) : Prop :=
  match p with
  | SmallReliable _ _ ms => Forall ConnEncP.rel_msg_vok ms
  | SmallUnreliable _ _ ms => Forall ConnEncP.unrel_msg_vok ms
  | ReliableSlice _ _ s | UnreliableSlice _ _ s => ConnEncP.slice_vok s
  | Ack _ _ => True
  end.

Lemma varints_ok_split p : ConnEncP.varints_ok p <-> packet_seq p <= VARINT_MAX /\ body_vok p.
Proof. destruct p; cbn [ConnEncP.varints_ok packet_seq body_vok]; tauto. Qed.

Lemma num_slices_le m : 0 < len m -> num_slices_of m <= len m.
Proof.
  intros H. unfold num_slices_of.
  destruct (SliceP.div_ceil_spec (len m) SLICE_SIZE SliceP.SLICE_SIZE_pos H) as (H1 & H2 & H3).
  pose proof SliceP.SLICE_SIZE_pos. nia.
Qed.

Lemma rel_body_vok now ch s' p :
  sr_inv now s' -> sr_small s' -> rel_packet_ok ch s' p -> SendRelP.rel_size_ok s' p -> body_vok p.
Proof.
  intros Hinv [Hn Hmax] Hok Hsz. pose proof PacketP.SLICE_SIZE_le_VARINT_MAX as HSS.
  destruct p as [sq c ms|sq c ms|sq c sl|sq c sl|sq rs]; cbn [rel_packet_ok] in Hok; try contradiction;
    cbn [SendRelP.rel_size_ok body_vok] in *.
  - destruct Hok as [_ Hok]. destruct Hsz as (_ & _ & _ & Hlen).
    rewrite Forall_forall in *. intros im Him. destruct (Hok _ Him) as (_ & l & Hf).
    destruct (SendRelP.sr_inv_find _ _ _ _ Hinv Hf) as (Hlt & _). specialize (Hlen _ Him).
    split; lia.
  - destruct Hok as (_ & m & num & na & nx & ak & ls & Hf & Hsl & Hidx).
    destruct (SendRelP.sr_inv_find _ _ _ _ Hinv Hf) as (Hlt & Hwf & Hmem).
    cbn [unacked_wf unacked_len] in Hwf, Hmem. destruct Hwf as (Hbig & -> & _).
    destruct Hinv as (_ & _ & _ & Hle). destruct Hsz as ((_ & Hpay) & _).
    pose proof (num_slices_le m ltac:(lia)) as Hns.
    pose proof (f_equal sl_num Hsl) as Hnum. cbn [slice_of sl_num] in Hnum.
    unfold ConnEncP.slice_vok. rewrite Hnum. repeat split; lia.
Qed.

Lemma uslices_vok ch sid m seq idxs :
  sid <= VARINT_MAX -> 0 < len m -> len m <= VARINT_MAX ->
  (forall i, In i idxs -> i < num_slices_of m) ->
  Forall body_vok (SendUnrelP.uslices ch sid m seq idxs).
Proof.
  intros Hsid Hpos Hlen. pose proof PacketP.SLICE_SIZE_le_VARINT_MAX as HSS.
  pose proof (num_slices_le m Hpos) as Hns.
  revert seq. induction idxs as [|i t IH]; intros seq Hin; cbn [SendUnrelP.uslices]; constructor.
  - cbn [body_vok]. unfold ConnEncP.slice_vok. cbn [slice_of sl_id sl_index sl_num sl_payload].
    pose proof (Hin i (or_introl eq_refl)) as Hi.
    pose proof (SMapSendP.plen_bounds m i Hpos Hi) as Hb. unfold SMapSendP.plen in Hb.
    repeat split; lia.
  - apply IH. intros j Hj. apply Hin. now right.
Qed.

Lemma su_pack_vok ch : forall kept sid seq cur,
  Forall (fun m => len m <= VARINT_MAX) kept -> Forall (fun m => len m <= VARINT_MAX) cur ->
  sid + len (filter SendUnrelP.is_large kept) <= VARINT_MAX + 1 ->
  Forall body_vok (SendUnrelP.su_pack ch kept sid seq cur).
Proof.
  induction kept as [|m t IH]; intros sid seq cur Hk Hc Hsid; cbn [SendUnrelP.su_pack].
  - destruct cur; [constructor|]. constructor; [|constructor]. exact Hc.
  - inversion Hk as [|? ? Hm Ht]; subst. cbn [filter] in Hsid.
    destruct (SendUnrelP.is_large m) eqn:El.
    + rewrite len_cons in Hsid. apply Forall_app. split.
      * unfold SendUnrelP.unrel_slice_pkts. apply uslices_vok; [lia|now apply SendUnrelP.is_large_pos|exact Hm|].
        intros i. apply in_iota.
      * apply IH; auto. lia.
    + destruct (SLICE_SIZE <? _).
      * constructor; [exact Hc|]. apply IH; auto.
      * apply IH; auto. apply Forall_app. split; [exact Hc|]. constructor; [exact Hm|constructor].
Qed.

Lemma in_len_le_sum (m : list N) q : In m q -> len m <= sum (map len q).
Proof.
  induction q as [|x t IH]; [intros []|]. cbn [map]. rewrite sum_cons.
  intros [->|H]; [lia|]. specialize (IH H). lia.
Qed.

Lemma su_body_vok s seq avail s' pkts seq' avail' :
  su_inv s -> su_small s -> su_get_packets s seq avail = Ok (s', pkts, seq', avail') ->
  Forall body_vok pkts /\ su_small s'.
Proof.
  intros [Hmem Hle] [Hid Hmax] E. rewrite (SendUnrelP.su_get_packets_spec s seq avail (conj Hmem Hle)) in E.
  unfold SendUnrelP.su_spec in E. inversion E; subst. clear E.
  assert (Hl : len (filter SendUnrelP.is_large (SendUnrelP.su_kept avail (su_queue s))) <=
               len (filter SendUnrelP.is_large (su_queue s))).
  { pose proof (SendUnrelP.subseq_filter_le SendUnrelP.is_large _ _ (SendUnrelP.su_kept_subseq avail (su_queue s))).
    unfold len. lia. }
  unfold su_large_count in Hid. fold SendUnrelP.is_large in Hid.
  split.
  - apply su_pack_vok; [|constructor|lia].
    rewrite Forall_forall. intros m Hm. apply SendUnrelP.su_kept_in in Hm.
    pose proof (in_len_le_sum m _ Hm). lia.
  - unfold su_small, su_large_count. cbn [su_sliced_id su_queue su_max filter]. rewrite len_nil. split; lia.
Qed.

Definition chans_small (c : conn) : Prop :=
  Forall (fun e => sr_small (snd e)) (c_sr c) /\ Forall (fun e => su_small (snd e)) (c_su c).

Lemma gather_vok : forall ord c avail c1 av pk,
  gather_rel ord c avail c1 av pk -> conn_inv c -> chans_small c ->
  Forall body_vok pk /\ chans_small c1.
Proof.
  apply (gather_rel_inv_ind (fun _ c _ c1 _ pk => chans_small c -> Forall body_vok pk /\ chans_small c1)).
  - intros c av _ Hsm. split; [constructor|exact Hsm].
  - intros ch t c av s s' pk seq' av1 c2 av2 pk2 Hs Hsi Hch Eg _ IH [Hsr Hsu].
    destruct (SendRelP.sr_get_packets_safe (c_now c) s (c_seq c) av Hsi)
      as (s1 & pk1 & av0 & E1 & Hsi' & _ & Hnext & _ & _ & _ & Hok).
    rewrite Eg in E1. inversion E1; subst s1 pk1 seq' av0. clear E1. rewrite Hch in Hok.
    pose proof (SendRelP.sr_get_packets_config _ _ _ _ _ _ _ _ Hsi Eg) as Hcfg.
    pose proof (SendRelP.sr_get_packets_sizes _ _ _ _ _ _ _ _ Hsi Eg) as Hsz.
    pose proof (Forall_sm_find _ _ _ _ Hsr Hs) as Hsmall. cbn [snd] in Hsmall.
    assert (Hsmall' : sr_small s').
    { destruct Hsmall as [A B]. destruct Hcfg as (_ & _ & C). split; [lia|lia]. }
    destruct IH as [Hv2 Hsm2].
    { split; cbn [with_seq with_sr c_sr c_su]; [|exact Hsu]. apply Forall_sm_insert; assumption. }
    split; [|exact Hsm2]. apply Forall_app. split; [|exact Hv2].
    rewrite Forall_forall in *. intros p Hp. eapply rel_body_vok; eauto.
  - intros ch t c av s s' pk seq' av1 c2 av2 pk2 Hs Hsi _ Eg _ IH [Hsr Hsu].
    pose proof (Forall_sm_find _ _ _ _ Hsu Hs) as Hsmall. cbn [snd] in Hsmall.
    destruct (su_body_vok _ _ _ _ _ _ _ Hsi Hsmall Eg) as [Hv Hsmall'].
    destruct IH as [Hv2 Hsm2].
    { split; cbn [with_seq with_su c_sr c_su]; [exact Hsr|]. apply Forall_sm_insert; assumption. }
    split; [|exact Hsm2]. apply Forall_app. split; assumption.
Qed.

Lemma flush_varints_ok c c1 av pk :
  conn_inv c -> counters_small c -> gather_rel (c_order c) c (c_budget c) c1 av pk ->
  Forall ConnEncP.varints_ok (flush_pkts c1 pk).
Proof.
  intros Hi (Hseq & Hsr & Hsu) Hrel.
  pose proof (gather_facts _ _ _ _ _ _ Hrel Hi) as G. pose proof (g_seq G) as Hseq1.
  pose proof (gather_len _ _ _ _ _ _ Hrel Hi) as Hlen.
  destruct (gather_vok _ _ _ _ _ _ Hrel Hi (conj Hsr Hsu)) as [Hv _].
  unfold flush_pkt_bound in Hseq. fold (order_bound c (c_order c)) in Hseq.
  unfold flush_pkts. apply Forall_app. split.
  - pose proof (seqs_from_bounds _ _ (g_seqs G)) as HB. rewrite Forall_forall in *.
    intros p Hp. apply varints_ok_split. split; [|auto]. specialize (HB p Hp). lia.
  - destruct (c_acks c1); cbn [ack_part]; constructor; [|constructor].
    cbn [ConnEncP.varints_ok]. lia.
Qed.

(* PackP.v - what the two send channels have in common.  Small messages are packed into packet
   bodies: an entry that would bring the open body over SLICE_SIZE closes it, even when it is empty,
   and opens the next one; the facts are about lists of entries with a size function.  The slices
   of a large message leave as packets with consecutive sequence numbers ([numbered]). *)
From RenetV Require Import Base Consts Packet Channels SendSpec BaseP.
Require Import Lia.
Open Scope N_scope.
Local Opaque SLICE_SIZE.

Section Pack.
  Context {E : Type} (esz : E -> N).

  Definition bsize (b : list E) : N := sum (map esz b).

  Lemma bsize_snoc b e : bsize (b ++ [e]) = bsize b + esz e.
  Proof. unfold bsize. rewrite map_app, sum_app. cbn [map]. rewrite sum_cons, sum_nil. lia. Qed.

  Lemma bsize_ge k b : (forall e, k <= esz e) -> k * len b <= bsize b.
  Proof.
    intros H. unfold bsize. induction b as [|e b IH]; cbn [map]; rewrite ?len_nil, ?sum_nil; [lia|].
    rewrite len_cons, sum_cons. specialize (H e). lia.
  Qed.

  (* a body keeps the limit, or holds one entry, which may be too large on its own *)
  Definition body_ok (b : list E) : Prop := bsize b <= SLICE_SIZE \/ exists e, b = [e].

  Lemma body_ok_bound c b :
    body_ok b -> (forall e, In e b -> esz e <= SLICE_SIZE + c) -> bsize b <= SLICE_SIZE + c.
  Proof.
    intros [H|(e & ->)] Hc; [lia|].
    unfold bsize. cbn [map]. rewrite sum_cons, sum_nil, N.add_0_r. apply Hc. now left.
  Qed.

  (* the bodies of one tick in order: only the first can be empty, and it is empty exactly when
     the entry that follows it does not fit a body on its own *)
  Definition gshape (F : list (list E)) : Prop :=
    match F with
    | [] => True
    | [] :: F' => match F' with
                  | (e :: _) :: more => SLICE_SIZE < esz e /\ Forall (fun b => b <> []) more
                  | _ => False
                  end
    | (e :: _) :: more => ~ SLICE_SIZE < esz e /\ Forall (fun b => b <> []) more
    end.

  Lemma gshape_snoc F b : gshape F -> F <> [] -> b <> [] -> gshape (F ++ [b]).
  Proof.
    intros H HF Hb. destruct F as [|[|e r] F']; [contradiction| |]; cbn [app gshape] in *.
    - destruct F' as [|[|e r] more]; try contradiction.
      cbn [app]. destruct H as [H1 H2]. split; [exact H1|].
      apply Forall_app. split; [exact H2|constructor; [exact Hb|constructor]].
    - destruct H as [H1 H2]. split; [exact H1|].
      apply Forall_app. split; [exact H2|constructor; [exact Hb|constructor]].
  Qed.

  Lemma gshape_extend_last B x xs e : gshape (B ++ [x :: xs]) -> gshape (B ++ [x :: xs ++ [e]]).
  Proof.
    assert (HF : forall more, Forall (fun b : list E => b <> []) (more ++ [x :: xs]) ->
                              Forall (fun b : list E => b <> []) (more ++ [x :: xs ++ [e]])).
    { intros more H. apply Forall_app in H. destruct H as [H _]. apply Forall_app.
      split; [exact H|constructor; [discriminate|constructor]]. }
    intros H. destruct B as [|[|y r] B1]; cbn [app gshape] in *.
    - destruct H as [H1 _]. split; [exact H1|constructor].
    - destruct B1 as [|[|y r] B2]; cbn [app] in *; try contradiction.
      + destruct H as [H1 _]. split; [exact H1|constructor].
      + destruct H as [H1 H2]. split; [exact H1|auto].
    - destruct H as [H1 H2]. split; [exact H1|auto].
  Qed.

  Lemma gshape_empty_iff F :
    gshape F -> (In [] F <-> exists e r, concat F = e :: r /\ SLICE_SIZE < esz e).
  Proof.
    intros H. destruct F as [|[|e r] F']; cbn [gshape] in H.
    - split; [intros []|intros (e & r & Hc & _); discriminate].
    - destruct F' as [|[|e r] more]; try contradiction. destruct H as [H1 H2]. split.
      + intros _. exists e, (r ++ concat more). split; [reflexivity|exact H1].
      + intros _. now left.
    - destruct H as [H1 H2]. split.
      + intros [Hin|Hin]; [discriminate|]. rewrite Forall_forall in H2. exfalso. now apply (H2 [] Hin).
      + intros (e' & r' & Hc & Ho). cbn [concat app] in Hc. inversion Hc; subst. contradiction.
  Qed.

  (* the state of the packing loop: the closed bodies F and the open body cur *)
  Definition open (cur : list E) : list (list E) := match cur with [] => [] | _ => [cur] end.

  Definition packing (F : list (list E)) (cur : list E) : Prop :=
    gshape (F ++ open cur) /\ body_ok cur /\ (cur = [] -> F = []).

  Lemma packing_nil : packing [] [].
  Proof. split; [exact I|]. split; [left; unfold bsize; cbn [map]; rewrite sum_nil; lia|reflexivity]. Qed.

  Lemma packing_flush F cur e :
    packing F cur -> SLICE_SIZE < bsize cur + esz e -> packing (F ++ [cur]) [e].
  Proof.
    intros (H & _ & H0) Hbig. split; [|split; [right; now exists e|discriminate]].
    cbn [open]. destruct cur as [|x xs].
    - rewrite (H0 eq_refl). cbn [app gshape]. split; [|constructor].
      unfold bsize in Hbig. cbn [map] in Hbig. rewrite sum_nil in Hbig. lia.
    - apply gshape_snoc; [exact H| |discriminate].
      intros E0. apply app_eq_nil in E0. destruct E0; discriminate.
  Qed.

  Lemma packing_add F cur e :
    packing F cur -> bsize cur + esz e <= SLICE_SIZE -> packing F (cur ++ [e]).
  Proof.
    intros (H & _ & H0) Hfits.
    split; [|split; [left; now rewrite bsize_snoc|intros E0; apply app_eq_nil in E0; destruct E0; discriminate]].
    destruct cur as [|x xs]; cbn [app open].
    - rewrite (H0 eq_refl). cbn [app gshape]. split; [|constructor].
      unfold bsize in Hfits. cbn [map] in Hfits. rewrite sum_nil in Hfits. lia.
    - apply gshape_extend_last. exact H.
  Qed.
End Pack.

Section Numbered.
  Context {X : Type} (K : N -> X -> packet).

  Fixpoint numbered (seq : N) (xs : list X) : list packet :=
    match xs with [] => [] | x :: t => K seq x :: numbered (seq + 1) t end.

  Lemma len_numbered xs : forall seq, len (numbered seq xs) = len xs.
  Proof.
    induction xs as [|x t IH]; intros seq; cbn [numbered]; [reflexivity|]. now rewrite !len_cons, IH.
  Qed.

  Lemma seqs_numbered xs :
    (forall q x, packet_seq (K q x) = q) -> forall seq, seqs_from seq (numbered seq xs).
  Proof. intros H. induction xs as [|x t IH]; intros seq; cbn [numbered seqs_from]; auto. Qed.

  Lemma Forall_numbered (P : packet -> Prop) xs :
    (forall q x, In x xs -> P (K q x)) -> forall seq, Forall P (numbered seq xs).
  Proof.
    induction xs as [|x t IH]; intros H seq; cbn [numbered]; constructor; [apply H; now left|].
    apply IH. intros q y Hy. apply H. now right.
  Qed.

  Lemma flat_map_numbered_nil {B} (f : packet -> list B) xs :
    (forall q x, f (K q x) = []) -> forall seq, flat_map f (numbered seq xs) = [].
  Proof.
    intros H. induction xs as [|x t IH]; intros seq; cbn [numbered flat_map]; [reflexivity|].
    now rewrite H, IH.
  Qed.

  Lemma payload_numbered (w : X -> N) xs :
    (forall q x, payload_bytes (K q x) = w x) ->
    forall seq, payload_total (numbered seq xs) = sum (map w xs).
  Proof.
    intros H. unfold payload_total. induction xs as [|x t IH]; intros seq; cbn [numbered map]; [reflexivity|].
    now rewrite !sum_cons, H, IH.
  Qed.
End Numbered.

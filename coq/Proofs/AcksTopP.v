(* AcksTopP.v - the newest received sequence number is always acknowledged.

   Overflow of the MAX_ACK_RANGES pending ranges drops the OLDEST range (the head of the sorted
   list); the range that holds the largest number ever fed is the last one, so it survives every
   overflow: for every arrival order, every ack packet built from the pending ranges names the
   largest sequence number received so far.  (A number that is not the largest can be lost:
   AcksP.add_pending_ack_drops_new.) *)
From Coq Require Import NArith List Bool Lia ZifyBool ZifyN.
From RenetV Require Import Base BaseP Consts Varint Packet Channels Conn CodecSpec AcksP.
Import ListNotations.
Open Scope N_scope.

Definition top (l : list (N * N)) (m : N) : Prop :=
  in_ranges m l /\ forall y, in_ranges y l -> y <= m.

Lemma top_not_in_head : forall a b r t lo m,
  ranges_wf lo ((a, b) :: r :: t) -> top ((a, b) :: r :: t) m -> in_ranges m (r :: t).
Proof.
  intros a b [a2 b2] t lo m Hwf [Hin Hmax].
  cbn [in_ranges] in Hin. destruct Hin as [Hin|Hin]; [|exact Hin].
  exfalso.
  cbn [ranges_wf] in Hwf. destruct Hwf as (_ & _ & H2 & H3 & _).
  assert (Ha2 : in_ranges a2 ((a, b) :: (a2, b2) :: t)).
  { cbn [in_ranges]. right. left. lia. }
  specialize (Hmax _ Ha2). lia.
Qed.

Lemma top_tl : forall l m, ranges_wf 0 l -> 2 <= len l -> top l m -> top (tl l) m.
Proof.
  intros l m Hwf Hlen Ht.
  destruct l as [|[a b] [|r t]].
  - rewrite len_nil in Hlen. lia.
  - rewrite len_cons, len_nil in Hlen. lia.
  - cbn [tl]. split.
    + eapply top_not_in_head; eauto.
    + intros y Hy. destruct Ht as [_ Hmax]. apply Hmax. cbn [in_ranges]. right. exact Hy.
Qed.

Lemma top_top_block l m : top l m <-> top_block l m (m + 1).
Proof.
  unfold top, top_block. split.
  - intros [Hin Hmax]. split; intros x Hx.
    + replace x with m by lia. exact Hin.
    + specialize (Hmax x Hx). lia.
  - intros [R1 R2]. split.
    + apply R1. lia.
    + intros y Hy. specialize (R2 y Hy). lia.
Qed.

Lemma add_top_nil : forall s, top (add_pending_ack [] s) s.
Proof.
  intros s. apply top_top_block, top_block_add; [exact I | lia | |].
  - intros x Hx. left. lia.
  - intros x [->|[]]. lia.
Qed.

(* {max m s} is the top block of the insertion, and the limit leaves the top block alone *)
Lemma add_top : forall l s m, ranges_wf 0 l -> top l m -> top (add_pending_ack l s) (N.max m s).
Proof.
  intros l s m Hwf [Hin Hmax]. apply top_top_block, top_block_add; [exact Hwf | lia | |].
  - intros x Hx. destruct (N.max_spec m s) as [[_ E]|[_ E]]; rewrite E in Hx; [left; lia | right].
    replace x with m by lia. exact Hin.
  - intros x [->|Hx]; [lia|]. specialize (Hmax x Hx). lia.
Qed.

Theorem feed_keeps_max_from : forall ss l m x,
  ranges_wf 0 l -> top l m ->
  (x = m \/ In x ss) -> m <= x -> (forall y, In y ss -> y <= x) ->
  in_ranges x (feed l ss).
Proof.
  induction ss as [|s t IH]; intros l m x Hwf Ht Hx Hm Hall.
  - rewrite feed_nil. destruct Hx as [->|[]]. exact (proj1 Ht).
  - rewrite feed_cons.
    assert (Hs : s <= x) by (apply Hall; left; reflexivity).
    apply (IH (add_pending_ack l s) (N.max m s) x).
    + apply add_pending_ack_wf; exact Hwf.
    + apply add_top; assumption.
    + destruct Hx as [->|[->|Hx]]; [left; lia|left; lia|right; exact Hx].
    + lia.
    + intros y Hy. apply Hall. right. exact Hy.
Qed.

Theorem feed_keeps_max : forall ss x,
  In x ss -> (forall y, In y ss -> y <= x) -> in_ranges x (feed [] ss).
Proof.
  intros [|s t] x Hin Hall; [destruct Hin|].
  rewrite feed_cons.
  assert (Hs : s <= x) by (apply Hall; left; reflexivity).
  apply (feed_keeps_max_from t (add_pending_ack [] s) s x).
  - apply add_pending_ack_wf. exact I.
  - apply add_top_nil.
  - destruct Hin as [->|Hin]; [left; reflexivity|right; exact Hin].
  - exact Hs.
  - intros y Hy. apply Hall. right. exact Hy.
Qed.

(* non-vacuity: 66 isolated numbers fed in ascending order overflow the ranges, the largest stays *)
Example keeps_max_after_overflow :
  let ss := map (fun k => 2 * N.of_nat k) (seq 0 66) in
  in_ranges 130 (feed [] ss) /\ len (feed [] ss) = MAX_ACK_RANGES /\ hd (0, 0) (feed [] ss) = (4, 5).
Proof.
  cbv zeta. set (ss := map (fun k => 2 * N.of_nat k) (seq 0 66)).
  assert (H : in_ranges 130 (feed [] ss)).
  { apply feed_keeps_max.
    - apply in_map_iff. exists 65%nat. split; [reflexivity | apply in_seq; lia].
    - intros y Hy. apply in_map_iff in Hy. destruct Hy as (k & <- & Hk). apply in_seq in Hk. lia. }
  (* the run is evaluated once; length and head are read off its value *)
  remember (feed [] ss) as r eqn:E. vm_compute in E. subst r.
  split; [exact H|]. split; reflexivity.
Qed.

(* SMapP.v - the sorted association lists / sets of Channels.v (sm_find, sm_insert, sm_remove, sm_mem and
   the ss_ set functions, a set being a map to unit) over the strictly ascending key lists [asc] of
   RecvSpec.v, facts about [iota], and the list of a map's values flattened, each under its key.
   The other sortedness notions (SMapSrvP.asc, SendSpec.keys_ascending) are mapped to [asc] in
   SMapSrvP.v and SMapSendP.v. *)
From RenetV Require Export BaseP.
From RenetV Require Import Base Consts Varint Packet Channels RecvSpec.
Require Import Lia ZifyBool ZifyN ZifyNat FinFun.
Open Scope N_scope.

Lemma nth_error_repeatN {A} (x : A) n i y : nth_error (repeatN x n) i = Some y -> y = x.
Proof.
  revert i. induction n as [|n IH]; intros [|i]; cbn [repeatN nth_error]; try congruence.
  apply IH.
Qed.

Lemma iota_length n : length (iota n) = N.to_nat n.
Proof. unfold iota. rewrite map_length, seq_length. reflexivity. Qed.

Lemma len_iota n : len (iota n) = n.
Proof. unfold len. rewrite iota_length. lia. Qed.

Lemma iota_succ n : iota (n + 1) = iota n ++ [n].
Proof.
  unfold iota. replace (N.to_nat (n + 1)) with (N.to_nat n + 1)%nat by lia.
  rewrite seq_app, map_app. cbn [seq map Nat.add]. do 2 f_equal. lia.
Qed.

Lemma iota_0 : iota 0 = [].
Proof. reflexivity. Qed.

Lemma in_iota n i : In i (iota n) <-> i < n.
Proof.
  unfold iota. rewrite in_map_iff. split.
  - intros (x & <- & Hx). apply in_seq in Hx. lia.
  - intros H. exists (N.to_nat i). split; [lia|]. apply in_seq. lia.
Qed.

Lemma NoDup_iota n : NoDup (iota n).
Proof.
  unfold iota. apply FinFun.Injective_map_NoDup.
  - intros a b H. lia.
  - apply seq_NoDup.
Qed.

Lemma map_nth_iota {A} (l : list A) d : map (fun id => nth (N.to_nat id) l d) (iota (len l)) = l.
Proof.
  unfold iota, len. rewrite Nat2N.id, map_map.
  erewrite map_ext; [apply map_nth_seq|]. intros i. cbv beta. now rewrite Nat2N.id.
Qed.

Lemma asc_cons k l : asc (k :: l) <-> Forall (fun k' => k < k') l /\ asc l.
Proof. reflexivity. Qed.

Lemma Forall_lt_mono k a l : k <= a -> Forall (fun k' => a < k') l -> Forall (fun k' => k < k') l.
Proof. intros H. apply Forall_impl. intros x. lia. Qed.

Lemma asc_NoDup l : asc l -> NoDup l.
Proof.
  induction l as [|k l IH]; intros H.
  - constructor.
  - destruct H as [H1 H2]. constructor; auto.
    intros Hin. rewrite Forall_forall in H1. specialize (H1 _ Hin). lia.
Qed.

Section SMapP.
  Context {V : Type}.
  Implicit Types (m : list (N * V)) (k : N) (v : V).

  Lemma sm_find_insert k k' v m :
    sm_find k (sm_insert k' v m) = if k =? k' then Some v else sm_find k m.
  Proof.
    induction m as [|[a b] t IH]; cbn [sm_insert sm_find].
    - reflexivity.
    - destruct (N.ltb_spec k' a).
      + reflexivity.
      + destruct (N.eqb_spec k' a).
        * subst. cbn [sm_find]. destruct (k =? a); reflexivity.
        * cbn [sm_find]. rewrite IH.
          destruct (N.eqb_spec k a), (N.eqb_spec k k'); try reflexivity. congruence.
  Qed.

  Lemma sm_find_insert_same k v m : sm_find k (sm_insert k v m) = Some v.
  Proof. rewrite sm_find_insert, N.eqb_refl. reflexivity. Qed.

  Lemma sm_find_insert_other k k' v m : k <> k' -> sm_find k (sm_insert k' v m) = sm_find k m.
  Proof. intros H. rewrite sm_find_insert. destruct (N.eqb_spec k k'); congruence. Qed.

  Lemma sm_mem_insert k k' v m : sm_mem k (sm_insert k' v m) = (k =? k') || sm_mem k m.
  Proof. unfold sm_mem. rewrite sm_find_insert. destruct (k =? k'); reflexivity. Qed.

  Lemma sm_find_in k v m : sm_find k m = Some v -> In (k, v) m.
  Proof.
    induction m as [|[a b] t IH]; cbn [sm_find]; [discriminate|].
    destruct (N.eqb_spec k a).
    - intros [= ->]. subst. left. reflexivity.
    - intros H. right. auto.
  Qed.

  Lemma sm_mem_in k m : sm_mem k m = true <-> In k (map fst m).
  Proof.
    unfold sm_mem. induction m as [|[a b] t IH]; cbn [sm_find map In fst].
    - split; [discriminate|tauto].
    - destruct (N.eqb_spec k a).
      + subst. split; auto.
      + rewrite IH. split; [auto|]. intros [?|?]; [congruence|auto].
  Qed.

  Lemma sm_mem_false_notin k m : sm_mem k m = false <-> ~ In k (map fst m).
  Proof.
    rewrite <- sm_mem_in. destruct (sm_mem k m); split; congruence.
  Qed.

  Lemma sm_find_none_mem k m : sm_find k m = None <-> sm_mem k m = false.
  Proof. unfold sm_mem. destruct (sm_find k m); split; congruence. Qed.

  Lemma sm_find_some_mem k v m : sm_find k m = Some v -> sm_mem k m = true.
  Proof. unfold sm_mem. intros ->. reflexivity. Qed.

  Lemma sm_mem_find k m : sm_mem k m = true -> exists v, sm_find k m = Some v.
  Proof. unfold sm_mem. destruct (sm_find k m); [eauto|discriminate]. Qed.

  Lemma sm_find_lt_none k m : Forall (fun k' => k < k') (map fst m) -> sm_find k m = None.
  Proof.
    intros H. apply sm_find_none_mem, sm_mem_false_notin. intros Hin.
    rewrite Forall_forall in H. specialize (H _ Hin). lia.
  Qed.

  Lemma sm_in_find k v m : asc (map fst m) -> In (k, v) m -> sm_find k m = Some v.
  Proof.
    induction m as [|[a b] t IH]; [intros _ []|]. cbn [map fst sm_find]. intros [H1 H2] [E|Hin].
    - injection E as -> ->. rewrite N.eqb_refl. reflexivity.
    - destruct (N.eqb_spec k a) as [->|_]; [|auto].
      rewrite Forall_forall in H1. specialize (H1 _ (in_map fst _ _ Hin)). cbn [fst] in H1. lia.
  Qed.

  Lemma sm_keys_insert x k v m : In x (map fst (sm_insert k v m)) <-> x = k \/ In x (map fst m).
  Proof.
    rewrite <- !sm_mem_in, sm_mem_insert. rewrite orb_true_iff, N.eqb_eq. reflexivity.
  Qed.

  Lemma sm_keys_remove x k m : In x (map fst (sm_remove k m)) -> In x (map fst m).
  Proof.
    induction m as [|[a b] t IH]; cbn [sm_remove map In fst]; [tauto|].
    destruct (k =? a); cbn [map In fst]; tauto.
  Qed.

  Lemma asc_sm_insert k v m : asc (map fst m) -> asc (map fst (sm_insert k v m)).
  Proof.
    induction m as [|[a b] t IH]; cbn [sm_insert map fst]; intros H.
    - cbn. auto.
    - destruct H as [H1 H2].
      destruct (N.ltb_spec k a).
      + cbn [map fst]. split; [|split; auto].
        constructor; [lia|]. apply (Forall_lt_mono k a); [lia|exact H1].
      + destruct (N.eqb_spec k a).
        * subst. cbn [map fst]. split; auto.
        * cbn [map fst]. split; [|auto].
          rewrite Forall_forall. intros x Hx. apply sm_keys_insert in Hx.
          destruct Hx as [-> |Hx]; [lia|]. rewrite Forall_forall in H1. auto.
  Qed.

  Lemma asc_sm_remove k m : asc (map fst m) -> asc (map fst (sm_remove k m)).
  Proof.
    induction m as [|[a b] t IH]; cbn [sm_remove map fst]; intros H; auto.
    destruct H as [H1 H2]. destruct (k =? a); auto.
    cbn [map fst]. split; auto.
    rewrite Forall_forall in *. intros x Hx. apply sm_keys_remove in Hx. auto.
  Qed.

  Lemma sm_insert_present_keys k v v0 m :
    asc (map fst m) -> sm_find k m = Some v0 -> map fst (sm_insert k v m) = map fst m.
  Proof.
    induction m as [|[a b] t IH]; cbn [sm_insert sm_find map fst]; [discriminate|].
    intros [H1 H2] E. destruct (N.eqb_spec k a) as [->|Hne].
    - rewrite N.ltb_irrefl. reflexivity.
    - destruct (N.ltb_spec k a) as [L|_].
      + rewrite sm_find_lt_none in E; [discriminate|]. apply (Forall_lt_mono k a); [lia|exact H1].
      + cbn [map fst]. f_equal. auto.
  Qed.

  Lemma sm_find_remove_other k k' m : k <> k' -> sm_find k (sm_remove k' m) = sm_find k m.
  Proof.
    intros Hne. induction m as [|[a b] t IH]; cbn [sm_remove sm_find]; [reflexivity|].
    destruct (N.eqb_spec k' a).
    - subst. destruct (N.eqb_spec k a); congruence.
    - cbn [sm_find]. rewrite IH. reflexivity.
  Qed.

  (* only the removed key itself needs the order: no second entry for it is left behind *)
  Lemma sm_find_remove k k' m :
    asc (map fst m) -> sm_find k (sm_remove k' m) = if k =? k' then None else sm_find k m.
  Proof.
    intros H. destruct (N.eqb_spec k k') as [->|Hne]; [|now apply sm_find_remove_other].
    induction m as [|[a b] t IH]; cbn [sm_remove sm_find map fst] in *; [reflexivity|].
    destruct H as [H1 H2]. destruct (N.eqb_spec k' a) as [->|Hne].
    - apply sm_find_lt_none. exact H1.
    - cbn [sm_find]. destruct (N.eqb_spec k' a); [contradiction|]. exact (IH H2).
  Qed.

  Lemma sm_mem_remove k k' m :
    asc (map fst m) -> sm_mem k (sm_remove k' m) = negb (k =? k') && sm_mem k m.
  Proof.
    intros H. unfold sm_mem. rewrite sm_find_remove by auto. destruct (k =? k'); reflexivity.
  Qed.

  Lemma sm_remove_none k m : sm_find k m = None -> sm_remove k m = m.
  Proof.
    induction m as [|[a b] t IH]; cbn [sm_remove sm_find]; [reflexivity|].
    destruct (k =? a); [discriminate|]. intros H. rewrite IH; auto.
  Qed.

  Lemma sm_remove_insert k v m : asc (map fst m) -> sm_remove k (sm_insert k v m) = sm_remove k m.
  Proof.
    induction m as [|[a b] t IH]; cbn [sm_insert sm_remove map fst]; intros H.
    - rewrite N.eqb_refl. reflexivity.
    - destruct H as [H1 H2]. destruct (N.ltb_spec k a).
      + cbn [sm_remove]. rewrite N.eqb_refl.
        destruct (N.eqb_spec k a); [lia|].
        rewrite sm_remove_none; [reflexivity|].
        apply sm_find_lt_none, (Forall_lt_mono k a); [lia|exact H1].
      + destruct (N.eqb_spec k a).
        * cbn [sm_remove]. rewrite N.eqb_refl. reflexivity.
        * cbn [sm_remove]. destruct (N.eqb_spec k a); [congruence|]. rewrite IH; auto.
  Qed.

  Lemma sm_insert_insert k v v' m : sm_insert k v' (sm_insert k v m) = sm_insert k v' m.
  Proof.
    induction m as [|[a b] t IH]; cbn [sm_insert].
    - rewrite N.ltb_irrefl, N.eqb_refl. reflexivity.
    - destruct (N.ltb_spec k a) as [Hl|Hl].
      + cbn [sm_insert]. rewrite N.ltb_irrefl, N.eqb_refl. reflexivity.
      + destruct (N.eqb_spec k a) as [He|He].
        * cbn [sm_insert]. rewrite N.ltb_irrefl, N.eqb_refl. reflexivity.
        * cbn [sm_insert]. destruct (N.ltb_spec k a); [lia|].
          destruct (N.eqb_spec k a); [congruence|]. rewrite IH. reflexivity.
  Qed.

  Lemma sm_cons_mem a (b : V) t : sm_mem a ((a, b) :: t) = true.
  Proof. unfold sm_mem. cbn [sm_find]. rewrite N.eqb_refl. reflexivity. Qed.

  Lemma sm_no_mem_nil m : (forall k, sm_mem k m = false) -> m = [].
  Proof.
    destruct m as [|[a b] t]; [reflexivity|]. intros H. specialize (H a).
    rewrite sm_cons_mem in H. discriminate.
  Qed.

  Definition gopt (g : N * V -> N) k (o : option V) : N :=
    match o with Some v => g (k, v) | None => 0 end.

  Lemma sum_sm_insert (g : N * V -> N) k v m :
    asc (map fst m) ->
    sum (map g (sm_insert k v m)) + gopt g k (sm_find k m) = sum (map g m) + g (k, v).
  Proof.
    induction m as [|[a b] t IH]; cbn [sm_insert sm_find map fst]; intros H.
    - cbn [gopt]. rewrite !sum_cons, sum_nil. lia.
    - destruct H as [H1 H2]. destruct (N.ltb_spec k a).
      + destruct (N.eqb_spec k a); [lia|].
        rewrite sm_find_lt_none by (apply (Forall_lt_mono k a); [lia|exact H1]).
        cbn [gopt map]. rewrite !sum_cons. lia.
      + destruct (N.eqb_spec k a) as [->|_].
        * cbn [gopt map]. rewrite !sum_cons. lia.
        * cbn [map]. rewrite !sum_cons. specialize (IH H2). lia.
  Qed.

  Lemma sum_sm_remove (g : N * V -> N) k m :
    sum (map g (sm_remove k m)) + gopt g k (sm_find k m) = sum (map g m).
  Proof.
    induction m as [|[a b] t IH]; cbn [sm_remove sm_find map].
    - cbn [gopt]. lia.
    - destruct (N.eqb_spec k a) as [->|_].
      + cbn [gopt]. rewrite sum_cons. lia.
      + cbn [map]. rewrite !sum_cons. lia.
  Qed.

  Variable f : V -> N.
  Definition vsum m : N := sum (map (fun kv => f (snd kv)) m).
  Definition fopt (o : option V) : N := match o with Some v => f v | None => 0 end.

  Lemma vsum_insert k v m :
    asc (map fst m) -> vsum (sm_insert k v m) + fopt (sm_find k m) = vsum m + f v.
  Proof.
    intros H. generalize (sum_sm_insert (fun kv => f (snd kv)) k v m H).
    destruct (sm_find k m); intros E; exact E.
  Qed.

  Lemma vsum_remove k m : vsum (sm_remove k m) + fopt (sm_find k m) = vsum m.
  Proof.
    generalize (sum_sm_remove (fun kv => f (snd kv)) k m). destruct (sm_find k m); intros E; exact E.
  Qed.

  Lemma vsum_find_le k v m : sm_find k m = Some v -> f v <= vsum m.
  Proof.
    intros H. pose proof (vsum_remove k m) as E. rewrite H in E. cbn [fopt] in E. lia.
  Qed.

  Lemma Forall_sm_insert (P : N * V -> Prop) k v m :
    P (k, v) -> Forall P m -> Forall P (sm_insert k v m).
  Proof.
    intros Hp. induction m as [|[a b] t IH]; cbn [sm_insert]; intros H.
    - constructor; auto.
    - inversion H; subst. destruct (k <? a); [constructor; auto|].
      destruct (k =? a); constructor; auto.
  Qed.

  Lemma Forall_sm_remove (P : N * V -> Prop) k m : Forall P m -> Forall P (sm_remove k m).
  Proof.
    induction m as [|[a b] t IH]; cbn [sm_remove]; intros H; auto.
    inversion H; subst. destruct (k =? a); auto.
  Qed.

  Lemma Forall_sm_find (P : N * V -> Prop) k v m : Forall P m -> sm_find k m = Some v -> P (k, v).
  Proof.
    intros H Hf. apply sm_find_in in Hf. rewrite Forall_forall in H. auto.
  Qed.

  Definition sm_rel (R : N -> V -> V -> Prop) m m' : Prop :=
    forall k, match sm_find k m with
              | None => sm_find k m' = None
              | Some v => exists v', sm_find k m' = Some v' /\ R k v v'
              end.

  Lemma sm_rel_refl (R : N -> V -> V -> Prop) m : (forall k v, R k v v) -> sm_rel R m m.
  Proof. intros H k. destruct (sm_find k m) as [v|]; eauto. Qed.

  Lemma sm_rel_trans (R1 R2 R3 : N -> V -> V -> Prop) m1 m2 m3 :
    (forall k a b c, R1 k a b -> R2 k b c -> R3 k a c) ->
    sm_rel R1 m1 m2 -> sm_rel R2 m2 m3 -> sm_rel R3 m1 m3.
  Proof.
    intros H H1 H2 k. specialize (H1 k). specialize (H2 k). destruct (sm_find k m1) as [a|].
    - destruct H1 as (b & E1 & A). rewrite E1 in H2. destruct H2 as (c & E2 & B). eauto.
    - now rewrite H1 in H2.
  Qed.

  Lemma sm_rel_insert (R : N -> V -> V -> Prop) k v v' m :
    (forall j u, R j u u) -> sm_find k m = Some v -> R k v v' -> sm_rel R m (sm_insert k v' m).
  Proof.
    intros Hr Hf H j. rewrite sm_find_insert. destruct (N.eqb_spec j k) as [->|].
    - rewrite Hf. eauto.
    - destruct (sm_find j m) as [u|]; eauto.
  Qed.

  Lemma sm_rel_mem (R : N -> V -> V -> Prop) m m' k : sm_rel R m m' -> sm_mem k m' = sm_mem k m.
  Proof.
    intros H. specialize (H k). unfold sm_mem. destruct (sm_find k m) as [v|].
    - destruct H as (v' & -> & _). reflexivity.
    - now rewrite H.
  Qed.
End SMapP.

Lemma sm_find_suffix {V} (pre l : list (N * V)) k v :
  asc (map fst (pre ++ l)) -> sm_find k l = Some v -> sm_find k (pre ++ l) = Some v.
Proof.
  intros Ha Hf. apply sm_in_find; [exact Ha|]. apply in_or_app. right. now apply sm_find_in.
Qed.

Lemma NoDup_map_pair {A B} (a : A) (l : list B) : NoDup l -> NoDup (map (pair a) l).
Proof. intros H. apply FinFun.Injective_map_NoDup; [|exact H]. intros x y E. now inversion E. Qed.

Lemma NoDup_flat_map_keys {V B} (f : V -> list B) (m : list (N * V)) :
  NoDup (map fst m) -> (forall k v, In (k, v) m -> NoDup (f v)) ->
  NoDup (flat_map (fun e => map (pair (fst e)) (f (snd e))) m).
Proof.
  induction m as [|[k v] t IH]; cbn [map fst flat_map snd]; intros Hnd Hf; [constructor|].
  inversion Hnd as [|? ? Hk Hnd']; subst.
  apply NoDup_app_intro.
  - apply NoDup_map_pair. eapply Hf. now left.
  - apply IH; [exact Hnd'|]. intros k0 v0 Hin. eapply Hf. right. exact Hin.
  - intros x Hx Hx'. apply in_map_iff in Hx. destruct Hx as (b & <- & _).
    apply in_flat_map in Hx'. destruct Hx' as ([k' v'] & Hin & Hb). cbn [fst snd] in Hb.
    apply in_map_iff in Hb. destruct Hb as (b' & Eb & _). inversion Eb; subst.
    apply Hk. apply in_map_iff. exists (k, v'). auto.
Qed.

Lemma in_flat_map_keys {V B} (f : V -> list B) (m : list (N * V)) k b :
  In (k, b) (flat_map (fun e => map (pair (fst e)) (f (snd e))) m) <-> exists v, In (k, v) m /\ In b (f v).
Proof.
  rewrite in_flat_map. split.
  - intros ([k' v] & Hin & Hb). cbn [fst snd] in Hb. apply in_map_iff in Hb.
    destruct Hb as (b' & Eb & Hb'). inversion Eb; subst. eauto.
  - intros (v & Hin & Hb). exists (k, v). split; [exact Hin|]. cbn [fst snd]. apply in_map_iff. eauto.
Qed.

Lemma sm_mem_insert_present {V} k j (v v0 : V) m :
  sm_find k m = Some v0 -> sm_mem j (sm_insert k v m) = sm_mem j m.
Proof.
  intros H. rewrite sm_mem_insert. destruct (N.eqb_spec j k) as [->|]; [|reflexivity].
  cbn [orb]. symmetry. eapply sm_find_some_mem. exact H.
Qed.

Lemma asc_app_r (a b : list N) : asc (a ++ b) -> asc b.
Proof.
  induction a as [|x a IH]; cbn [app]; [auto|]. intros [_ H]. auto.
Qed.

Lemma sm_mem_keys_eq {V W} (m : list (N * V)) (m' : list (N * W)) k :
  map fst m = map fst m' -> sm_mem k m = sm_mem k m'.
Proof.
  intros E. destruct (sm_mem k m) eqn:A, (sm_mem k m') eqn:B; try reflexivity.
  - apply sm_mem_in in A. rewrite E in A. apply sm_mem_in in A. congruence.
  - apply sm_mem_in in B. rewrite <- E in B. apply sm_mem_in in B. congruence.
Qed.

Lemma map_fst_map_snd {V W} (f : V -> W) (m : list (N * V)) :
  map fst (map (fun e => (fst e, f (snd e))) m) = map fst m.
Proof. rewrite map_map. apply map_ext. intros [k v]. reflexivity. Qed.

Lemma sm_find_map_snd {V W} (f : V -> W) k (m : list (N * V)) :
  sm_find k (map (fun e => (fst e, f (snd e))) m) = option_map f (sm_find k m).
Proof.
  induction m as [|[k' v] t IH]; cbn [map sm_find fst snd option_map]; [reflexivity|].
  destruct (k =? k'); [reflexivity|exact IH].
Qed.

Lemma sm_mem_map_snd {V W} (f : V -> W) k (m : list (N * V)) :
  sm_mem k (map (fun e => (fst e, f (snd e))) m) = sm_mem k m.
Proof. unfold sm_mem. rewrite sm_find_map_snd. destruct (sm_find k m); reflexivity. Qed.

Lemma Forall_map_snd {V W} (P : N * V -> Prop) (Q : N * W -> Prop) (f : V -> W) m :
  (forall k v, P (k, v) -> Q (k, f v)) -> Forall P m -> Forall Q (map (fun e => (fst e, f (snd e))) m).
Proof. intros H F. induction F as [|[k v] t Hp _ IH]; cbn [map fst snd]; constructor; auto. Qed.

Definition unit_map (s : list N) : list (N * unit) := map (fun k => (k, tt)) s.

Lemma keys_unit_map s : map fst (unit_map s) = s.
Proof. unfold unit_map. rewrite map_map. apply map_id. Qed.

Lemma ss_mem_map k s : ss_mem k s = sm_mem k (unit_map s).
Proof.
  unfold sm_mem. induction s as [|a t IH]; cbn [ss_mem unit_map map sm_find]; [reflexivity|].
  rewrite IH. destruct (k =? a); reflexivity.
Qed.

Lemma ss_insert_map k s : unit_map (ss_insert k s) = sm_insert k tt (unit_map s).
Proof.
  induction s as [|a t IH]; cbn [ss_insert unit_map map sm_insert]; [reflexivity|].
  destruct (k <? a); [reflexivity|]. destruct (N.eqb_spec k a) as [->|_]; [reflexivity|]. cbn [map]. f_equal. exact IH.
Qed.

Lemma ss_remove_map k s : unit_map (ss_remove k s) = sm_remove k (unit_map s).
Proof.
  induction s as [|a t IH]; cbn [ss_remove unit_map map sm_remove]; [reflexivity|].
  destruct (k =? a); [reflexivity|]. cbn [map]. f_equal. exact IH.
Qed.

Lemma ss_mem_in k s : ss_mem k s = true <-> In k s.
Proof. rewrite ss_mem_map, sm_mem_in, keys_unit_map. reflexivity. Qed.

Lemma ss_mem_insert k k' s : ss_mem k (ss_insert k' s) = (k =? k') || ss_mem k s.
Proof. rewrite !ss_mem_map, ss_insert_map. apply sm_mem_insert. Qed.

Lemma ss_in_remove x k s : In x (ss_remove k s) -> In x s.
Proof.
  intros H. rewrite <- (keys_unit_map (ss_remove k s)), ss_remove_map in H. apply sm_keys_remove in H.
  now rewrite keys_unit_map in H.
Qed.

Lemma asc_ss_insert k s : asc s -> asc (ss_insert k s).
Proof.
  intros H. rewrite <- (keys_unit_map (ss_insert k s)), ss_insert_map. apply asc_sm_insert. now rewrite keys_unit_map.
Qed.

Lemma asc_ss_remove k s : asc s -> asc (ss_remove k s).
Proof.
  intros H. rewrite <- (keys_unit_map (ss_remove k s)), ss_remove_map. apply asc_sm_remove. now rewrite keys_unit_map.
Qed.

Lemma ss_mem_lt_false k s : Forall (fun k' => k < k') s -> ss_mem k s = false.
Proof. intros H. rewrite ss_mem_map. apply sm_find_none_mem, sm_find_lt_none. now rewrite keys_unit_map. Qed.

Lemma ss_mem_remove k k' s : asc s -> ss_mem k (ss_remove k' s) = negb (k =? k') && ss_mem k s.
Proof. intros H. rewrite !ss_mem_map, ss_remove_map. apply sm_mem_remove. now rewrite keys_unit_map. Qed.

Lemma ss_remove_length k s : ss_mem k s = true -> length s = S (length (ss_remove k s)).
Proof.
  induction s as [|a t IH]; cbn [ss_mem ss_remove length]; [discriminate|].
  destruct (k =? a); cbn [orb length]; auto.
Qed.

Lemma sm_remove_length {V} k (v : V) m : sm_find k m = Some v -> length m = S (length (sm_remove k m)).
Proof.
  induction m as [|[k' v'] t IH]; cbn [sm_find sm_remove length]; [discriminate|].
  destruct (N.eqb_spec k k'); [reflexivity|]. intros H. cbn [length]. now rewrite (IH H).
Qed.

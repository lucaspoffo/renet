(* BaseP.v - what every proof file builds on: the facts about the definitions of Base.v (outcomes and
   bind, len, takeN / dropN, nth_opt / upd / repeatN, sum, fixed-width digits), a few facts about
   NoDup / Forall2 / In, [mod_window], counting slots with [filter], the
   arithmetic settings, and the two tactics [evaluated] / [evaluates] by which closed examples name and
   evaluate a concrete run. *)
From RenetV Require Import Base.
Require Import Lia ZifyBool ZifyN ZifyNat.

(* bare [simpl]/[cbn] must not unfold binary arithmetic; these settings reach every file that
   requires this one *)
Arguments N.add : simpl never.
Arguments N.sub : simpl never.
Arguments N.mul : simpl never.
Arguments N.div : simpl never.
Arguments N.modulo : simpl never.
Arguments N.pow : simpl never.
Arguments N.eqb : simpl never.
Arguments N.ltb : simpl never.
Arguments N.leb : simpl never.
Open Scope N_scope.

(* [evaluated r] is the value [a] of a closed term [r] that evaluates to [Ok a] or [Some a].  A concrete
   run gets a name for its result, [Definition x := ltac:(evaluated r)], and one lemma [r = Ok x];
   the examples about that run rewrite with the lemma and read their facts off [x], so the run itself is
   evaluated in one place only. *)
Ltac evaluated r :=
  let v := eval vm_compute in r in
  match v with Ok ?a => exact a | Some ?a => exact a end.

(* [evaluates] proves [r = v] for closed r and v: both sides are evaluated and compared (the proof term is
   [eq_refl v] with one checked cast).  It proves the lemmas [r = Ok x] that go with [evaluated]. *)
Ltac evaluates := match goal with |- @eq ?T ?r ?v => exact (@eq_refl T v <: r = v) end.

Lemma bind_ok {E A B} (r : res E A) (f : A -> res E B) b :
  bind r f = Ok b -> exists a, r = Ok a /\ f a = Ok b.
Proof. destruct r; cbn [bind]; intros H; try discriminate. eauto. Qed.

Lemma bind_ext {E A B} (r : res E A) (f g : A -> res E B) :
  (forall a, f a = g a) -> bind r f = bind r g.
Proof. intros H. destruct r; cbn [bind]; auto. Qed.

Lemma bind_no_panic {E A B} (r : res E A) (f : A -> res E B) :
  is_panic r = false -> (forall a, is_panic (f a) = false) -> is_panic (bind r f) = false.
Proof. destruct r; cbn [bind is_panic]; auto. Qed.

Lemma is_panic_false_iff {E A} (r : res E A) : is_panic r = false <-> forall site, r <> Panic site.
Proof.
  destruct r; cbn [is_panic]; split; try discriminate; try reflexivity.
  intros H. destruct (H site eq_refl).
Qed.

Lemma sub_chk_ok {E} site a b : b <= a -> @sub_chk E site a b = Ok (a - b).
Proof. intros H. unfold sub_chk. destruct (b <=? a) eqn:L; [reflexivity | lia]. Qed.

Lemma len_nil {A} : len (@nil A) = 0.
Proof. reflexivity. Qed.

Lemma len_cons {A} (x : A) l : len (x :: l) = 1 + len l.
Proof. unfold len. cbn [length]. lia. Qed.

Lemma len_app {A} (a b : list A) : len (a ++ b) = len a + len b.
Proof. unfold len. rewrite app_length. lia. Qed.

Lemma len_rev {A} (a : list A) : len (rev a) = len a.
Proof. unfold len. rewrite rev_length. reflexivity. Qed.

Lemma len_map {A B} (f : A -> B) (a : list A) : len (map f a) = len a.
Proof. unfold len. rewrite map_length. reflexivity. Qed.

Lemma len_0_nil {A} (l : list A) : len l = 0 -> l = [].
Proof. destruct l; [reflexivity|]. rewrite len_cons. lia. Qed.

Lemma len_one {A} (x : A) : len [x] = 1.
Proof. reflexivity. Qed.

Lemma len_length {A} (a : list A) : N.to_nat (len a) = length a.
Proof. unfold len. apply Nat2N.id. Qed.

Lemma len_filter_le {A} (f : A -> bool) l : len (filter f l) <= len l.
Proof. induction l as [|x l IH]; cbn [filter]; [lia|]. destruct (f x); rewrite ?len_cons; lia. Qed.

Lemma len_takeN {A} n (l : list A) : len (takeN n l) = N.min n (len l).
Proof. unfold len, takeN. rewrite firstn_length. lia. Qed.

Lemma len_takeN_le {A} n (l : list A) : n <= len l -> len (takeN n l) = n.
Proof. intros H. rewrite len_takeN. lia. Qed.

Lemma len_dropN {A} n (l : list A) : len (dropN n l) = len l - n.
Proof. unfold len, dropN. rewrite skipn_length. lia. Qed.

Lemma takeN_dropN {A} n (l : list A) : takeN n l ++ dropN n l = l.
Proof. apply firstn_skipn. Qed.

Lemma takeN_app_exact {A} n (a b : list A) : len a = n -> takeN n (a ++ b) = a.
Proof.
  intros <-. unfold takeN. rewrite len_length, firstn_app, Nat.sub_diag, firstn_all. apply app_nil_r.
Qed.

Lemma dropN_app_exact {A} n (a b : list A) : len a = n -> dropN n (a ++ b) = b.
Proof.
  intros <-. unfold dropN. rewrite len_length, skipn_app, Nat.sub_diag, skipn_all. reflexivity.
Qed.

Lemma takeN_all {A} n (l : list A) : len l <= n -> takeN n l = l.
Proof. intros H. apply firstn_all2. unfold len in H. lia. Qed.

Lemma takeN_add {A} a b (l : list A) : takeN a l ++ takeN b (dropN a l) = takeN (a + b) l.
Proof.
  unfold takeN, dropN. replace (N.to_nat (a + b)) with (N.to_nat a + N.to_nat b)%nat by lia.
  generalize (N.to_nat a). intros n. revert l. induction n as [|n IH]; intros [|x l]; cbn [Nat.add firstn skipn app];
    try reflexivity; [destruct (N.to_nat b); reflexivity | f_equal; apply IH].
Qed.

Lemma takeN_exact {A} n (l : list A) : len l = n -> takeN n l = l.
Proof. intro H. apply takeN_all. lia. Qed.

Lemma dropN_add {A} a b (l : list A) : dropN (a + b) l = dropN b (dropN a l).
Proof.
  unfold dropN. rewrite N2Nat.inj_add.
  generalize (N.to_nat a) as x. generalize (N.to_nat b) as y. intros y x. revert l.
  induction x as [|x IH]; intro l; [reflexivity|].
  destruct l as [|h t]; cbn [Nat.add skipn]; [destruct y; reflexivity | apply IH].
Qed.

Lemma nth_opt_eq {A} (l : list A) i : nth_opt l i = nth_error l i.
Proof. revert i. induction l as [|x l IH]; intros [|i]; cbn [nth_opt nth_error]; auto. Qed.

Lemma nth_opt_some_lt {A} (l : list A) i x : nth_opt l i = Some x -> (i < length l)%nat.
Proof. rewrite nth_opt_eq. intros H. apply nth_error_Some. congruence. Qed.

Lemma nth_opt_lt {A} (l : list A) i : (i < length l)%nat -> exists x, nth_opt l i = Some x.
Proof.
  rewrite nth_opt_eq. intros H. apply nth_error_Some in H. destruct (nth_error l i); [eauto | congruence].
Qed.

Lemma nth_opt_none {A} (l : list A) i : (length l <= i)%nat -> nth_opt l i = None.
Proof. rewrite nth_opt_eq. apply nth_error_None. Qed.

Lemma nth_opt_in {A} (l : list A) i x : nth_opt l i = Some x -> In x l.
Proof. rewrite nth_opt_eq. apply nth_error_In. Qed.

Lemma nth_opt_nth_iff {A} (l : list A) i x d : nth_opt l i = Some x <-> ((i < length l)%nat /\ nth i l d = x).
Proof.
  rewrite nth_opt_eq. split.
  - intros H. split; [apply nth_error_Some; congruence|exact (nth_error_nth l i d H)].
  - intros [H <-]. exact (nth_error_nth' l d H).
Qed.

Lemma upd_length {A} (l : list A) i x : length (upd l i x) = length l.
Proof. revert i. induction l as [|y l IH]; intros [|i]; cbn [upd length]; auto. Qed.

Lemma len_upd {A} (l : list A) i x : len (upd l i x) = len l.
Proof. unfold len. rewrite upd_length. reflexivity. Qed.

Lemma nth_opt_upd_same {A} (l : list A) i x : (i < length l)%nat -> nth_opt (upd l i x) i = Some x.
Proof.
  revert i. induction l as [|y l IH]; intros [|i] H; cbn [length] in H; cbn [upd nth_opt]; try lia;
    [reflexivity | apply IH; lia].
Qed.

Lemma nth_opt_upd_other {A} (l : list A) i j x : i <> j -> nth_opt (upd l i x) j = nth_opt l j.
Proof.
  revert i j. induction l as [|y l IH]; intros [|i] [|j] H; cbn [upd nth_opt]; try reflexivity;
    [congruence | apply IH; congruence].
Qed.

Lemma nth_upd_same {A} (l : list A) i x d : (i < length l)%nat -> nth i (upd l i x) d = x.
Proof.
  revert i. induction l as [|y l IH]; intros [|i] H; cbn [length] in H; cbn [upd nth]; try lia;
    [reflexivity | apply IH; lia].
Qed.

Lemma nth_upd_other {A} (l : list A) i j x d : i <> j -> nth j (upd l i x) d = nth j l d.
Proof.
  revert i j. induction l as [|y l IH]; intros [|i] [|j] H; cbn [upd nth]; try reflexivity;
    [congruence | apply IH; congruence].
Qed.

Lemma Forall_upd {A} (P : A -> Prop) l i x : P x -> Forall P l -> Forall P (upd l i x).
Proof.
  intros Hx. revert i. induction l as [|y l IH]; intros [|i] H; cbn [upd]; auto;
    inversion H; subst; constructor; auto.
Qed.

Lemma Forall_nth_opt {A} (P : A -> Prop) l i x : Forall P l -> nth_opt l i = Some x -> P x.
Proof. intros H E. apply nth_opt_in in E. rewrite Forall_forall in H. auto. Qed.

Lemma repeatN_length {A} (x : A) n : length (repeatN x n) = n.
Proof. induction n; cbn [repeatN length]; auto. Qed.

Lemma len_repeatN {A} (x : A) n : len (repeatN x n) = N.of_nat n.
Proof. unfold len. rewrite repeatN_length. reflexivity. Qed.

Lemma Forall_repeatN {A} (P : A -> Prop) x n : P x -> Forall P (repeatN x n).
Proof. intros; induction n; cbn [repeatN]; auto. Qed.

Lemma nth_repeatN {A} (x : A) n i : nth i (repeatN x n) x = x.
Proof. revert i. induction n; intros [|i]; cbn [repeatN nth]; auto. Qed.

Lemma map_nth_seq {A} (l : list A) d : map (fun i => nth i l d) (seq 0 (length l)) = l.
Proof.
  induction l as [|a l IH]; [reflexivity|]. cbn [length seq map nth]. f_equal.
  rewrite <- seq_shift, map_map. exact IH.
Qed.

Lemma NoDup_app_intro {A} (l1 l2 : list A) :
  NoDup l1 -> NoDup l2 -> (forall x, In x l1 -> ~ In x l2) -> NoDup (l1 ++ l2).
Proof.
  induction 1 as [|x l1 Hx ND IH]; intros ND2 Hd; cbn [app]; auto.
  constructor.
  - intros Hin. apply in_app_or in Hin. destruct Hin as [?|Hin]; [contradiction|].
    apply (Hd x); [now left|exact Hin].
  - apply IH; auto. intros y Hy. apply Hd. now right.
Qed.

Lemma NoDup_snoc {A} (l : list A) x : NoDup l -> ~ In x l -> NoDup (l ++ [x]).
Proof.
  intros H Hx. apply NoDup_app_intro; [exact H| |].
  - constructor; [intros []|constructor].
  - intros y Hy [<-|[]]. exact (Hx Hy).
Qed.

Lemma NoDup_incl_minus {A} (l l' gone : list A) :
  NoDup l' -> NoDup gone -> incl gone l ->
  (forall x, In x l' -> In x l /\ ~ In x gone) ->
  (length l' + length gone <= length l)%nat.
Proof.
  intros Hl' Hg Hincl H.
  assert (Hnd : NoDup (l' ++ gone)).
  { apply NoDup_app_intro; auto. intros x Hx Hx'. destruct (H x Hx) as [_ Hn]. exact (Hn Hx'). }
  rewrite <- app_length. apply NoDup_incl_length; [exact Hnd|].
  intros x Hx. apply in_app_or in Hx. destruct Hx as [Hx|Hx]; [apply H, Hx|apply Hincl, Hx].
Qed.

Lemma Forall2_impl_in {A B} (R R' : A -> B -> Prop) l l' :
  (forall x y, In x l -> R x y -> R' x y) -> Forall2 R l l' -> Forall2 R' l l'.
Proof.
  intros H F. induction F as [|x y l l' Hxy F IH]; constructor.
  - apply H; [now left|exact Hxy].
  - apply IH. intros x' y' Hin. apply H. now right.
Qed.

Lemma Forall2_len {A B} (R : A -> B -> Prop) l l' : Forall2 R l l' -> len l = len l'.
Proof. induction 1 as [|x y l l' _ _ IH]; [reflexivity|]. now rewrite !len_cons, IH. Qed.

Lemma Forall2_fst {A} (R : N * A -> N * A -> Prop) t t' :
  (forall x y, R x y -> fst y = fst x) -> Forall2 R t t' -> map fst t' = map fst t.
Proof.
  intros H F. induction F as [|x y l l' Hxy F IH]; cbn [map]; [reflexivity|].
  now rewrite IH, (H _ _ Hxy).
Qed.

Lemma Forall2_Forall_r {A B} (R : A -> B -> Prop) (P : A -> Prop) (Q : B -> Prop) l l' :
  (forall x y, P x -> R x y -> Q y) -> Forall2 R l l' -> Forall P l -> Forall Q l'.
Proof.
  intros H F. induction F as [|x y l l' Hxy F IH]; intros HP; constructor; inversion HP; subst; eauto.
Qed.

Lemma Forall2_in_r {A B} (R : A -> B -> Prop) l l' y : Forall2 R l l' -> In y l' -> exists x, In x l /\ R x y.
Proof.
  induction 1 as [|x0 y0 l l' Hxy _ IH]; intros Hin; [destruct Hin|].
  destruct Hin as [->|Hin]; [exists x0; split; [now left|exact Hxy]|].
  destruct (IH Hin) as (x & Hx & Hr). exists x. split; [now right|exact Hr].
Qed.

Lemma nth_error_app_some {A} (l l' : list A) i x : nth_error l i = Some x -> nth_error (l ++ l') i = Some x.
Proof. intros H. rewrite nth_error_app1; [exact H|]. apply nth_error_Some. congruence. Qed.

Lemma nth_error_app_off {A} (pre l : list A) j b :
  nth_error l j = Some b -> nth_error (pre ++ l) (length pre + j) = Some b.
Proof. intros H. rewrite nth_error_app2 by lia. replace (length pre + j - length pre)%nat with j by lia. exact H. Qed.

Lemma nth_opt_split {A} (l : list A) k x :
  nth_opt l k = Some x -> exists l1 l2, l = l1 ++ x :: l2 /\ length l1 = k.
Proof.
  revert k. induction l as [|y l IH]; intros [|k] H; cbn [nth_opt] in H; try discriminate.
  - injection H as ->. exists [], l. split; reflexivity.
  - destruct (IH _ H) as [l1 [l2 [E L]]]. exists (y :: l1), l2. subst. split; reflexivity.
Qed.

Lemma nth_opt_app_mid {A} (l1 l2 : list A) x : nth_opt (l1 ++ x :: l2) (length l1) = Some x.
Proof. induction l1 as [|y l1 IH]; cbn [app length nth_opt]; auto. Qed.

Lemma nth_opt_app_l {A} (l1 l2 : list A) i x : nth_opt l1 i = Some x -> nth_opt (l1 ++ l2) i = Some x.
Proof.
  revert i. induction l1 as [|y l1 IH]; intros [|i] H; cbn [nth_opt app] in *; try discriminate; auto.
Qed.

Lemma nth_opt_app_inv {A} (l1 l2 : list A) : forall k x,
  nth_opt (l1 ++ l2) k = Some x -> nth_opt l1 k = Some x \/ In x l2.
Proof.
  induction l1 as [|z l1 IH]; intros k x; cbn [app].
  - intros H. right. apply (nth_opt_in _ _ _ H).
  - destruct k as [|k]; cbn [nth_opt]; [auto | apply IH].
Qed.

Lemma upd_app_mid {A} (l1 l2 : list A) x y : upd (l1 ++ x :: l2) (length l1) y = l1 ++ y :: l2.
Proof. induction l1 as [|z l1 IH]; cbn [app length upd]; [reflexivity|]. rewrite IH. reflexivity. Qed.

Lemma upd_upd {A} (l : list A) i x y : upd (upd l i x) i y = upd l i y.
Proof. revert i. induction l as [|z l IH]; intros [|i]; cbn [upd]; try reflexivity. rewrite IH. reflexivity. Qed.

Lemma nth_opt_upd_inv {A} (l : list A) i x k y :
  nth_opt (upd l i x) k = Some y -> (k = i /\ y = x) \/ (k <> i /\ nth_opt l k = Some y).
Proof.
  intros H. destruct (Nat.eq_dec i k) as [<-|Hn].
  - left. rewrite nth_opt_upd_same in H by (apply nth_opt_some_lt in H; rewrite upd_length in H; exact H).
    injection H as <-. auto.
  - right. rewrite nth_opt_upd_other in H by exact Hn. auto.
Qed.

Lemma In_upd {A} (l : list A) k y x : In x (upd l k y) -> x = y \/ In x l.
Proof.
  revert k. induction l as [|z l IH]; intros [|k]; cbn [upd In]; try tauto.
  - intros [H|H]; auto.
  - intros [H|H]; auto. destruct (IH _ H); auto.
Qed.

Lemma In_repeatN {A} (y x : A) n : In x (repeatN y n) -> x = y.
Proof. induction n; cbn [repeatN In]; [intros [] | intros [H|H]; auto]. Qed.

Lemma no_members_nil {A} (l : list A) : (forall x, ~ In x l) -> l = [].
Proof. destruct l as [|a l]; [reflexivity|]. intros H. exfalso. apply (H a). left. reflexivity. Qed.

Lemma sum_nil : sum [] = 0.
Proof. reflexivity. Qed.

Lemma sum_cons x l : sum (x :: l) = x + sum l.
Proof. reflexivity. Qed.

Lemma sum_app a b : sum (a ++ b) = sum a + sum b.
Proof. induction a as [|x a IH]; cbn [app]; rewrite ?sum_cons, ?sum_nil; lia. Qed.

Lemma len_flat_map {A B} (f : A -> list B) l : len (flat_map f l) = sum (map (fun x => len (f x)) l).
Proof.
  induction l as [|x l IH]; cbn [flat_map map]; [reflexivity|].
  rewrite len_app, sum_cons, IH. reflexivity.
Qed.

Lemma Forall2_sum_eq {A B} (R : A -> B -> Prop) (f : A -> N) (g : B -> N) l l' :
  (forall x y, R x y -> g y = f x) -> Forall2 R l l' -> sum (map g l') = sum (map f l).
Proof.
  intros H F. induction F as [|x y l l' Hxy F IH]; cbn [map]; [reflexivity|].
  now rewrite !sum_cons, IH, (H _ _ Hxy).
Qed.

Lemma le_bytes_length n v : length (le_bytes n v) = n.
Proof. revert v. induction n; intros v; cbn [le_bytes length]; auto. Qed.

Lemma len_le_bytes n v : len (le_bytes n v) = N.of_nat n.
Proof. unfold len. rewrite le_bytes_length. reflexivity. Qed.

Lemma be_bytes_length n v : length (be_bytes n v) = n.
Proof. unfold be_bytes. rewrite rev_length. apply le_bytes_length. Qed.

Lemma le_bytes_lt n v : Forall (fun b => b < 256) (le_bytes n v).
Proof.
  revert v. induction n as [|n IH]; intros v; cbn [le_bytes]; constructor; [|apply IH].
  apply N.mod_lt. discriminate.
Qed.

Lemma le_bytes_mod n v : le_bytes n (v mod 256 ^ N.of_nat n) = le_bytes n v.
Proof.
  revert v. induction n as [|k IH]; intros v; [reflexivity|].
  rewrite Nat2N.inj_succ, N.pow_succ_r', N.mod_mul_r by (discriminate || (apply N.pow_nonzero; discriminate)).
  cbn [le_bytes]. set (r := v mod 256). set (q := (v / 256) mod 256 ^ N.of_nat k).
  assert (Hr : r < 256) by (apply N.mod_lt; discriminate).
  rewrite (N.mul_comm 256 q), N.mod_add, N.div_add by discriminate.
  rewrite (N.mod_small r), (N.div_small r) by exact Hr.
  exact (f_equal (cons r) (IH (v / 256))).
Qed.

(* lists of bytes: bytes_ok of Spec/CodecSpec.v and of Spec/NetSpec.v are both this Forall, and a lemma
   stated over it applies to either *)
Lemma bytes_ok_cons b l : Forall (fun x => x < 256) (b :: l) <-> b < 256 /\ Forall (fun x => x < 256) l.
Proof. exact (Forall_cons_iff _ b l). Qed.

Lemma bytes_ok_app a b :
  Forall (fun x => x < 256) (a ++ b) <-> Forall (fun x => x < 256) a /\ Forall (fun x => x < 256) b.
Proof. apply Forall_app. Qed.

Lemma bytes_ok_takeN n l : Forall (fun x => x < 256) l -> Forall (fun x => x < 256) (takeN n l).
Proof. intros H. rewrite <- (takeN_dropN n l) in H. apply Forall_app in H. apply H. Qed.

Lemma bytes_ok_dropN n l : Forall (fun x => x < 256) l -> Forall (fun x => x < 256) (dropN n l).
Proof. intros H. rewrite <- (takeN_dropN n l) in H. apply Forall_app in H. apply H. Qed.

Lemma bytes_ok_dec_true l : forallb (fun b => b <? 256) l = true -> Forall (fun b => b < 256) l.
Proof.
  intros H. apply Forall_forall. intros x Hx.
  rewrite forallb_forall in H. specialize (H x Hx). lia.
Qed.

Lemma bytes_eqb_eq : forall a b : list N, bytes_eqb a b = true <-> a = b.
Proof.
  unfold bytes_eqb. induction a as [|x a IH]; intros [|y b]; cbn [list_eqb].
  - split; intros _; reflexivity.
  - split; discriminate.
  - split; discriminate.
  - rewrite andb_true_iff, N.eqb_eq, IH. split.
    + intros [-> ->]. reflexivity.
    + intros H. injection H as -> ->. split; reflexivity.
Qed.

Lemma le_val_cons b l : le_val (b :: l) = b + 256 * le_val l.
Proof. reflexivity. Qed.

Lemma le_val_le_bytes n v : le_val (le_bytes n v) = v mod 256 ^ N.of_nat n.
Proof.
  revert v. induction n as [|n IH]; intros v.
  - cbn [le_bytes le_val fold_right]. change (256 ^ N.of_nat 0) with 1. rewrite N.mod_1_r. reflexivity.
  - cbn [le_bytes]. rewrite le_val_cons, IH, Nat2N.inj_succ, N.pow_succ_r'.
    assert (P : 256 ^ N.of_nat n <> 0) by (apply N.pow_nonzero; discriminate).
    rewrite N.mod_mul_r by (discriminate || exact P). reflexivity.
Qed.

Lemma mod_window n a b : 0 < n -> a mod n = b mod n -> a <= b -> b < a + n -> a = b.
Proof.
  intros Hn E L U. pose proof (N.div_mod a n ltac:(lia)). pose proof (N.div_mod b n ltac:(lia)).
  pose proof (N.mod_lt a n ltac:(lia)). rewrite E in *.
  assert (a / n = b / n) by nia. nia.
Qed.

Lemma len_filter_cons {A} (p : A -> bool) x l : len (filter p (x :: l)) = (if p x then 1 else 0) + len (filter p l).
Proof. cbn [filter]. destruct (p x); [rewrite len_cons|]; lia. Qed.

Lemma len_filter_map {A B} (h : A -> B) (g : B -> bool) l :
  len (filter g (map h l)) = len (filter (fun x => g (h x)) l).
Proof.
  induction l as [|x l IH]; cbn [map filter]; [reflexivity|]. destruct (g (h x)); now rewrite ?len_cons, IH.
Qed.

Lemma len_filter_repeatN {A} (p : A -> bool) x n : p x = false -> len (filter p (repeatN x n)) = 0.
Proof.
  intros H. induction n as [|n IH]; cbn [repeatN]; [reflexivity|]. rewrite len_filter_cons, H, IH. reflexivity.
Qed.

Lemma len_filter_upd {A} (p : A -> bool) l i x y :
  nth_opt l i = Some x -> p x = false -> p y = true -> len (filter p (upd l i y)) = len (filter p l) + 1.
Proof.
  intros H Hx Hy. revert i H. induction l as [|z l IH]; intros [|i] H; cbn [nth_opt] in H; try discriminate.
  - injection H as ->. cbn [upd]. rewrite !len_filter_cons, Hx, Hy. lia.
  - cbn [upd]. rewrite !len_filter_cons, (IH _ H). lia.
Qed.

Lemma len_filter_full {A} (p : A -> bool) l : len (filter p l) = len l -> forall x, In x l -> p x = true.
Proof.
  induction l as [|y l IH]; intros E x Hx; [destruct Hx|].
  rewrite len_filter_cons, len_cons in E. pose proof (len_filter_le p l) as Hle.
  destruct (p y) eqn:Ey; [|lia].
  destruct Hx as [<-|Hx]; [exact Ey|]. apply IH; [lia|exact Hx].
Qed.

Lemma len_filter_not_full {A} (p : A -> bool) l :
  len (filter p l) < len l -> exists i x, nth_opt l i = Some x /\ p x = false.
Proof.
  induction l as [|y l IH]; intros E; [rewrite (@len_nil A) in E; lia|].
  rewrite len_filter_cons, len_cons in E. destruct (p y) eqn:Ey.
  - destruct IH as (i & x & Hi & Hx); [lia|]. exists (S i), x. split; [exact Hi|exact Hx].
  - exists O, y. split; [reflexivity|exact Ey].
Qed.

Lemma sum_nodup_le {A} (f : A -> N) (l l' : list A) :
  NoDup l -> incl l l' -> sum (map f l) <= sum (map f l').
Proof.
  revert l'. induction l as [|a l IH]; intros l' ND H; cbn [map]; [rewrite sum_nil; lia|].
  inversion ND as [|? ? Ha ND']; subst. rewrite sum_cons.
  destruct (in_split a l' (H a (or_introl eq_refl))) as (l1 & l2 & ->).
  rewrite map_app, sum_app. cbn [map]. rewrite sum_cons.
  assert (L : sum (map f l) <= sum (map f (l1 ++ l2))).
  { apply IH; [exact ND'|]. intros x Hx. specialize (H x (or_intror Hx)).
    apply in_app_or in H. apply in_or_app. destruct H as [H|[->|H]]; auto. contradiction. }
  rewrite map_app, sum_app in L. lia.
Qed.

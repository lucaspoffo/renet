(* NPacketP.v - renetcode packet framing (packet.rs): no panics, what an accepted
   datagram is bound to, round trips, lengths.  The cipher is used only through
   the theorems of AeadP.v (the closed examples at the end evaluate it).  What decode does
   is said once, by decode_spec, in the readings dgram_type / dgram_seq of the header
   (Spec/NetSpec.v); "the datagram opens under the key to this plaintext" is opens_to,
   to which dgram_auth, tag_verifies and opens_sealed are bridged. *)
From Coq Require Import Lia ZifyBool ZifyN ZifyNat.
From RenetV Require Import Base Consts Aead NPacket Token NetSpec.
From RenetV Require Export BaseP.
From RenetV Require Import AeadP ReplayP.
Import ListNotations.
Open Scope N_scope.

Lemma takeN_0 {A} (l : list A) : takeN 0 l = [].
Proof. reflexivity. Qed.

Lemma dropN_0 {A} (l : list A) : dropN 0 l = l.
Proof. reflexivity. Qed.

Lemma len_0_nil {A} (l : list A) : len l = 0 -> l = [].
Proof. apply BaseP.len_0_nil. Qed.

Lemma len_zeros n : len (zeros n) = n.
Proof. unfold zeros. rewrite len_repeatN. lia. Qed.

Lemma bytes_ok_nil : bytes_ok [].
Proof. constructor. Qed.

Lemma le_bytes_ok n v : bytes_ok (le_bytes n v).
Proof. apply le_bytes_lt. Qed.

Lemma pow256_succ n : 256 ^ N.of_nat (S n) = 256 * 256 ^ N.of_nat n.
Proof. rewrite Nat2N.inj_succ, N.pow_succ_r'. reflexivity. Qed.

Lemma le_val_lt l : bytes_ok l -> le_val l < 256 ^ N.of_nat (length l).
Proof.
  induction l as [|b l IH]; intro H.
  - cbn. reflexivity.
  - apply bytes_ok_cons in H. destruct H as [Hb Hl]. specialize (IH Hl).
    cbn [length]. rewrite le_val_cons, pow256_succ. lia.
Qed.

Lemma le_bytes_le_val l : bytes_ok l -> le_bytes (length l) (le_val l) = l.
Proof.
  induction l as [|b l IH]; intro H; [reflexivity|].
  apply bytes_ok_cons in H. destruct H as [Hb Hl]. specialize (IH Hl).
  cbn [length le_bytes]. rewrite le_val_cons.
  assert (E1 : (b + 256 * le_val l) mod 256 = b).
  { rewrite N.mul_comm, N.mod_add by discriminate. apply N.mod_small. exact Hb. }
  assert (E2 : (b + 256 * le_val l) / 256 = le_val l).
  { rewrite N.mul_comm, N.div_add by discriminate. rewrite N.div_small by exact Hb. reflexivity. }
  rewrite E1, E2, IH. reflexivity.
Qed.

Lemma le_bytes_le_val_n n l : length l = n -> bytes_ok l -> le_bytes n (le_val l) = l.
Proof. intros <-. apply le_bytes_le_val. Qed.

Lemma le_val_inj l1 l2 : length l1 = length l2 -> bytes_ok l1 -> bytes_ok l2 ->
  le_val l1 = le_val l2 -> l1 = l2.
Proof.
  intros HL H1 H2 E. rewrite <- (le_bytes_le_val l1 H1), <- (le_bytes_le_val l2 H2), HL, E. reflexivity.
Qed.

Lemma len_le64 v : len (le64 v) = 8.  Proof. apply len_le_bytes. Qed.
Lemma len_le32 v : len (le32 v) = 4.  Proof. apply len_le_bytes. Qed.
Lemma len_le16 v : len (le16 v) = 2.  Proof. apply len_le_bytes. Qed.

(* reading back a buffer that was written by appending fields: the rewrite set [fields] strips a
   field whose length is a hypothesis, or is fixed by its encoder, off the front *)
#[global] Hint Rewrite @takeN_app_exact @dropN_app_exact @takeN_exact using (assumption || reflexivity) : fields.

Lemma le_val_le_bytes_small n v : v < 256 ^ N.of_nat n -> le_val (le_bytes n v) = v.
Proof. intro H. rewrite le_val_le_bytes. apply N.mod_small. exact H. Qed.

Lemma le_val_le64 v : v < U64 -> le_val (le64 v) = v.
Proof. exact (le_val_le_bytes_small 8 v). Qed.
Lemma le_val_le32 v : v < 4294967296 -> le_val (le32 v) = v.
Proof. exact (le_val_le_bytes_small 4 v). Qed.
Lemma le_val_le16 v : v < 65536 -> le_val (le16 v) = v.
Proof. exact (le_val_le_bytes_small 2 v). Qed.

Lemma le_val_takeN_lt n l : bytes_ok l -> le_val (takeN n l) < 256 ^ n.
Proof.
  intros B. pose proof (le_val_lt _ (bytes_ok_takeN n l B)) as H.
  assert (L : 256 ^ len (takeN n l) <= 256 ^ n).
  { apply N.pow_le_mono_r; [discriminate|]. rewrite len_takeN. lia. }
  unfold len in L. lia.
Qed.

Lemma le_bytes_le_val_len n l : len l = N.of_nat n -> bytes_ok l -> le_bytes n (le_val l) = l.
Proof. intros E B. apply le_bytes_le_val_n; [unfold len in E; lia | exact B]. Qed.

Lemma le64_le_val l : len l = 8 -> bytes_ok l -> le64 (le_val l) = l.
Proof. apply (le_bytes_le_val_len 8). Qed.
Lemma le32_le_val l : len l = 4 -> bytes_ok l -> le32 (le_val l) = l.
Proof. apply (le_bytes_le_val_len 4). Qed.
Lemma le16_le_val l : len l = 2 -> bytes_ok l -> le16 (le_val l) = l.
Proof. apply (le_bytes_le_val_len 2). Qed.

Lemma mac_bytes_val : NC_MAC_BYTES = 16.  Proof. reflexivity. Qed.
Lemma xnonce_bytes_val : NC_XNONCE_BYTES = 24.  Proof. reflexivity. Qed.
Lemma private_bytes_val : NC_PRIVATE_BYTES = 1024.  Proof. reflexivity. Qed.
Lemma challenge_bytes_val : NC_CHALLENGE_BYTES = 300.  Proof. reflexivity. Qed.
Lemma user_data_bytes_val : NC_USER_DATA_BYTES = 256.  Proof. reflexivity. Qed.
Lemma key_bytes_val : NC_KEY_BYTES = 32.  Proof. reflexivity. Qed.
Lemma max_packet_bytes_val : NC_MAX_PACKET_BYTES = 1400.  Proof. reflexivity. Qed.
Lemma max_payload_bytes_val : NC_MAX_PAYLOAD_BYTES = 1300.  Proof. reflexivity. Qed.
Lemma len_version_info : len NC_VERSION_INFO = 13.  Proof. reflexivity. Qed.

Lemma aead_open_len k n a c m : aead_open k n a c = Some m -> len c = len m + NC_MAC_BYTES.
Proof. intro H. apply aead_open_length in H. rewrite mac_bytes_val. unfold len. lia. Qed.

Lemma seq_bytes_fuel_spec : forall fuel s, s < 256 ^ N.of_nat fuel -> s < 256 ^ seq_bytes_fuel fuel s.
Proof.
  induction fuel as [|f IH]; intros s H.
  - cbn [seq_bytes_fuel]. exact H.
  - cbn [seq_bytes_fuel]. destruct (s =? 0) eqn:E.
    + apply N.eqb_eq in E. subst s. reflexivity.
    + rewrite pow256_succ in H.
      assert (H' : s / 256 < 256 ^ N.of_nat f).
      { apply N.div_lt_upper_bound; [discriminate | exact H]. }
      specialize (IH _ H').
      rewrite N.add_1_l, N.pow_succ_r'.
      set (X := 256 ^ seq_bytes_fuel f (s / 256)) in *.
      pose proof (N.div_mod s 256 ltac:(discriminate)) as DM.
      pose proof (N.mod_lt s 256 ltac:(discriminate)). lia.
Qed.

Lemma seq_bytes_fuel_le : forall fuel s, seq_bytes_fuel fuel s <= N.of_nat fuel.
Proof.
  induction fuel as [|f IH]; intro s; cbn [seq_bytes_fuel]; [lia|].
  destruct (s =? 0); [lia|]. specialize (IH (s / 256)). lia.
Qed.

Lemma sequence_bytes_required_le s : sequence_bytes_required s <= 8.
Proof. unfold sequence_bytes_required. apply (seq_bytes_fuel_le 8). Qed.

Lemma sequence_bytes_required_bound s : s < U64 -> s < 256 ^ sequence_bytes_required s.
Proof.
  intro H. unfold sequence_bytes_required. rewrite (N.mod_small s U64 H).
  apply (seq_bytes_fuel_spec 8). exact H.
Qed.

Theorem prefix_roundtrip : forall s, s < U64 ->
  le_val (le_bytes (N.to_nat (sequence_bytes_required s)) s) = s /\ sequence_bytes_required s <= 8.
Proof.
  intros s H. split; [|apply sequence_bytes_required_le].
  rewrite le_val_le_bytes, N2Nat.id. apply N.mod_small. apply sequence_bytes_required_bound. exact H.
Qed.

Lemma encode_prefix_split id s : id < 16 ->
  encode_prefix id s mod 16 = id /\ encode_prefix id s / 16 = sequence_bytes_required s.
Proof.
  intro H. unfold encode_prefix.
  split.
  - rewrite N.mul_comm, N.mod_add by discriminate. apply N.mod_small. exact H.
  - rewrite N.mul_comm, N.div_add by discriminate. rewrite N.div_small by exact H. reflexivity.
Qed.

Lemma encode_prefix_lt id s : id < 16 -> encode_prefix id s < 256.
Proof. intro H. unfold encode_prefix. pose proof (sequence_bytes_required_le s). lia. Qed.

Lemma packet_id_le p : packet_id p <= 6.
Proof. destruct p; cbn [packet_id]; lia. Qed.

Lemma packet_id_request p : packet_id p = 0 -> exists v pr ex xn data, p = PRequest v pr ex xn data.
Proof. destruct p; cbn [packet_id]; try discriminate. intros _. eauto 6. Qed.

(* read_packet dispatches on a numeral; this is the same function with tests *)
Lemma read_packet_cases ty src :
  (ty = 0 /\ read_packet ty src = read_packet 0 src) \/
  (ty = 1 /\ read_packet ty src = Ok PDenied) \/
  (ty = 2 /\ read_packet ty src = read_packet 2 src) \/
  (ty = 3 /\ read_packet ty src = read_packet 3 src) \/
  (ty = 4 /\ read_packet ty src = read_packet 4 src) \/
  (ty = 5 /\ read_packet ty src = Ok (PPayload src)) \/
  (ty = 6 /\ read_packet ty src = Ok PDisconnect) \/
  (6 < ty /\ read_packet ty src = Err EInvalidPacketType).
Proof.
  destruct ty as [|p]; [tauto|].
  destruct p as [[[q|q|]|[q|q|]|]|[[q|q|]|[q|q|]|]|]; try tauto;
    do 7 right; (split; [lia | reflexivity]).
Qed.

Theorem read_packet_no_panic : forall ty src, is_panic (read_packet ty src) = false.
Proof.
  intros ty src.
  destruct (read_packet_cases ty src) as [[-> _]|[[_ ->]|[[-> _]|[[-> _]|[[-> _]|[[_ ->]|[[_ ->]|[_ ->]]]]]]]];
    try reflexivity; unfold read_packet;
    match goal with |- context [if ?c then _ else _] => destruct c end; reflexivity.
Qed.

Lemma read_packet_id : forall ty src p, read_packet ty src = Ok p -> packet_id p = ty.
Proof.
  intros ty src p H.
  destruct (read_packet_cases ty src) as [[-> _]|[[-> E]|[[-> _]|[[-> _]|[[-> _]|[[-> E]|[[-> E]|[_ E]]]]]]]];
    try (rewrite E in H; injection H as <-; reflexivity);
    try (rewrite E in H; discriminate);
    unfold read_packet in H;
    match type of H with context [if ?c then _ else _] => destruct c end;
    try discriminate; injection H as <-; reflexivity.
Qed.

Lemma read_packet_challenge_len ty src ts td :
  read_packet ty src = Ok (PChallenge ts td) -> len td = NC_CHALLENGE_BYTES.
Proof.
  intros H. pose proof (read_packet_id _ _ _ H) as Hid. cbn [packet_id] in Hid. subst ty.
  unfold read_packet in H. destruct (len src <? 8 + NC_CHALLENGE_BYTES) eqn:E; [discriminate|].
  injection H as _ <-. apply len_takeN_le. rewrite len_dropN. lia.
Qed.

Theorem encode_no_panic : forall cap p protocol crypto, is_panic (encode cap p protocol crypto) = false.
Proof.
  intros cap p protocol crypto. unfold encode.
  destruct p; try (destruct crypto as [[s key]|]; [|reflexivity]);
    match goal with |- context [if ?c then _ else _] => destruct c end; reflexivity.
Qed.

Theorem challenge_decode_no_panic : forall td tseq ckey, is_panic (challenge_decode td tseq ckey) = false.
Proof.
  intros. unfold challenge_decode. destruct (aead_open _ _ _ _); [|reflexivity].
  destruct (_ <? _); reflexivity.
Qed.

(* the window after a replay protected packet of type ty and sequence s authenticated *)
Definition rp_after (rp : option replay) (ty s : N) : option replay :=
  match rp with
  | Some r => if applies_replay ty then Some (advance_sequence r s) else Some r
  | None => None
  end.

Definition rp_dup (rp : option replay) (ty s : N) : bool :=
  match rp with
  | Some r => applies_replay ty && already_received r s
  | None => false
  end.

(* every structural test that precedes the cipher *)
Definition header_ok (prefix : N) (rest : list N) : Prop :=
  2 + NC_MAC_BYTES <= len (prefix :: rest) /\ 1 <= prefix mod 16 <= 6 /\ prefix / 16 <= 8 /\
  prefix / 16 <= len rest /\ NC_MAC_BYTES <= len (dropN (prefix / 16) rest).

Lemma header_ok_dec prefix rest : header_ok prefix rest \/ ~ header_ok prefix rest.
Proof. unfold header_ok. lia. Qed.

Lemma decode_short buf protocol key rp :
  len buf < 2 + NC_MAC_BYTES -> decode buf protocol key rp = (rp, Err EPacketTooSmall).
Proof. intro H. unfold decode. apply N.ltb_lt in H. rewrite H. reflexivity. Qed.

Lemma decode_sealed_eq : forall prefix rest protocol key rp,
  header_ok prefix rest ->
  decode (prefix :: rest) protocol (Some key) rp =
  let ty := prefix mod 16 in
  let s := le_val (takeN (prefix / 16) rest) in
  if rp_dup rp ty s then (rp, Err EDuplicatedSequence) else
  match aead_open key (nonce_of s) (packet_aad prefix protocol) (dropN (prefix / 16) rest) with
  | None => (rp, Err ECryptoError)
  | Some plain => (rp_after rp ty s, do p <- read_packet ty plain; Ok (s, p))
  end.
Proof.
  intros prefix rest protocol key rp (H1 & H2 & H3 & H4 & H5).
  unfold decode.
  assert (E1 : (len (prefix :: rest) <? 2 + NC_MAC_BYTES) = false) by lia. rewrite E1.
  assert (E2 : (6 <? prefix mod 16) = false) by lia. rewrite E2.
  assert (E3 : (prefix mod 16 =? 0) = false) by lia. rewrite E3.
  assert (E4 : (8 <? prefix / 16) = false) by lia. rewrite E4.
  assert (E5 : (len rest <? prefix / 16) = false) by lia. rewrite E5.
  cbv zeta.
  assert (E6 : (len (dropN (prefix / 16) rest) <? NC_MAC_BYTES) = false) by lia. rewrite E6.
  reflexivity.
Qed.

(* what the cipher makes of a datagram under key: every structural test passes and the tag verifies *)
Definition opens_to (key : list N) (proto : N) (buf plain : list N) : Prop :=
  match buf with
  | [] => False
  | prefix :: rest =>
      header_ok prefix rest /\
      aead_open key (nonce_of (dgram_seq buf)) (packet_aad prefix proto) (dropN (prefix / 16) rest) = Some plain
  end.

(* what decode makes of a connection request (type 0): key and window play no part *)
Definition request_result (buf : list N) : nres (N * npacket) :=
  if len buf <? 2 + NC_MAC_BYTES then Err EPacketTooSmall else do p <- read_packet 0 (tl buf); Ok (0, p).

Lemma decode_request buf proto key rp : dgram_type buf = 0 -> decode buf proto key rp = (rp, request_result buf).
Proof.
  intros Hty. unfold decode, request_result. destruct (len buf <? 2 + NC_MAC_BYTES) eqn:E; [reflexivity|].
  destruct buf as [|prefix rest]; [discriminate E|]. cbn [dgram_type] in Hty. rewrite Hty. reflexivity.
Qed.

Lemma decode_early prefix rest proto key rp :
  prefix mod 16 <> 0 -> (forall k, key = Some k -> ~ header_ok prefix rest) ->
  exists e, decode (prefix :: rest) proto key rp = (rp, Err e).
Proof.
  intros Hty Hbad. unfold decode.
  destruct (len (prefix :: rest) <? 2 + NC_MAC_BYTES) eqn:E1; [eauto|].
  destruct (6 <? prefix mod 16) eqn:E2; [eauto|].
  destruct (prefix mod 16 =? 0) eqn:E3; [lia|].
  destruct key as [k|]; [|eauto]. cbv zeta.
  destruct (8 <? prefix / 16) eqn:E4; [eauto|].
  destruct (len rest <? prefix / 16) eqn:E5; [eauto|].
  destruct (len (dropN (prefix / 16) rest) <? NC_MAC_BYTES) eqn:E6; [eauto|].
  destruct (Hbad k eq_refl). unfold header_ok. lia.
Qed.

(* everything decode can do: a request is read whatever key and window; a sealed datagram is refused
   and nothing moves unless it opens under the key and the window lets its sequence number pass; then
   the window takes the number, and only then is the plaintext parsed *)
Inductive decode_view (buf : list N) (proto : N) (key : option (list N)) (rp : option replay)
  : option replay * nres (N * npacket) -> Prop :=
| DV_request : dgram_type buf = 0 -> decode_view buf proto key rp (rp, request_result buf)
| DV_refused e : dgram_type buf <> 0 ->
    (forall k plain, key = Some k -> opens_to k proto buf plain ->
       rp_dup rp (dgram_type buf) (dgram_seq buf) = true) ->
    decode_view buf proto key rp (rp, Err e)
| DV_opened k plain : key = Some k -> opens_to k proto buf plain ->
    rp_dup rp (dgram_type buf) (dgram_seq buf) = false ->
    decode_view buf proto key rp
      (rp_after rp (dgram_type buf) (dgram_seq buf),
       do p <- read_packet (dgram_type buf) plain; Ok (dgram_seq buf, p)).

Lemma decode_spec buf proto key rp : decode_view buf proto key rp (decode buf proto key rp).
Proof.
  destruct (N.eq_dec (dgram_type buf) 0) as [Hty|Hty].
  { rewrite decode_request by exact Hty. constructor. exact Hty. }
  destruct buf as [|prefix rest]; [destruct Hty; reflexivity|].
  destruct key as [k|].
  2:{ destruct (decode_early prefix rest proto None rp Hty) as [e ->]; [discriminate|].
      apply DV_refused; [exact Hty | discriminate]. }
  destruct (header_ok_dec prefix rest) as [Hh|Hh].
  2:{ destruct (decode_early prefix rest proto (Some k) rp Hty) as [e ->]; [intros ? _; exact Hh|].
      apply DV_refused; [exact Hty|]. intros k' plain _ [Hh' _]. contradiction. }
  rewrite decode_sealed_eq by exact Hh. cbv zeta.
  change (prefix mod 16) with (dgram_type (prefix :: rest)) in *.
  change (le_val (takeN (prefix / 16) rest)) with (dgram_seq (prefix :: rest)).
  destruct (rp_dup rp _ _) eqn:Ed; [apply DV_refused; [exact Hty | intros; exact Ed]|].
  destruct (aead_open k _ _ _) as [plain|] eqn:Eo.
  - apply (DV_opened _ _ _ _ k plain eq_refl); [split; assumption | exact Ed].
  - apply DV_refused; [exact Hty|]. intros k' plain K [_ Eo']. injection K as <-. congruence.
Qed.

Lemma decode_opens buf proto k rp plain : opens_to k proto buf plain ->
  decode buf proto (Some k) rp =
  if rp_dup rp (dgram_type buf) (dgram_seq buf) then (rp, Err EDuplicatedSequence)
  else (rp_after rp (dgram_type buf) (dgram_seq buf),
        do p <- read_packet (dgram_type buf) plain; Ok (dgram_seq buf, p)).
Proof.
  destruct buf as [|prefix rest]; [intros []|]. intros [Hh Eo].
  rewrite decode_sealed_eq by exact Hh. cbv zeta. cbn [dgram_type dgram_seq] in *. rewrite Eo. reflexivity.
Qed.

Lemma opens_to_type k proto buf plain : opens_to k proto buf plain -> dgram_type buf <> 0.
Proof. destruct buf as [|prefix rest]; [intros []|]. intros [(_ & H & _) _]. cbn [dgram_type]. lia. Qed.

Lemma opens_to_form k proto buf plain : opens_to k proto buf plain ->
  exists prefix seqbytes,
    buf = prefix :: seqbytes ++ aead_seal k (nonce_of (dgram_seq buf)) (packet_aad prefix proto) plain /\
    len seqbytes = prefix / 16 /\ prefix / 16 <= 8 /\ le_val seqbytes = dgram_seq buf /\
    prefix mod 16 = dgram_type buf.
Proof.
  destruct buf as [|prefix rest]; [intros []|]. intros [(_ & _ & H3 & H4 & _) Eo].
  apply aead_open_iff in Eo. exists prefix, (takeN (prefix / 16) rest).
  rewrite <- Eo, takeN_dropN. split; [reflexivity|]. split; [apply len_takeN_le; exact H4|].
  cbn [dgram_type dgram_seq]. repeat split; auto.
Qed.

(* the tag of the datagram verifies under key, for the nonce and the associated
   data that decode derives from the datagram's own header and the protocol id *)
Definition dgram_auth (key : list N) (protocol : N) (buf : list N) : Prop :=
  match buf with
  | [] => False
  | prefix :: rest =>
      header_ok prefix rest /\
      aead_open key (nonce_of (dgram_seq buf)) (packet_aad prefix protocol) (dropN (prefix / 16) rest) <> None
  end.

Lemma dgram_auth_iff key proto buf : dgram_auth key proto buf <-> exists plain, opens_to key proto buf plain.
Proof.
  destruct buf as [|prefix rest]; cbn [dgram_auth opens_to]; [split; [intros [] | intros [_ []]]|].
  destruct (aead_open key _ _ _) as [plain|]; split.
  - intros [Hh _]. eauto.
  - intros [_ [Hh _]]. split; [exact Hh | discriminate].
  - intros [_ H]. contradiction.
  - intros [plain [_ H]]. discriminate.
Qed.

(* tag_verifies (Spec/NetSpec.v) is dgram_auth with header_ok written out *)
Lemma tag_verifies_iff key proto buf : tag_verifies key proto buf <-> exists plain, opens_to key proto buf plain.
Proof. exact (dgram_auth_iff key proto buf). Qed.

Lemma request_result_cases buf :
  (exists e, request_result buf = Err e) \/
  exists v pr ex xn data, request_result buf = Ok (0, PRequest v pr ex xn data).
Proof.
  unfold request_result. destruct (_ <? _); [left; eauto|]. cbn [read_packet].
  destruct (_ <? _); cbn [bind]; [left; eauto | right; eauto 7].
Qed.

Theorem decode_no_panic : forall buf protocol key rp, is_panic (snd (decode buf protocol key rp)) = false.
Proof.
  intros buf protocol key rp.
  destruct (decode_spec buf protocol key rp) as [_|e _ _|k plain _ _ _]; cbn [snd]; [|reflexivity|].
  - unfold request_result. destruct (_ <? _); [reflexivity|].
    apply bind_no_panic; [apply read_packet_no_panic | reflexivity].
  - apply bind_no_panic; [apply read_packet_no_panic | reflexivity].
Qed.

Theorem decode_keeps_replay_unless_opened : forall buf protocol key rp,
  fst (decode buf protocol key rp) <> rp ->
  exists k prefix seqbytes body,
    key = Some k /\ buf = prefix :: seqbytes ++ body /\ len seqbytes = prefix / 16 /\
    applies_replay (prefix mod 16) = true /\
    aead_open k (nonce_of (le_val seqbytes)) (packet_aad prefix protocol) body <> None.
Proof.
  intros buf protocol key rp.
  destruct (decode_spec buf protocol key rp) as [_|e _ _|k plain K Ho _]; cbn [fst]; try contradiction.
  intros H. destruct (opens_to_form _ _ _ _ Ho) as (prefix & sb & Hb & Hl & _ & Hv & Hm).
  exists k, prefix, sb, (aead_seal k (nonce_of (dgram_seq buf)) (packet_aad prefix protocol) plain).
  split; [exact K|]. split; [exact Hb|]. split; [exact Hl|]. rewrite Hm, Hv. split.
  - unfold rp_after in H. destruct rp as [r|]; [|contradiction].
    destruct (applies_replay (dgram_type buf)); [reflexivity|contradiction].
  - rewrite aead_open_seal. discriminate.
Qed.

Theorem decode_unopened_keeps_replay : forall buf protocol key rp,
  (forall k, key = Some k -> ~ dgram_auth k protocol buf) -> dgram_type buf <> 0 ->
  fst (decode buf protocol key rp) = rp /\ exists e, snd (decode buf protocol key rp) = Err e.
Proof.
  intros buf protocol key rp Hn Hty.
  destruct (decode_spec buf protocol key rp) as [E|e _ _|k plain K Ho _];
    [contradiction | split; [reflexivity | eexists; reflexivity] |].
  destruct (Hn k K). apply dgram_auth_iff. eauto.
Qed.

(* a replay protected datagram whose sequence the window has seen is refused
   before the cipher is consulted *)
Theorem decode_duplicate : forall prefix rest protocol key r,
  header_ok prefix rest -> applies_replay (prefix mod 16) = true ->
  already_received r (dgram_seq (prefix :: rest)) = true ->
  decode (prefix :: rest) protocol (Some key) (Some r) = (Some r, Err EDuplicatedSequence).
Proof.
  intros prefix rest protocol key r Hh Ha Hd.
  rewrite decode_sealed_eq by exact Hh. cbv zeta. cbn [rp_dup dgram_seq] in *.
  rewrite Ha, Hd. reflexivity.
Qed.

Lemma decode_ok_sealed buf proto key rp s p :
  snd (decode buf proto key rp) = Ok (s, p) -> dgram_type buf <> 0 ->
  exists k plain, key = Some k /\ opens_to k proto buf plain /\ s = dgram_seq buf /\
    read_packet (dgram_type buf) plain = Ok p /\ packet_id p = dgram_type buf /\
    rp_dup rp (dgram_type buf) s = false /\ fst (decode buf proto key rp) = rp_after rp (dgram_type buf) s.
Proof.
  intros H Hty. revert H.
  destruct (decode_spec buf proto key rp) as [E|e _ _|k plain K Ho Hd]; cbn [snd fst];
    [contradiction | discriminate |].
  intros H. apply bind_ok in H. destruct H as (p' & Er & H). injection H as <- <-.
  exists k, plain. pose proof (read_packet_id _ _ _ Er). auto 8.
Qed.

Lemma decode_ok_request buf proto key rp s p :
  snd (decode buf proto key rp) = Ok (s, p) -> dgram_type buf = 0 ->
  s = 0 /\ fst (decode buf proto key rp) = rp /\ read_packet 0 (tl buf) = Ok p /\
  2 + NC_MAC_BYTES <= len buf /\ exists v pr ex xn data, p = PRequest v pr ex xn data.
Proof.
  intros H Hty. rewrite decode_request in H |- * by exact Hty. cbn [snd fst] in *.
  unfold request_result in H. destruct (_ <? _) eqn:E; [discriminate|].
  apply bind_ok in H. destruct H as (p' & Er & H). injection H as <- <-.
  split; [reflexivity|]. split; [reflexivity|]. split; [exact Er|]. split; [lia|].
  apply packet_id_request, (read_packet_id _ _ _ Er).
Qed.

Lemma decode_ok_type buf proto key rp s p :
  snd (decode buf proto key rp) = Ok (s, p) -> dgram_type buf = packet_id p.
Proof.
  intros H. destruct (N.eq_dec (dgram_type buf) 0) as [E|E].
  - destruct (decode_ok_request _ _ _ _ _ _ H E) as (_ & _ & Er & _).
    rewrite E. symmetry. apply (read_packet_id _ _ _ Er).
  - destruct (decode_ok_sealed _ _ _ _ _ _ H E) as (_ & _ & _ & _ & _ & _ & Hid & _). symmetry. exact Hid.
Qed.

Lemma decode_ok_no_key buf proto rp q p :
  snd (decode buf proto None rp) = Ok (q, p) ->
  dgram_type buf = 0 /\ q = 0 /\ exists v pr ex xn data, p = PRequest v pr ex xn data.
Proof.
  intros H. destruct (N.eq_dec (dgram_type buf) 0) as [E|E].
  - destruct (decode_ok_request _ _ _ _ _ _ H E) as (-> & _ & _ & _ & Hp). auto.
  - destruct (decode_unopened_keeps_replay buf proto None rp) as [_ [e He]]; [discriminate | exact E | congruence].
Qed.

Lemma decode_request_nokey buf proto key rp q p :
  snd (decode buf proto key rp) = Ok (q, p) -> packet_id p = 0 -> snd (decode buf proto None None) = Ok (0, p).
Proof.
  intros H Hp. assert (E : dgram_type buf = 0) by (rewrite (decode_ok_type _ _ _ _ _ _ H); exact Hp).
  destruct (decode_ok_request _ _ _ _ _ _ H E) as (-> & _). rewrite decode_request in H |- * by exact E. exact H.
Qed.

Lemma opens_sealed_opens key proto buf :
  opens_sealed key proto buf <->
  exists plain p, opens_to key proto buf plain /\ read_packet (dgram_type buf) plain = Ok p.
Proof.
  split.
  - intros [Hty (s & p & H)]. destruct (decode_ok_sealed _ _ _ _ _ _ H Hty) as (k & plain & K & Ho & _ & Er & _).
    injection K as <-. eauto.
  - intros (plain & p & Ho & Er). split; [exact (opens_to_type _ _ _ _ Ho)|].
    exists (dgram_seq buf), p. rewrite (decode_opens _ _ _ None _ Ho). cbn [rp_dup snd]. rewrite Er. reflexivity.
Qed.

Lemma opens_sealed_tag key proto buf : opens_sealed key proto buf -> tag_verifies key proto buf.
Proof.
  intros H. apply opens_sealed_opens in H. destruct H as (plain & _ & Ho & _).
  apply tag_verifies_iff. eauto.
Qed.

Theorem decode_unopened_err : forall buf protocol key rp,
  (forall k, key = Some k -> ~ opens_sealed k protocol buf) -> dgram_type buf <> 0 ->
  exists e, snd (decode buf protocol key rp) = Err e.
Proof.
  intros buf protocol key rp Hn Hty.
  destruct (decode_spec buf protocol key rp) as [E|e _ _|k plain K Ho _]; cbn [snd];
    [contradiction | eexists; reflexivity |].
  (* it opens: the plaintext does not parse, or the datagram would be opens_sealed *)
  pose proof (read_packet_no_panic (dgram_type buf) plain) as NP.
  destruct (read_packet (dgram_type buf) plain) as [p|e|site] eqn:Er; [|eexists; reflexivity | discriminate NP].
  destruct (Hn k K). apply opens_sealed_opens. eauto.
Qed.

(* "does not open" is not enough to keep the window: the window is advanced as soon as
   the tag verifies, before the plaintext is parsed.  A keep-alive with an empty
   plaintext, sealed with the session key, is refused with an i/o error and still
   consumes its sequence number. *)
Example decode_advances_before_parsing : forall key protocol,
  let buf := [20; 5] ++ aead_seal key (nonce_of 5) (packet_aad 20 protocol) [] in
  decode buf protocol (Some key) (Some replay_new) =
    (Some (advance_sequence replay_new 5), Err EIoError) /\
  ~ opens_sealed key protocol buf.
Proof.
  intros key protocol buf.
  assert (Ho : opens_to key protocol buf []).
  { unfold buf. cbn [app opens_to]. change (dgram_seq (20 :: 5 :: ?l)) with 5. unfold header_ok.
    change (20 mod 16) with 4. change (20 / 16) with 1. change (dropN 1 (5 :: ?l)) with l.
    split; [|apply aead_open_seal]. rewrite !len_cons, aead_seal_len, len_nil, mac_bytes_val. lia. }
  split.
  - rewrite (decode_opens _ _ _ _ _ Ho). reflexivity.
  - intros [_ (s & p & H)]. rewrite (decode_opens _ _ _ _ _ Ho) in H. discriminate H.
Qed.

Theorem decode_sound : forall buf protocol key rp s p,
  snd (decode buf protocol (Some key) rp) = Ok (s, p) -> dgram_type buf <> 0 ->
  exists prefix seqbytes plain,
    buf = prefix :: seqbytes ++ aead_seal key (nonce_of s) (packet_aad prefix protocol) plain /\
    prefix mod 16 = packet_id p /\ len seqbytes = prefix / 16 /\ prefix / 16 <= 8 /\
    le_val seqbytes = s /\ read_packet (prefix mod 16) plain = Ok p /\
    rp_dup rp (prefix mod 16) s = false /\
    fst (decode buf protocol (Some key) rp) = rp_after rp (prefix mod 16) s.
Proof.
  intros buf protocol key rp s p H Hty.
  destruct (decode_ok_sealed _ _ _ _ _ _ H Hty) as (k & plain & K & Ho & -> & Er & Hid & Hd & Hf).
  injection K as <-. destruct (opens_to_form _ _ _ _ Ho) as (prefix & sb & Hb & Hl & H8 & Hv & Hm).
  exists prefix, sb, plain. rewrite Hm. split; [exact Hb|]. auto 8.
Qed.

(* the counterpart of decode_sound for connection requests (type 0): they carry no tag at all *)
Theorem decode_request_form : forall buf protocol key rp s p,
  snd (decode buf protocol key rp) = Ok (s, p) -> dgram_type buf = 0 ->
  s = 0 /\ packet_id p = 0 /\ fst (decode buf protocol key rp) = rp /\
  exists prefix rest, buf = prefix :: rest /\ read_packet 0 rest = Ok p.
Proof.
  intros buf protocol key rp s p H Hty.
  destruct (decode_ok_request _ _ _ _ _ _ H Hty) as (-> & Hf & Er & Hl & _).
  split; [reflexivity|]. split; [apply (read_packet_id _ _ _ Er)|]. split; [exact Hf|].
  destruct buf as [|prefix rest]; [rewrite len_nil in Hl; lia|]. exists prefix, rest. auto.
Qed.

Lemma read_packet_body : forall p, npacket_wf p -> read_packet (packet_id p) (packet_body p) = Ok p.
Proof.
  intros p W. destruct p as [v protocol expire xn data| |ts td|ts td|ci mc|b|];
    cbn [packet_id packet_body npacket_wf] in *; try reflexivity; unfold read_packet.
  2, 3: destruct W as (Ht & Hd); rewrite len_app, len_le64, Hd, N.ltb_irrefl; autorewrite with fields;
    rewrite le_val_le64 by assumption; reflexivity.
  - destruct W as (Hv & Hp & He & Hx & Hd).
    rewrite !len_app, !len_le64, Hv, Hx, Hd, N.ltb_irrefl. autorewrite with fields.
    rewrite !le_val_le64 by assumption. reflexivity.
  - destruct W as (Hc & Hm).
    rewrite len_app, !len_le32. change (4 + 4 <? 8) with false. autorewrite with fields.
    rewrite !le_val_le32 by assumption. reflexivity.
Qed.

Lemma packet_body_len : forall p, npacket_wf p ->
  match p with
  | PRequest _ _ _ _ _ => len (packet_body p) = 13 + 8 + 8 + NC_XNONCE_BYTES + NC_PRIVATE_BYTES
  | PChallenge _ _ | PResponse _ _ => len (packet_body p) = 8 + NC_CHALLENGE_BYTES
  | PKeepAlive _ _ => len (packet_body p) = 8
  | PPayload b => len (packet_body p) = len b
  | PDenied | PDisconnect => len (packet_body p) = 0
  end.
Proof.
  intros p W. destruct p; cbn [packet_body npacket_wf] in *; try reflexivity.
  2, 3: destruct W as (_ & Hd); rewrite len_app, len_le64, Hd; reflexivity.
  destruct W as (Hv & _ & _ & Hx & Hd). rewrite !len_app, !len_le64, Hv, Hx, Hd. lia.
Qed.

Lemma decode_request_body p proto key rp : npacket_wf p -> packet_id p = 0 ->
  decode (0 :: packet_body p) proto key rp = (rp, Ok (0, p)).
Proof.
  intros W Hid. rewrite decode_request by reflexivity. unfold request_result. cbn [tl].
  pose proof (read_packet_body p W) as R. rewrite Hid in R. rewrite R.
  pose proof (packet_body_len p W) as L. destruct p; try discriminate Hid.
  rewrite len_cons, L, mac_bytes_val, xnonce_bytes_val, private_bytes_val. reflexivity.
Qed.

Lemma encode_request_eq cap p protocol crypto : packet_id p = 0 ->
  encode cap p protocol crypto =
  if cap <? len (0 :: packet_body p) then Err EIoError else Ok (0 :: packet_body p).
Proof. destruct p; cbn [packet_id]; try discriminate. reflexivity. Qed.

Lemma encode_sealed_eq cap p protocol s key : packet_id p <> 0 ->
  encode cap p protocol (Some (s, key)) =
  let prefix := encode_prefix (packet_id p) s in
  let head := prefix :: le_bytes (N.to_nat (sequence_bytes_required s)) s in
  if cap <? len head + len (packet_body p) + NC_MAC_BYTES then Err EIoError
  else Ok (head ++ aead_seal key (nonce_of s) (packet_aad prefix protocol) (packet_body p)).
Proof. intros Hid. destruct p; cbn [packet_id] in Hid; try congruence; reflexivity. Qed.

Lemma encode_sealed_form : forall cap p protocol s key out,
  packet_id p <> 0 -> encode cap p protocol (Some (s, key)) = Ok out ->
  let prefix := encode_prefix (packet_id p) s in
  out = prefix :: le_bytes (N.to_nat (sequence_bytes_required s)) s
               ++ aead_seal key (nonce_of s) (packet_aad prefix protocol) (packet_body p).
Proof.
  intros cap p protocol s key out Hid H. rewrite encode_sealed_eq in H by exact Hid. cbv zeta in *.
  destruct (cap <? _); [discriminate|]. injection H as <-. reflexivity.
Qed.

Lemma encode_request_form : forall cap p protocol crypto out,
  packet_id p = 0 -> encode cap p protocol crypto = Ok out -> out = 0 :: packet_body p.
Proof.
  intros cap p protocol crypto out Hid H. rewrite encode_request_eq in H by exact Hid.
  destruct (cap <? _); [discriminate|]. injection H as <-. reflexivity.
Qed.

Theorem npacket_roundtrip_full : forall p s key protocol cap out rp,
  npacket_wf p -> s < U64 ->
  encode cap p protocol (Some (s, key)) = Ok out ->
  2 + NC_MAC_BYTES <= len out ->
  rp_dup rp (packet_id p) s = false ->
  decode out protocol (Some key) rp =
    (rp_after rp (packet_id p) (if packet_id p =? 0 then 0 else s),
     Ok ((if packet_id p =? 0 then 0 else s), p)).
Proof.
  intros p s key protocol cap out rp W Hs He Hlen Hdup.
  destruct (N.eq_dec (packet_id p) 0) as [Hid|Hid].
  - pose proof (encode_request_form _ _ _ _ _ Hid He) as ->.
    rewrite (decode_request_body p _ _ _ W Hid), Hid. destruct rp as [r|]; reflexivity.
  - pose proof (encode_sealed_form _ _ _ _ _ _ Hid He) as E. cbv zeta in E.
    assert (Hnz : (packet_id p =? 0) = false) by lia. rewrite Hnz.
    pose proof (packet_id_le p) as Hle.
    assert (Hlt : packet_id p < 16) by lia.
    destruct (encode_prefix_split (packet_id p) s Hlt) as [Em Ed].
    destruct (prefix_roundtrip s Hs) as [Er Eb].
    set (prefix := encode_prefix (packet_id p) s) in *.
    set (sb := le_bytes (N.to_nat (sequence_bytes_required s)) s) in *.
    set (body := aead_seal key (nonce_of s) (packet_aad prefix protocol) (packet_body p)) in *.
    assert (Lsb : len sb = prefix / 16).
    { unfold sb. rewrite len_le_bytes, N2Nat.id, Ed. reflexivity. }
    subst out.
    assert (Hh : header_ok prefix (sb ++ body)).
    { unfold header_ok. rewrite (dropN_app_exact _ sb body Lsb), len_app, Em, Ed.
      pose proof (aead_seal_len key (nonce_of s) (packet_aad prefix protocol) (packet_body p)) as Lb.
      fold body in Lb. rewrite mac_bytes_val in *. lia. }
    rewrite decode_sealed_eq by exact Hh. cbv zeta.
    rewrite (takeN_app_exact _ sb body Lsb), (dropN_app_exact _ sb body Lsb), Em.
    rewrite Er, Hdup.
    unfold body. rewrite aead_open_seal, (read_packet_body p W). reflexivity.
Qed.

Corollary npacket_roundtrip : forall p s key protocol cap out rp,
  npacket_wf p -> s < U64 ->
  encode cap p protocol (Some (s, key)) = Ok out ->
  2 + NC_MAC_BYTES <= len out ->
  (forall r, rp = Some r -> applies_replay (packet_id p) = true -> already_received r s = false) ->
  snd (decode out protocol (Some key) rp) = Ok ((if packet_id p =? 0 then 0 else s), p).
Proof.
  intros p s key protocol cap out rp W Hs He Hlen Hdup.
  rewrite (npacket_roundtrip_full p s key protocol cap out rp W Hs He Hlen); [reflexivity|].
  destruct rp as [r|]; [|reflexivity]. cbn [rp_dup].
  destruct (applies_replay (packet_id p)) eqn:Ea; [|reflexivity].
  rewrite (Hdup r eq_refl eq_refl). reflexivity.
Qed.

Theorem encode_length : forall cap p protocol s key out,
  encode cap p protocol (Some (s, key)) = Ok out ->
  len out = (if packet_id p =? 0 then 1 + len (packet_body p)
             else 1 + sequence_bytes_required s + len (packet_body p) + NC_MAC_BYTES).
Proof.
  intros cap p protocol s key out H.
  destruct (N.eq_dec (packet_id p) 0) as [Hid|Hid].
  - rewrite (encode_request_form _ _ _ _ _ Hid H), Hid, len_cons. reflexivity.
  - rewrite (encode_sealed_form _ _ _ _ _ _ Hid H).
    assert (Hnz : (packet_id p =? 0) = false) by lia. rewrite Hnz.
    rewrite len_cons, len_app, len_le_bytes, N2Nat.id, aead_seal_len, mac_bytes_val. lia.
Qed.

Lemma encode_room : forall cap p protocol s key,
  (if packet_id p =? 0 then 1 + len (packet_body p)
   else 1 + sequence_bytes_required s + len (packet_body p) + NC_MAC_BYTES) <= cap ->
  exists out, encode cap p protocol (Some (s, key)) = Ok out.
Proof.
  intros cap p protocol s key H. destruct (N.eq_dec (packet_id p) 0) as [Hid|Hid].
  - rewrite (encode_request_eq _ _ _ _ Hid). rewrite Hid in H. change (0 =? 0) with true in H. cbv iota in H.
    rewrite len_cons. destruct (cap <? 1 + len (packet_body p)) eqn:E; [lia | eauto].
  - rewrite (encode_sealed_eq _ _ _ _ _ Hid). cbv zeta.
    assert (Hnz : (packet_id p =? 0) = false) by lia. rewrite Hnz in H.
    rewrite len_cons, len_le_bytes, N2Nat.id. destruct (cap <? _) eqn:E; [lia | eauto].
Qed.

Theorem netcode_datagrams_fit : forall p protocol s key,
  npacket_wf p -> (forall b, p = PPayload b -> len b <= NC_MAX_PAYLOAD_BYTES) ->
  exists out, encode NC_MAX_PACKET_BYTES p protocol (Some (s, key)) = Ok out /\
              len out <= NC_MAX_PACKET_BYTES.
Proof.
  intros p protocol s key W Hpay.
  assert (B : (if packet_id p =? 0 then 1 + len (packet_body p)
               else 1 + sequence_bytes_required s + len (packet_body p) + NC_MAC_BYTES)
              <= NC_MAX_PACKET_BYTES).
  { pose proof (packet_body_len p W) as L.
    pose proof (sequence_bytes_required_le s) as S8.
    rewrite max_packet_bytes_val, mac_bytes_val.
    rewrite ?xnonce_bytes_val, ?private_bytes_val, ?challenge_bytes_val in L.
    destruct p; cbn [packet_id];
      match goal with |- context [?a =? 0] => change (a =? 0) with false || change (a =? 0) with true end;
      cbv iota; try lia.
    specialize (Hpay _ eq_refl). rewrite max_payload_bytes_val in Hpay. lia. }
  destruct (encode_room _ p protocol s key B) as [out E].
  exists out. split; [exact E|]. rewrite (encode_length _ _ _ _ _ _ E). exact B.
Qed.

(* the length hypothesis of the round trip cannot be dropped: a packet without body (Disconnect,
   ConnectionDenied) sealed with sequence number 0 is 1 + 0 + 0 + 16 = 17 bytes, and decode refuses
   everything below 18 *)
Lemma empty_body_seq0_refused : forall p key protocol rp, packet_id p <> 0 -> packet_body p = [] ->
  exists out, encode NC_MAX_PACKET_BYTES p protocol (Some (0, key)) = Ok out /\
              len out = 17 /\
              decode out protocol (Some key) rp = (rp, Err EPacketTooSmall).
Proof.
  intros p key protocol rp Hid Hb.
  assert (Hnz : (packet_id p =? 0) = false) by lia.
  destruct (encode_room NC_MAX_PACKET_BYTES p protocol 0 key) as [out E].
  { rewrite Hnz, Hb. discriminate. }
  pose proof (encode_length _ _ _ _ _ _ E) as L. rewrite Hnz, Hb in L.
  exists out. split; [exact E|]. split; [exact L|].
  apply decode_short. rewrite L. reflexivity.
Qed.

Example tiny_packet_refuted : forall key protocol rp,
  exists out, encode NC_MAX_PACKET_BYTES PDisconnect protocol (Some (0, key)) = Ok out /\
              len out = 17 /\
              decode out protocol (Some key) rp = (rp, Err EPacketTooSmall).
Proof. intros. apply empty_body_seq0_refused; [discriminate | reflexivity]. Qed.

Example tiny_denied_refuted : forall key protocol rp,
  exists out, encode NC_MAX_PACKET_BYTES PDenied protocol (Some (0, key)) = Ok out /\
              len out = 17 /\
              decode out protocol (Some key) rp = (rp, Err EPacketTooSmall).
Proof. intros. apply empty_body_seq0_refused; [discriminate | reflexivity]. Qed.

Lemma len_challenge_plain id user : len user <= NC_USER_DATA_BYTES ->
  len (challenge_plain id user) = NC_CHALLENGE_BYTES - NC_MAC_BYTES.
Proof.
  intros H. unfold challenge_plain. cbv zeta. rewrite !len_app, len_zeros, len_le64.
  rewrite user_data_bytes_val in H. rewrite challenge_bytes_val, mac_bytes_val. lia.
Qed.

Theorem challenge_roundtrip : forall id user cseq ckey td,
  len user = NC_USER_DATA_BYTES -> id < U64 ->
  generate_challenge id user cseq ckey = PChallenge cseq td ->
  challenge_decode td cseq ckey = Ok (id, user) /\ len td = NC_CHALLENGE_BYTES.
Proof.
  intros id user cseq ckey td Hu Hid H.
  unfold generate_challenge in H. injection H as <-.
  assert (Lp : len (challenge_plain id user) = NC_CHALLENGE_BYTES - NC_MAC_BYTES).
  { apply len_challenge_plain. rewrite Hu. reflexivity. }
  split.
  - unfold challenge_decode. rewrite aead_open_seal.
    assert (E : (len (challenge_plain id user) <? 8 + NC_USER_DATA_BYTES) = false).
    { rewrite Lp, user_data_bytes_val, challenge_bytes_val, mac_bytes_val. reflexivity. }
    rewrite E. unfold challenge_plain. cbv zeta. rewrite <- !app_assoc.
    autorewrite with fields. rewrite le_val_le64 by exact Hid. reflexivity.
  - rewrite aead_seal_len, Lp, challenge_bytes_val, mac_bytes_val. reflexivity.
Qed.

Theorem challenge_decode_sound : forall td tseq ckey id user,
  challenge_decode td tseq ckey = Ok (id, user) ->
  exists plain, td = aead_seal ckey (nonce_of tseq) [] plain /\
                8 + NC_USER_DATA_BYTES <= len plain /\
                id = le_val (takeN 8 plain) /\ user = takeN NC_USER_DATA_BYTES (dropN 8 plain).
Proof.
  intros td tseq ckey id user H. unfold challenge_decode in H.
  destruct (aead_open ckey (nonce_of tseq) [] td) as [plain|] eqn:Eo; [|discriminate].
  destruct (len plain <? 8 + NC_USER_DATA_BYTES) eqn:El; [discriminate|].
  injection H as <- <-. exists plain. apply aead_open_iff in Eo.
  split; [exact Eo|]. split; [lia|]. split; reflexivity.
Qed.

(* what decode cuts a datagram into: prefix byte, sequence bytes, sealed body *)
Definition dgram_parts (buf : list N) : option (N * list N * list N) :=
  match buf with
  | [] => None
  | prefix :: rest => Some (prefix, takeN (prefix / 16) rest, dropN (prefix / 16) rest)
  end.

Theorem dgram_parts_injective : forall b1 b2, dgram_parts b1 = dgram_parts b2 -> b1 = b2.
Proof.
  intros [|p1 r1] [|p2 r2] H; cbn [dgram_parts] in H; try discriminate; [reflexivity|].
  injection H as Hp Ht Hd. subst p2.
  rewrite <- (takeN_dropN (p1 / 16) r1), <- (takeN_dropN (p1 / 16) r2), Ht, Hd. reflexivity.
Qed.

Lemma nonce_of_inj s1 s2 : s1 < U64 -> s2 < U64 -> nonce_of s1 = nonce_of s2 -> s1 = s2.
Proof.
  intros H1 H2 E. unfold nonce_of in E. apply app_inv_head in E.
  rewrite <- (le_val_le64 s1 H1), <- (le_val_le64 s2 H2), E. reflexivity.
Qed.

Lemma packet_aad_inj p1 p2 pr1 pr2 : packet_aad p1 pr1 = packet_aad p2 pr2 -> p1 = p2.
Proof.
  unfold packet_aad. intro E. apply app_inv_head in E. apply app_inj_tail in E. apply E.
Qed.

(* two datagrams made of bytes that pass the structural tests and hand the same
   nonce, associated data and sealed body to the cipher are the same datagram *)
Theorem aead_input_injective : forall b1 b2 p1 r1 p2 r2 protocol1 protocol2,
  b1 = p1 :: r1 -> b2 = p2 :: r2 -> bytes_ok b1 -> bytes_ok b2 ->
  header_ok p1 r1 -> header_ok p2 r2 ->
  nonce_of (dgram_seq b1) = nonce_of (dgram_seq b2) ->
  packet_aad p1 protocol1 = packet_aad p2 protocol2 ->
  dropN (p1 / 16) r1 = dropN (p2 / 16) r2 ->
  b1 = b2.
Proof.
  intros b1 b2 p1 r1 p2 r2 pr1 pr2 -> -> B1 B2 H1 H2 En Ea Eb.
  apply packet_aad_inj in Ea. subst p2.
  apply dgram_parts_injective. cbn [dgram_parts]. rewrite Eb. f_equal. f_equal.
  cbn [dgram_seq] in En.
  apply bytes_ok_cons in B1. apply bytes_ok_cons in B2.
  destruct B1 as [_ B1]. destruct B2 as [_ B2].
  destruct H1 as (_ & _ & H13 & H14 & _). destruct H2 as (_ & _ & _ & H24 & _).
  assert (L1 : len (takeN (p1 / 16) r1) = p1 / 16) by (apply len_takeN_le; exact H14).
  assert (L2 : len (takeN (p1 / 16) r2) = p1 / 16) by (apply len_takeN_le; exact H24).
  assert (Bt1 : bytes_ok (takeN (p1 / 16) r1)) by (apply bytes_ok_takeN; exact B1).
  assert (Bt2 : bytes_ok (takeN (p1 / 16) r2)) by (apply bytes_ok_takeN; exact B2).
  assert (Bd : forall r, bytes_ok r -> le_val (takeN (p1 / 16) r) < U64).
  { intros r Br. pose proof (le_val_takeN_lt (p1 / 16) r Br) as Hlt.
    assert (Hm : 256 ^ (p1 / 16) <= 256 ^ 8) by (apply N.pow_le_mono_r; [discriminate | exact H13]).
    change (256 ^ 8) with U64 in Hm. lia. }
  f_equal. apply le_val_inj; try assumption.
  - unfold len in L1, L2. lia.
  - apply nonce_of_inj; [apply Bd; exact B1 | apply Bd; exact B2 | exact En].
Qed.

(* s < U64MAX: u64::MAX is the EMPTY marker of the window (ReplayP.replay_sentinel_refuted) *)
Theorem decode_replay_rejected : forall buf protocol key r s p,
  rp_wf r -> snd (decode buf protocol (Some key) (Some r)) = Ok (s, p) ->
  applies_replay (dgram_type buf) = true -> s < U64MAX ->
  exists r', fst (decode buf protocol (Some key) (Some r)) = Some r' /\ rp_wf r' /\
             decode buf protocol (Some key) (Some r') = (Some r', Err EDuplicatedSequence).
Proof.
  intros buf protocol key r s p W H Ha Hs.
  assert (Hty : dgram_type buf <> 0) by (intros E; rewrite E in Ha; discriminate).
  destruct (decode_ok_sealed _ _ _ _ _ _ H Hty) as (k & plain & K & Ho & -> & _ & _ & _ & Hf).
  injection K as <-. rewrite Hf. cbn [rp_after]. rewrite Ha.
  eexists. split; [reflexivity|]. split; [apply advance_wf; exact W|].
  rewrite (decode_opens _ _ _ _ _ Ho). cbn [rp_dup].
  rewrite Ha, advance_then_received; [reflexivity | exact W | lia].
Qed.

Definition ex_key : list N := repeatN 7 32.

Definition ex_keepalive_dgram : list N :=
  match encode NC_MAX_PACKET_BYTES (PKeepAlive 3 64) 42 (Some (300, ex_key)) with
  | Ok out => out | _ => [] end.

(* the 27 bytes, computed once; the examples below read them *)
Definition ex_keepalive_bytes : list N :=
  ltac:(evaluated (encode NC_MAX_PACKET_BYTES (PKeepAlive 3 64) 42 (Some (300, ex_key)))).

Lemma ex_keepalive_encode :
  encode NC_MAX_PACKET_BYTES (PKeepAlive 3 64) 42 (Some (300, ex_key)) = Ok ex_keepalive_bytes.
Proof. evaluates. Qed.

Lemma ex_keepalive_dgram_eq : ex_keepalive_dgram = ex_keepalive_bytes.
Proof. unfold ex_keepalive_dgram. rewrite ex_keepalive_encode. reflexivity. Qed.

Example ex_keepalive_roundtrip :
  len ex_keepalive_dgram = 27 /\
  decode ex_keepalive_dgram 42 (Some ex_key) (Some replay_new) =
    (Some (advance_sequence replay_new 300), Ok (300, PKeepAlive 3 64)).
Proof.
  rewrite ex_keepalive_dgram_eq. split; [reflexivity|].
  apply (npacket_roundtrip_full (PKeepAlive 3 64) 300 ex_key 42 _ _ (Some replay_new)
           (conj eq_refl eq_refl) eq_refl ex_keepalive_encode); [discriminate | reflexivity].
Qed.

Example ex_keepalive_replayed :
  decode ex_keepalive_dgram 42 (Some ex_key) (Some (advance_sequence replay_new 300)) =
    (Some (advance_sequence replay_new 300), Err EDuplicatedSequence).
Proof. rewrite ex_keepalive_dgram_eq. vm_compute. reflexivity. Qed.

(* another protocol id, another key, a flipped bit in the prefix, in the sequence, in the tag, a
   truncation: none of them opens, and the window does not move *)
Example ex_keepalive_tampered :
  decode ex_keepalive_dgram 43 (Some ex_key) (Some replay_new) = (Some replay_new, Err ECryptoError) /\
  decode ex_keepalive_dgram 42 (Some (repeatN 8 32)) (Some replay_new) = (Some replay_new, Err ECryptoError) /\
  decode (upd ex_keepalive_dgram 0 37) 42 (Some ex_key) (Some replay_new) = (Some replay_new, Err ECryptoError) /\
  decode (upd ex_keepalive_dgram 1 45) 42 (Some ex_key) (Some replay_new) = (Some replay_new, Err ECryptoError) /\
  decode (upd ex_keepalive_dgram 26 (nth 26 ex_keepalive_dgram 0 + 1)) 42 (Some ex_key) (Some replay_new)
    = (Some replay_new, Err ECryptoError) /\
  decode (takeN 26 ex_keepalive_dgram) 42 (Some ex_key) (Some replay_new) = (Some replay_new, Err ECryptoError).
Proof.
  rewrite ex_keepalive_dgram_eq.
  (* one evaluation per datagram; [repeat split] would go on to split the last equation, which
     evaluates it with the slow machine *)
  do 5 (split; [vm_compute; reflexivity|]). vm_compute. reflexivity.
Qed.

Example ex_disconnect_seq0 :
  match encode NC_MAX_PACKET_BYTES PDisconnect 42 (Some (0, ex_key)) with
  | Ok out => len out = 17 /\ snd (decode out 42 (Some ex_key) None) = Err EPacketTooSmall
  | _ => False end.
Proof.
  destruct (tiny_packet_refuted ex_key 42 None) as (out & -> & L & ->). split; [exact L | reflexivity].
Qed.

Example ex_disconnect_seq1 :
  match encode NC_MAX_PACKET_BYTES PDisconnect 42 (Some (1, ex_key)) with
  | Ok out => len out = 18 /\ snd (decode out 42 (Some ex_key) None) = Ok (1, PDisconnect)
  | _ => False end.
Proof.
  destruct (encode_room NC_MAX_PACKET_BYTES PDisconnect 42 1 ex_key) as [out E]; [discriminate|].
  rewrite E. pose proof (encode_length _ _ _ _ _ _ E) as L. change (len out = 18) in L.
  split; [exact L|].
  apply (npacket_roundtrip PDisconnect 1 ex_key 42 _ out None I eq_refl E); [rewrite L|]; discriminate.
Qed.

Print Assumptions decode_no_panic.
Print Assumptions read_packet_no_panic.
Print Assumptions encode_no_panic.
Print Assumptions challenge_decode_no_panic.
Print Assumptions decode_keeps_replay_unless_opened.
Print Assumptions decode_unopened_keeps_replay.
Print Assumptions decode_unopened_err.
Print Assumptions decode_duplicate.
Print Assumptions decode_advances_before_parsing.
Print Assumptions decode_sound.
Print Assumptions decode_request_form.
Print Assumptions dgram_parts_injective.
Print Assumptions aead_input_injective.
Print Assumptions prefix_roundtrip.
Print Assumptions npacket_roundtrip_full.
Print Assumptions npacket_roundtrip.
Print Assumptions tiny_packet_refuted.
Print Assumptions tiny_denied_refuted.
Print Assumptions challenge_roundtrip.
Print Assumptions challenge_decode_sound.
Print Assumptions encode_length.
Print Assumptions netcode_datagrams_fit.
Print Assumptions decode_replay_rejected.
Print Assumptions ex_keepalive_roundtrip.

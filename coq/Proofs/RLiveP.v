(* RLiveP.v - liveness of the reliable channels (Spec/RLiveSpec.v): once the network delivers
   packets again and neither side has been disconnected, every message submitted on a reliable
   channel is obtained within a bounded number of ticks.
   L1 good_tick_delivers_budget_suffices: one good tick, if the budget covers everything waiting;
   L2 good_ticks_deliver: ticks_needed good ticks, with a budget of at least one slice per tick;
   L3 eventually_delivered: L2 read off the log of what A's application submitted (each message once on
      an unordered channel); in all three the history before the ticks is ANY run (loss, duplication,
      reordering, any calls);
   E  good_ticks_example: a concrete run; progress_without_slice_budget_refuted: below one slice
      of budget a sliced message is never transmitted, however good the network. *)
From RenetV Require Import Base Consts Varint Packet Channels Conn Server.
From RenetV Require Import CodecSpec RecvSpec SendSpec ConnSpec ConnInvSpec RSysSpec RSysInvSpec RLiveSpec.
From RenetV Require Import SMapP ConnBaseP ConnProcP ConnFlushP ConnP RSysBaseP RSysStepP RSysInvP RSysP.
From RenetV Require Import RLiveBaseP RLiveInvP RLiveTickP.
From RenetV Require Import BaseP RunP.
From RenetV Require RecvRelP SMapSendP SendRelP.
Require Import Lia ZifyBool ZifyN ZifyNat Permutation.
Open Scope N_scope.
Local Opaque SLICE_SIZE MAX_ACK_RANGES SER_BUFFER NC_MAX_PAYLOAD_BYTES DISCARD_PACKET_SECS VARINT_MAX MAX_NUM_SLICES.

Import SendRelP(st_of, static_of, pkt_ok, entry_ok, packed, part_acked).

Lemma outstanding_pending c : conn_inv c -> (conn_outstanding c = 0 <-> forall y, ~ pend c y).
Proof.
  intros Hi. rewrite <- len_pending_list. split.
  - intros H y Hy. apply (in_pending_list c y Hi) in Hy. apply len_0_nil in H. rewrite H in Hy. destruct Hy.
  - intros H. destruct (pending_list c) as [|y l] eqn:E; [reflexivity|].
    exfalso. apply (H y). apply (in_pending_list c y Hi). rewrite E. now left.
Qed.

Definition obtained_all (cfg_ab : list chan_config) (s : rsys) : Prop :=
  forall ch,
    match chan_kind cfg_ab ch with
    | Some (TReliableOrdered _) => log_get (got_b s) ch = log_get (sent_a s) ch
    | Some (TReliableUnordered _) => Permutation (log_get (got_b s) ch) (log_get (sent_a s) ch)
    | _ => True
    end.

Lemma quiescent_obtained cfg_ab cfg_ba s :
  tick_inv cfg_ab cfg_ba s -> conn_outstanding (ra s) = 0 -> drained (rb s) -> obtained_all cfg_ab s.
Proof.
  intros (Hsys & (Hlin & _) & _ & _ & Hch) Hout Hdr ch. pose proof Hsys as ([Hia _ _ _ _ _] & Dab & _).
  unfold dir_inv in Dab.
  destruct (chan_kind cfg_ab ch) as [ty|] eqn:Hk; [|exact I].
  assert (Hmain : ty <> TUnreliable ->
    exists r outs, sm_find ch (c_rr (rb s)) = Some r /\ RecvRelP.hcore (log_get (sent_a s) ch) r outs /\
      map snd outs = log_get (got_b s) ch /\
      RecvRelP.mode r = (match ty with TReliableOrdered _ => true | _ => false end) /\
      (forall id, id < len (log_get (sent_a s) ch) -> rr_seen r id = true)).
  { intros Hty. destruct (rel_channel_refined _ _ _ Hsys ch ty Hk Hty) as (r & Hr & Hre).
    destruct (rr_refines_hcore _ _ _ _ Hre) as (outs & H & G & M).
    exists r, outs. split; [exact Hr|]. split; [exact H|]. split; [exact G|]. split; [exact M|].
    assert (Hmem : sm_mem ch (c_sr (ra s)) = true)
      by (apply Hch; rewrite (chan_kind_ordf cfg_ab ch ty Hk Hty); discriminate).
    destruct (sm_mem_find _ _ Hmem) as (sa & Hsa).
    destruct (di_sender Dab ch sa Hsa) as [Hnext _].
    destruct (li_rel _ _ _ _ _ _ _ _ Hlin ch sa r Hsa Hr) as [A _].
    intros id Hid. apply A; [lia|].
    unfold kind_of. destruct (sm_find id (sr_unacked sa)) as [u|] eqn:Eu; [exfalso|reflexivity].
    destruct (inv_find_sr _ _ _ Hia Hsa) as [Hsi _].
    destruct (SendRelP.unacked_has_pending _ _ _ _ Hsi Eu) as (p & Hp).
    apply (proj1 (outstanding_pending (ra s) Hia) Hout (ch, (id, p))). cbn [pend]. eauto. }
  destruct ty as [|rt|rt]; [exact I| |].
  - destruct Hmain as (r & outs & Hr & H & G & M & Hall); [discriminate|].
    rewrite <- G. apply RecvRelP.mode_ordered in M.
    eapply RecvRelP.ordered_all_obtained; eauto.
  - destruct Hmain as (r & outs & Hr & H & G & M & Hall); [discriminate|].
    rewrite <- G. apply RecvRelP.mode_unordered in M. destruct M as (mr & rcv & Eo).
    eapply RecvRelP.unordered_all_obtained; eauto.
Qed.

Lemma parts_per_tick_pos c : SLICE_SIZE <= c_budget c -> 1 <= parts_per_tick c.
Proof. intros H. unfold parts_per_tick. pose proof SliceP.SLICE_SIZE_pos. apply N.div_le_lower_bound; lia. Qed.

Lemma good_tick_measure cfg_ab cfg_ba s dt s' :
  tick_inv cfg_ab cfg_ba s -> good_tick s dt = Ok s' -> alive s' = true -> cfg_resend_le cfg_ab dt = true ->
  tick_inv cfg_ab cfg_ba s' /\ drained (rb s') /\ sent_a s' = sent_a s /\
  unrel_queued (ra s') = false /\ c_budget (ra s') = c_budget (ra s) /\
  outstanding s' <= outstanding s /\
  (budget_suffices (ra s) = true -> outstanding s' = 0) /\
  (unrel_queued (ra s) = false -> SLICE_SIZE <= c_budget (ra s) ->
   outstanding s' = 0 \/ outstanding s' + parts_per_tick (ra s) <= outstanding s).
Proof.
  intros Hinv E Halive Hres.
  destruct (good_tick_effect cfg_ab cfg_ba s dt s' Hinv E Halive Hres)
    as (P & av & P1 & P2 & P3 & P4 & P5 & P6 & Hinv' & Hdr & Hsent & Hq & Hbud).
  pose proof (tick_inv_conn _ _ _ SA Hinv) as Hi. pose proof (tick_inv_conn _ _ _ SA Hinv') as Hi'.
  assert (Hcount : outstanding s' + len P <= outstanding s).
  { unfold outstanding. rewrite <- !len_pending_list. unfold len.
    pose proof (NoDup_incl_minus (pending_list (ra s)) (pending_list (ra s')) P
                  (NoDup_pending_list _ Hi') P1) as H.
    assert (length (pending_list (ra s')) + length P <= length (pending_list (ra s)))%nat; [|lia].
    apply H.
    - intros y Hy. apply (in_pending_list _ _ Hi). auto.
    - intros y Hy. apply (in_pending_list _ _ Hi') in Hy. destruct (P3 y Hy) as [A B].
      split; [now apply (in_pending_list _ _ Hi)|exact B]. }
  assert (Hall : SLICE_SIZE <= av -> outstanding s' = 0).
  { intros Hge. apply (outstanding_pending _ Hi'). intros y Hy. destruct (P3 y Hy) as [A B]. apply B. now apply P4. }
  split; [exact Hinv'|]. split; [exact Hdr|]. split; [exact Hsent|]. split; [exact Hq|]. split; [exact Hbud|].
  split; [clear - Hcount; lia|]. split.
  - unfold budget_suffices. intros Hb. apply Hall. clear - Hb P5. lia.
  - intros Hnq Hslice. specialize (P6 Hnq). destruct (N.le_gt_cases SLICE_SIZE av) as [Hge|Hlt]; [left; auto|right].
    unfold parts_per_tick. assert (c_budget (ra s) / SLICE_SIZE <= len P); [|clear - Hcount H; lia].
    pose proof SliceP.SLICE_SIZE_pos.
    assert (c_budget (ra s) / SLICE_SIZE < len P + 1) by (apply N.div_lt_upper_bound; clear - P6 Hlt H; lia).
    clear - H0. lia.
Qed.

(* good ticks are ordinary runs of the system: a list of sys_step operations *)
Theorem good_ticks_is_run dt : forall n s s', good_ticks n s dt = Ok s' -> exists ops, sys_run s ops = Ok s'.
Proof.
  induction n as [|n IH]; intros s s' E; cbn [good_ticks] in E.
  - injection E as <-. now exists [].
  - destruct (good_tick s dt) as [s1| |] eqn:E1; cbn [bind] in E; try discriminate.
    exact (run_trans _ _ _ (good_tick_is_run _ _ _ E1) (IH s1 s' E)).
Qed.

Lemma good_ticks_run cfg_ab cfg_ba dt : forall n s s',
  good_ticks n s dt = Ok s' -> tick_inv cfg_ab cfg_ba s -> alive s' = true -> cfg_resend_le cfg_ab dt = true ->
  tick_inv cfg_ab cfg_ba s' /\ sent_a s' = sent_a s /\ outstanding s' <= outstanding s /\
  ((1 <= n)%nat -> drained (rb s') /\ unrel_queued (ra s') = false) /\
  (unrel_queued (ra s) = false -> SLICE_SIZE <= c_budget (ra s) ->
   outstanding s' = 0 \/ outstanding s' + N.of_nat n * parts_per_tick (ra s) <= outstanding s).
Proof.
  induction n as [|n IH]; intros s s' E Hinv Halive Hres; cbn [good_ticks] in E.
  - injection E as <-. split; [exact Hinv|]. split; [reflexivity|]. split; [apply N.le_refl|].
    split; [intros H; inversion H|]. intros _ _. right. clear. lia.
  - destruct (good_tick s dt) as [s1| |] eqn:E1; cbn [bind] in E; try discriminate.
    pose proof (run_alive _ _ (good_ticks_is_run dt _ _ _ E) Halive) as Hal1.
    destruct (good_tick_measure cfg_ab cfg_ba s dt s1 Hinv E1 Hal1 Hres) as (A1 & A2 & A3 & A4 & A5 & A6 & _ & A8).
    destruct (IH s1 s' E A1 Halive Hres) as (B1 & B2 & B4 & B5 & B6).
    split; [exact B1|]. split; [congruence|]. split; [exact (N.le_trans _ _ _ B4 A6)|]. split.
    + intros _. destruct n as [|n'].
      * cbn [good_ticks] in E. injection E as <-. auto.
      * apply B5. apply le_n_S, Nat.le_0_l.
    + intros Hq Hb. unfold parts_per_tick in *. rewrite A5 in B6.
      destruct (A8 Hq Hb) as [Hz|Hstep]; [left; clear - Hz B4; lia|].
      destruct (B6 A4 Hb) as [Hz|Hrest]; [now left|right]. clear - Hstep Hrest. lia.
Qed.

Lemma budget_holds ba bb cfg_ab cfg_ba s0 ops s :
  cfg_u8 cfg_ab -> cfg_u8 cfg_ba -> sys_init ba bb cfg_ab cfg_ba = Ok s0 -> sys_run s0 ops = Ok s ->
  c_budget (ra s) = ba.
Proof.
  intros Hab Hba Hinit Hrun.
  rewrite (budget_run cfg_ab cfg_ba ops s0 s (sys_init_inv ba bb cfg_ab cfg_ba s0 Hab Hba Hinit) Hrun).
  destruct (sys_init_ok _ _ _ _ _ Hinit) as (a & b & Ea & _ & ->). cbn [ra].
  now destruct (conn_new_order _ _ _ _ Ea) as [_ Hbud].
Qed.

(* progress: the measure never grows and, with a budget of at least one slice, it shrinks by the
   number of parts one budget pays for (or reaches zero) *)
Theorem good_tick_progress : forall ba bb cfg_ab cfg_ba s0 ops s dt s',
  cfg_u8 cfg_ab -> cfg_u8 cfg_ba ->
  sys_init ba bb cfg_ab cfg_ba = Ok s0 -> sys_run s0 ops = Ok s -> Forall (sysop_ok cfg_ab cfg_ba) ops ->
  cfg_resend_le cfg_ab dt = true ->
  good_tick s dt = Ok s' -> alive s' = true ->
  outstanding s' <= outstanding s /\
  unrel_queued (ra s') = false /\
  (unrel_queued (ra s) = false -> SLICE_SIZE <= ba ->
   outstanding s' = 0 \/ (1 <= parts_per_tick (ra s) /\ outstanding s' + parts_per_tick (ra s) <= outstanding s)).
Proof.
  intros ba bb cfg_ab cfg_ba s0 ops s dt s' Hab Hba Hinit Hrun _ Hres E Halive.
  pose proof (tick_inv_holds ba bb cfg_ab cfg_ba s0 ops s Hab Hba Hinit Hrun) as Hinv.
  pose proof (budget_holds ba bb cfg_ab cfg_ba s0 ops s Hab Hba Hinit Hrun) as Hbud.
  destruct (good_tick_measure cfg_ab cfg_ba s dt s' Hinv E Halive Hres) as (_ & _ & _ & A4 & _ & A6 & _ & A8).
  split; [exact A6|]. split; [exact A4|]. intros Hq Hb. rewrite <- Hbud in Hb.
  destruct (A8 Hq Hb) as [Hz|Hs]; [now left|right]. split; [now apply parts_per_tick_pos|exact Hs].
Qed.

(* L1: one good tick suffices when the budget covers everything waiting *)
Theorem good_tick_delivers_budget_suffices : forall ba bb cfg_ab cfg_ba s0 ops s dt s',
  cfg_u8 cfg_ab -> cfg_u8 cfg_ba ->
  sys_init ba bb cfg_ab cfg_ba = Ok s0 -> sys_run s0 ops = Ok s -> Forall (sysop_ok cfg_ab cfg_ba) ops ->
  cfg_resend_le cfg_ab dt = true ->           (* dt >= the resend time of every reliable channel *)
  budget_suffices (ra s) = true ->            (* pending_bytes (ra s) + SLICE_SIZE <= budget of A *)
  good_tick s dt = Ok s' ->                   (* the tick (it ends with both applications polling) *)
  alive s' = true ->                          (* nobody got disconnected, before or during the tick *)
  outstanding s' = 0 /\ sent_a s' = sent_a s /\
  forall ch,
    match chan_kind cfg_ab ch with
    | Some (TReliableOrdered _) => log_get (got_b s') ch = log_get (sent_a s') ch
    | Some (TReliableUnordered _) => Permutation (log_get (got_b s') ch) (log_get (sent_a s') ch)
    | _ => True
    end.
Proof.
  intros ba bb cfg_ab cfg_ba s0 ops s dt s' Hab Hba Hinit Hrun _ Hres Hbs E Halive.
  pose proof (tick_inv_holds ba bb cfg_ab cfg_ba s0 ops s Hab Hba Hinit Hrun) as Hinv.
  destruct (good_tick_measure cfg_ab cfg_ba s dt s' Hinv E Halive Hres) as (A1 & A2 & A3 & _ & _ & _ & A7 & _).
  specialize (A7 Hbs). split; [exact A7|]. split; [exact A3|].
  exact (quiescent_obtained cfg_ab cfg_ba s' A1 A7 A2).
Qed.

Lemma ticks_enough o k : 1 <= k -> o < (o / k + 1) * k.
Proof. intros Hk. pose proof (N.div_mod o k ltac:(lia)). pose proof (N.mod_lt o k ltac:(lia)). nia. Qed.

Lemma good_ticks_deliver_inv cfg_ab cfg_ba s dt s' :
  tick_inv cfg_ab cfg_ba s -> cfg_resend_le cfg_ab dt = true -> SLICE_SIZE <= c_budget (ra s) ->
  good_ticks (ticks_needed s) s dt = Ok s' -> alive s' = true ->
  outstanding s' = 0 /\ sent_a s' = sent_a s /\ obtained_all cfg_ab s'.
Proof.
  intros Hinv Hres Hb E Halive.
  pose proof (parts_per_tick_pos _ Hb) as Hk.
  set (o := outstanding s) in *. set (k := parts_per_tick (ra s)) in *.
  assert (Hfin : forall s1, tick_inv cfg_ab cfg_ba s1 -> unrel_queued (ra s1) = false ->
            c_budget (ra s1) = c_budget (ra s) -> outstanding s1 <= o -> sent_a s1 = sent_a s ->
            good_ticks (N.to_nat (o / k + 1)) s1 dt = Ok s' ->
            outstanding s' = 0 /\ sent_a s' = sent_a s /\ obtained_all cfg_ab s').
  { intros s1 Hinv1 Hq1 Hb1 Ho1 Hs1 E1.
    destruct (good_ticks_run cfg_ab cfg_ba dt _ s1 s' E1 Hinv1 Halive Hres) as (B1 & B2 & _ & B5 & B6).
    pose proof (ticks_enough o k Hk) as Hen.
    assert (Hn : (1 <= N.to_nat (o / k + 1))%nat) by (generalize (o / k); clear; intros q; lia).
    destruct (B5 Hn) as [B5' _].
    assert (Hz : outstanding s' = 0).
    { assert (Hb1' : SLICE_SIZE <= c_budget (ra s1)) by (rewrite Hb1; exact Hb).
      destruct (B6 Hq1 Hb1') as [Hz|Hle]; [exact Hz|exfalso].
      unfold parts_per_tick in Hle. rewrite Hb1 in Hle. fold (parts_per_tick (ra s)) in Hle. fold k in Hle.
      rewrite N2Nat.id in Hle. revert Hle Hen Ho1. generalize ((o / k + 1) * k) (outstanding s') (outstanding s1).
      clear. intros a b c H1 H2 H3. lia. }
    split; [exact Hz|]. split; [congruence|]. exact (quiescent_obtained cfg_ab cfg_ba s' B1 Hz B5'). }
  unfold ticks_needed in E. fold o in E. fold k in E.
  destruct (unrel_queued (ra s)) eqn:Hq.
  - replace (N.to_nat (1 + o / k + 1)) with (S (N.to_nat (o / k + 1))) in E by lia.
    cbn [good_ticks] in E. destruct (good_tick s dt) as [s1| |] eqn:E1; cbn [bind] in E; try discriminate.
    pose proof (run_alive _ _ (good_ticks_is_run dt _ _ _ E) Halive) as Hal1.
    destruct (good_tick_measure cfg_ab cfg_ba s dt s1 Hinv E1 Hal1 Hres) as (A1 & _ & A3 & A4 & A5 & A6 & _).
    apply (Hfin s1); auto.
  - replace (0 + o / k + 1) with (o / k + 1) in E by lia. apply (Hfin s); auto. lia.
Qed.

(* L2: ticks_needed good ticks suffice with a budget of at least one slice *)
Theorem good_ticks_deliver : forall ba bb cfg_ab cfg_ba s0 ops s dt s',
  cfg_u8 cfg_ab -> cfg_u8 cfg_ba ->
  sys_init ba bb cfg_ab cfg_ba = Ok s0 -> sys_run s0 ops = Ok s -> Forall (sysop_ok cfg_ab cfg_ba) ops ->
  cfg_resend_le cfg_ab dt = true ->           (* dt >= the resend time of every reliable channel *)
  SLICE_SIZE <= ba ->                         (* A's budget per tick pays for at least one slice *)
  good_ticks (ticks_needed s) s dt = Ok s' ->
  alive s' = true ->                          (* nobody got disconnected *)
  outstanding s' = 0 /\ sent_a s' = sent_a s /\
  forall ch,
    match chan_kind cfg_ab ch with
    | Some (TReliableOrdered _) => log_get (got_b s') ch = log_get (sent_a s') ch
    | Some (TReliableUnordered _) => Permutation (log_get (got_b s') ch) (log_get (sent_a s') ch)
    | _ => True
    end.
Proof.
  intros ba bb cfg_ab cfg_ba s0 ops s dt s' Hab Hba Hinit Hrun _ Hres Hb E Halive.
  pose proof (tick_inv_holds ba bb cfg_ab cfg_ba s0 ops s Hab Hba Hinit Hrun) as Hinv.
  pose proof (budget_holds ba bb cfg_ab cfg_ba s0 ops s Hab Hba Hinit Hrun) as Hbud.
  apply (good_ticks_deliver_inv cfg_ab cfg_ba s dt s'); auto. lia.
Qed.

(* L3: after ANY history, every submitted message is eventually obtained *)
(* the messages the application of A passed to send_message on channel ch and the channel accepted
   are those of the log sent_a; whatever the network and the applications did before (ops), after
   ticks_needed good ticks the application of B has obtained all of them - in submission order on
   an ordered channel, each exactly once on an unordered one *)
Theorem eventually_delivered : forall ba bb cfg_ab cfg_ba s0 ops s dt s',
  cfg_u8 cfg_ab -> cfg_u8 cfg_ba ->
  sys_init ba bb cfg_ab cfg_ba = Ok s0 -> sys_run s0 ops = Ok s -> Forall (sysop_ok cfg_ab cfg_ba) ops ->
  cfg_resend_le cfg_ab dt = true -> SLICE_SIZE <= ba ->
  good_ticks (ticks_needed s) s dt = Ok s' ->
  alive s' = true ->
  (forall ch resend, chan_kind cfg_ab ch = Some (TReliableOrdered resend) ->
     log_get (got_b s') ch = log_get (sent_a s) ch) /\
  (forall ch resend, chan_kind cfg_ab ch = Some (TReliableUnordered resend) ->
     Permutation (log_get (got_b s') ch) (log_get (sent_a s) ch) /\
     exists ids, NoDup ids /\
       log_get (got_b s') ch = map (fun id => nth (N.to_nat id) (log_get (sent_a s) ch) []) ids) /\
  (forall ch m, In m (log_get (sent_a s) ch) -> In m (submitted SA ch ops)).
Proof.
  intros ba bb cfg_ab cfg_ba s0 ops s dt s' Hab Hba Hinit Hrun Hops Hres Hb E Halive.
  destruct (good_ticks_deliver ba bb cfg_ab cfg_ba s0 ops s dt s' Hab Hba Hinit Hrun Hops Hres Hb E Halive)
    as (_ & Hsent & Hall).
  split; [|split].
  - intros ch resend Hk. specialize (Hall ch). rewrite Hk in Hall. congruence.
  - intros ch resend Hk. specialize (Hall ch). rewrite Hk in Hall. rewrite Hsent in Hall. split; [exact Hall|].
    (* s' is itself reachable, so the exactly-once theorem of the safety development applies to it *)
    pose proof (tick_inv_holds ba bb cfg_ab cfg_ba s0 ops s Hab Hba Hinit Hrun) as Hinv.
    destruct (run_tick_inv _ _ _ _ (good_ticks_is_run dt _ _ _ E) Hinv) as (Hsys & _).
    destruct (inv_unordered_exactly_once _ _ _ Hsys ch resend Hk) as (ids & Hnd & Hids & _).
    exists ids. rewrite <- Hsent. auto.
  - intros ch m Hin. destruct (sent_a_submitted ops s0 s ch m Hrun Hin) as [H|H]; [|exact H].
    destruct (sys_init_ok _ _ _ _ _ Hinit) as (a & b & _ & _ & ->). destruct H.
Qed.

Lemma recv_call_buffered c ch c' out : conn_inv c -> conn_step c (CRecv ch) c' out ->
  (exists m, out = OMsg (Some m) /\ S (buffered c' ch) = buffered c ch) \/ (forall l, got_upd (CRecv ch) out l = l).
Proof.
  intros Hi E. unfold buffered.
  inversion E as [op st S| | |ch0 r r' mo _ Hr Er|ch0 r r' mo _ Hr Hu Er| | |]; subst; [now right| |].
  - destruct mo as [m|]; [left; exists m; split; [reflexivity|]|now right].
    pose proof (RecvRelP.rr_receive_cases r (inv_find_rr _ _ _ Hi Hr)) as H.
    destruct (next_id r) as [id|]; [|rewrite H in Er; discriminate].
    destruct H as (m0 & r1 & Er1 & Hf & _ & _ & _ & _ & _ & Em & _). rewrite Er in Er1. injection Er1 as <- <-.
    cbn [with_rr c_rr]. rewrite Hr, sm_find_insert_same, Em. symmetry. eapply sm_remove_length; eauto.
  - destruct mo as [m|]; [left; exists m; split; [reflexivity|]|now right].
    cbn [with_ru c_rr c_ru]. rewrite Hr, Hu, sm_find_insert_same.
    destruct (RecvUnrelP.ru_receive_cases _ _ _ Er) as [(_ & [=] & _)|(m0 & t & mem & -> & _ & ->)]. reflexivity.
Qed.

Lemma drain_chan_fuel_suffices cfg_ab cfg_ba x ch : forall fuel s,
  tick_inv cfg_ab cfg_ba s -> has_recv_channel (conn_of s x) ch = true ->
  (buffered (conn_of s x) ch < fuel)%nat ->
  exists s', drain_chan fuel x ch s = Ok s' /\ forall ch', has_recv_channel (conn_of s' x) ch' = has_recv_channel (conn_of s x) ch'.
Proof.
  induction fuel as [|f IH]; intros s Hinv Hch Hlt; [lia|]. cbn [drain_chan].
  pose proof (tick_inv_conn _ _ _ x Hinv) as Hi.
  destruct (receive_message_total (conn_of s x) ch Hi Hch) as (c' & mo & Er).
  assert (Es : exists s1, sys_step s (SysApi x (CRecv ch)) = Ok s1).
  { cbn [sys_step is_process cstep]. rewrite Er. cbn [bind]. eauto. }
  destruct Es as (s1 & E1). rewrite E1. cbn [bind].
  pose proof (tick_inv_step _ _ _ _ _ Hinv E1) as Hinv1.
  destruct (recv_step _ _ _ _ E1) as (out & Ec & _ & A5).
  assert (Hsame : forall ch', has_recv_channel (conn_of s1 x) ch' = has_recv_channel (conn_of s x) ch').
  { intros ch'. unfold has_recv_channel.
    destruct (conn_step_channels _ _ _ _ Hi Ec ch') as (_ & _ & B3 & B4). now rewrite B3, B4. }
  destruct (Nat.eqb (length (log_get (got_of s1 x) ch)) (length (log_get (got_of s x) ch))) eqn:El; [eauto|].
  destruct (recv_call_buffered _ _ _ _ Hi Ec) as [(m & _ & Hb)|Hl].
  2:{ rewrite A5, Hl, Nat.eqb_refl in El. discriminate. }
  destruct (IH s1 Hinv1) as (s' & E' & Hs').
  - rewrite Hsame. exact Hch.
  - lia.
  - exists s'. split; [exact E'|]. intros ch'. now rewrite Hs', Hsame.
Qed.

(* polling every receive channel of a side always terminates normally *)
Theorem drain_succeeds cfg_ab cfg_ba x s : tick_inv cfg_ab cfg_ba s -> exists s', drain x s = Ok s'.
Proof.
  intros Hinv. unfold drain.
  assert (Hall : forall ch, In ch (recv_channels (conn_of s x)) -> has_recv_channel (conn_of s x) ch = true).
  { intros ch Hin. unfold recv_channels in Hin. unfold has_recv_channel. apply in_app_or in Hin.
    destruct Hin as [Hin|Hin]; apply sm_mem_in in Hin; rewrite Hin; [reflexivity|apply orb_true_r]. }
  revert Hall. generalize (recv_channels (conn_of s x)). intros chs. revert s Hinv.
  induction chs as [|ch t IH]; intros s Hinv Hall; cbn [drain_chans]; [eauto|].
  destruct (drain_chan_fuel_suffices cfg_ab cfg_ba x ch (S (buffered (conn_of s x) ch)) s Hinv) as (s1 & E1 & Hs1);
    [apply Hall; now left|lia|].
  rewrite E1. cbn [bind]. apply IH.
  - exact (run_tick_inv _ _ _ _ (drain_chan_is_run _ _ _ _ _ E1) Hinv).
  - intros ch' Hin. rewrite Hs1. apply Hall. now right.
Qed.

(* one ordered reliable channel, resend time 100 ms; A submits a 2-byte, a 3000-byte (3 slices) and a
   1-byte message and flushes; of this first transmission only slice 2 reaches B - twice - and B's
   Ack packet is lost as well; 50 ms later A flushes again (nothing is due yet).  Then good ticks
   of 100 ms. *)
Definition lx_cfg : list chan_config := [ {| cc_id := 0; cc_max := 100000; cc_type := TReliableOrdered 100000000 |} ].
Definition lx_big : list N := repeat 7 (N.to_nat 3000).
Definition lx_dt : N := 100000000.
Definition lx_history : list sysop :=
  [ SysApi SA (CSend 0 [1; 2]); SysApi SA (CSend 0 lx_big); SysApi SA (CSend 0 [3]);
    SysApi SA CFlush;
    SysDeliver SB 2; SysDeliver SB 2; SysApi SB CFlush;
    SysApi SA (CUpdate 50000000); SysApi SA CFlush ].

Definition lx_run (budget : N) (ticks : rsys -> nat) : pres (rsys * rsys) :=
  do s0 <- sys_init budget 60000 lx_cfg lx_cfg;
  do s <- sys_run s0 lx_history;
  do s' <- good_ticks (ticks s) s lx_dt;
  Ok (s, s').

Definition lx_summary (r : pres (rsys * rsys)) :=
  match r with
  | Ok (s, s') => Some (outstanding s, budget_suffices (ra s), ticks_needed s, log_get (got_b s) 0,
                        alive s', outstanding s', log_get (got_b s') 0, log_get (sent_a s') 0)
  | _ => None
  end.

(* the default budget: one tick (L1 applies: budget_suffices holds) *)
Example good_tick_example :
  lx_summary (lx_run 60000 (fun _ => 1%nat)) =
  Some (5, true, 1%nat, [], true, 0, [[1; 2]; lx_big; [3]], [[1; 2]; lx_big; [3]]).
Proof. evaluates. Qed.

(* the smallest budget that makes progress, 1200 bytes per tick: ticks_needed = 6 ticks *)
Example good_ticks_example :
  lx_summary (lx_run 1200 ticks_needed) =
  Some (5, false, 6%nat, [], true, 0, [[1; 2]; lx_big; [3]], [[1; 2]; lx_big; [3]]).
Proof. evaluates. Qed.

(* the hypotheses of the theorems are decided by computation for a concrete configuration ... *)
Example lx_hypotheses :
  cfg_u8 lx_cfg /\ Forall (sysop_ok lx_cfg lx_cfg) lx_history /\ cfg_resend_le lx_cfg lx_dt = true /\ SLICE_SIZE <= 1200.
Proof.
  split; [repeat constructor|].
  split; [repeat constructor; cbn [sysop_ok chan_kind lx_cfg find cc_id]; discriminate|].
  split; [reflexivity|]. rewrite SMapSendP.SS_value. lia.
Qed.

(* ... so that L3 applies to the run above *)
Example lx_by_theorem : forall s0 s s',
  sys_init 1200 60000 lx_cfg lx_cfg = Ok s0 -> sys_run s0 lx_history = Ok s ->
  good_ticks (ticks_needed s) s lx_dt = Ok s' -> alive s' = true ->
  log_get (got_b s') 0 = log_get (sent_a s) 0.
Proof.
  intros s0 s s' Hinit Hrun Hticks Halive. destruct lx_hypotheses as (H1 & H2 & H3 & H4).
  destruct (eventually_delivered 1200 60000 lx_cfg lx_cfg s0 lx_history s lx_dt s' H1 H1 Hinit Hrun H2 H3 H4 Hticks Halive)
    as (Hord & _).
  apply (Hord 0 100000000). reflexivity.
Qed.

(* A witness is a run of the shape of lx_run.  The states it passes through are large (each holds the
   3000-byte message several times), so they never appear as terms: the run is evaluated once, under
   an observation [f] whose value is small, and the states stay variables. *)
Definition run_ticks (cfg : list chan_config) (hist : list sysop) (budget : N) (ticks : rsys -> nat) : pres (rsys * rsys) :=
  do s0 <- sys_init budget 60000 cfg cfg;
  do s <- sys_run s0 hist;
  do s' <- good_ticks (ticks s) s lx_dt;
  Ok (s, s').

Lemma run_ticks_observed {T} (f : rsys -> rsys -> T) cfg hist budget ticks v :
  match run_ticks cfg hist budget ticks with Ok (s, s') => Some (f s s') | _ => None end = Some v ->
  exists s0 s s', sys_init budget 60000 cfg cfg = Ok s0 /\ sys_run s0 hist = Ok s /\
                  good_ticks (ticks s) s lx_dt = Ok s' /\ f s s' = v.
Proof.
  unfold run_ticks. intros E.
  destruct (sys_init budget 60000 cfg cfg) as [s0| |]; cbn [bind] in E; try discriminate.
  destruct (sys_run s0 hist) as [s| |] eqn:E1; cbn [bind] in E; try discriminate.
  destruct (good_ticks (ticks s) s lx_dt) as [s'| |] eqn:E2; cbn [bind] in E; try discriminate.
  injection E as E. exists s0, s, s'. auto.
Qed.

Lemma good_ticks_one s dt : good_ticks 1 s dt = good_tick s dt.
Proof. cbn [good_ticks]. destruct (good_tick s dt); reflexivity. Qed.

(* "every good tick makes progress" is false below one slice of budget: with 1199 bytes per
   tick the three slices are never transmitted, on a perfect network, for as many ticks as one
   likes (here 10); the small message 2 behind them has arrived and is acknowledged but, the
   channel being ordered, is not handed over either *)
Example progress_without_slice_budget_refuted :
  exists s0 s s',
    sys_init 1199 60000 lx_cfg lx_cfg = Ok s0 /\ sys_run s0 lx_history = Ok s /\
    good_ticks 10 s lx_dt = Ok s' /\ alive s' = true /\
    outstanding s = 5 /\ outstanding s' = 3 /\
    log_get (got_b s') 0 = [[1; 2]] /\ log_get (sent_a s') 0 = [[1; 2]; lx_big; [3]].
Proof.
  destruct (run_ticks_observed
              (fun s s' => (alive s', outstanding s, outstanding s', log_get (got_b s') 0, log_get (sent_a s') 0))
              lx_cfg lx_history 1199 (fun _ => 10%nat) (true, 5, 3, [[1; 2]], [[1; 2]; lx_big; [3]]))
    as (s0 & s & s' & E0 & E1 & E2 & [= H1 H2 H3 H4 H5]); [evaluates|].
  exists s0, s, s'. exact (conj E0 (conj E1 (conj E2 (conj H1 (conj H2 (conj H3 (conj H4 H5))))))).
Qed.

(* "a budget equal to the bytes waiting suffices for one tick" is false: the slice loop wants
   SLICE_SIZE bytes of budget left before it sends a slice, however short that slice is.  3003
   bytes are waiting; with a budget of 3003 the last slice (600 bytes) stays behind *)
Example budget_without_slack_refuted :
  exists s0 s s',
    sys_init 3003 60000 lx_cfg lx_cfg = Ok s0 /\ sys_run s0 lx_history = Ok s /\
    good_tick s lx_dt = Ok s' /\ alive s' = true /\
    pending_bytes (ra s) = 3003 /\ c_budget (ra s) = 3003 /\ outstanding s' = 1.
Proof.
  destruct (run_ticks_observed (fun s s' => (alive s', pending_bytes (ra s), c_budget (ra s), outstanding s'))
              lx_cfg lx_history 3003 (fun _ => 1%nat) (true, 3003, 3003, 1))
    as (s0 & s & s' & E0 & E1 & E2 & [= H1 H2 H3 H4]); [evaluates|].
  rewrite good_ticks_one in E2. exists s0, s, s'. exact (conj E0 (conj E1 (conj E2 (conj H1 (conj H2 (conj H3 H4)))))).
Qed.

(* "with the same channel configuration on both sides nobody gets disconnected on a perfect
   network" is false, so that the hypothesis [alive s' = true] of the theorems cannot be derived
   from the configuration: the sender accounts for the bytes of a message, the receiver reserves
   whole slices.  On a channel limited to 3000 bytes the sender accepts a 2500-byte message; its
   first slice makes the receiver reserve 3 * 1200 = 3600 bytes, which exceeds the same limit, and
   the receiver disconnects with ReliableChannelMaxMemoryReached *)
Definition mx_cfg : list chan_config := [ {| cc_id := 0; cc_max := 3000; cc_type := TReliableOrdered 100000000 |} ].

Example alive_not_implied_by_configuration_refuted :
  exists s0 s s',
    sys_init 60000 60000 mx_cfg mx_cfg = Ok s0 /\
    sys_run s0 [SysApi SA (CSend 0 (repeat 7 (N.to_nat 2500)))] = Ok s /\
    good_tick s lx_dt = Ok s' /\
    map (@length N) (log_get (sent_a s) 0) = [2500%nat] /\ alive s = true /\
    c_status (rb s') = Disconnected (RReceiveChannelError 0 ReliableChannelMaxMemoryReached) /\
    log_get (got_b s') 0 = [].
Proof.
  destruct (run_ticks_observed
              (fun s s' => (map (@length N) (log_get (sent_a s) 0), alive s, c_status (rb s'), log_get (got_b s') 0))
              mx_cfg [SysApi SA (CSend 0 (repeat 7 (N.to_nat 2500)))] 60000 (fun _ => 1%nat)
              ([2500%nat], true, Disconnected (RReceiveChannelError 0 ReliableChannelMaxMemoryReached), []))
    as (s0 & s & s' & E0 & E1 & E2 & [= H1 H2 H3 H4]); [evaluates|].
  rewrite good_ticks_one in E2. exists s0, s, s'. exact (conj E0 (conj E1 (conj E2 (conj H1 (conj H2 (conj H3 H4)))))).
Qed.

Print Assumptions good_tick_progress.
Print Assumptions good_tick_delivers_budget_suffices.
Print Assumptions good_ticks_deliver.
Print Assumptions eventually_delivered.
Print Assumptions drain_succeeds.
Print Assumptions good_ticks_is_run.
Print Assumptions good_tick_example.
Print Assumptions good_ticks_example.
Print Assumptions lx_hypotheses.
Print Assumptions lx_by_theorem.
Print Assumptions progress_without_slice_budget_refuted.
Print Assumptions budget_without_slack_refuted.
Print Assumptions alive_not_implied_by_configuration_refuted.

(* ConnProcP.v - process_packet on arbitrary bytes: the loops (process_rel_msgs,
   process_unrel_msgs, collect_new_acks, ack_ids, apply_acks), then process_parsed / process_packet. *)
From RenetV Require Import Base Consts Varint Packet Channels Conn.
From RenetV Require Import CodecSpec RecvSpec SendSpec ConnSpec ConnInvSpec.
From RenetV Require Import SMapP ConnBaseP BaseP.
From RenetV Require Export ConnStepP.
From RenetV Require AcksP PacketP RecvRelP RecvUnrelP SendRelP SendUnrelP.
Import SendRelP(st_of).
Require Import Lia ZifyBool ZifyN ZifyNat.
Open Scope N_scope.

Local Opaque SLICE_SIZE MAX_ACK_RANGES SER_BUFFER NC_MAX_PAYLOAD_BYTES DISCARD_PACKET_SECS VARINT_MAX.

Lemma process_rel_msgs_safe ms : forall r, rr_inv r ->
  match process_rel_msgs r ms with
  | Ok r' => rr_inv r'
  | Err e => e = ReliableChannelMaxMemoryReached
  | Panic _ => False
  end.
Proof.
  induction ms as [|[id m] t IH]; intros r Hr; cbn [process_rel_msgs]; [exact Hr|].
  pose proof (RecvRelP.rr_process_message_safe r m id Hr) as H.
  destruct (rr_process_message r m id) as [r'|e|s]; cbn [bind]; [|exact H|exact H].
  apply IH. apply H.
Qed.

Lemma process_unrel_msgs_safe now ms : forall r, ru_inv now r -> ru_inv now (process_unrel_msgs r ms).
Proof.
  induction ms as [|m t IH]; intros r Hr; cbn [process_unrel_msgs]; [exact Hr|].
  apply IH. apply RecvUnrelP.ru_process_message_safe. exact Hr.
Qed.

(* a message that does not fit the memory limit is passed over in silence; the partial messages are not touched *)
Lemma process_unrel_msgs_spec ms : forall r, exists kept, SendUnrelP.subseq kept ms /\
  ru_messages (process_unrel_msgs r ms) = ru_messages r ++ kept /\
  ru_slices (process_unrel_msgs r ms) = ru_slices r.
Proof.
  induction ms as [|m t IH]; intros r; cbn [process_unrel_msgs].
  - exists []. rewrite app_nil_r. repeat constructor.
  - destruct (IH (ru_process_message r m)) as (kept & S & Em & Es). unfold ru_process_message in *.
    destruct (ru_max r <? ru_mem r + len m).
    + exists kept. split; [constructor; exact S|]. split; assumption.
    + cbn [ru_with ru_messages ru_slices] in Em, Es. rewrite <- app_assoc in Em.
      exists (m :: kept). split; [constructor; exact S|]. split; assumption.
Qed.

Lemma keys_in_range_in a b sent x :
  In x (keys_in_range a b sent) <-> In x (map fst sent) /\ a <= x /\ x < b.
Proof.
  induction sent as [|[s v] t IH]; cbn [keys_in_range map fst In]; [tauto|].
  destruct ((a <=? s) && (s <? b)) eqn:E; cbn [In]; rewrite IH.
  - apply andb_true_iff in E. destruct E as [E1 E2]. apply N.leb_le in E1. apply N.ltb_lt in E2.
    split; [intros [<-|H]; tauto | tauto].
  - split; [tauto|]. intros [[<-|H] [R1 R2]]; [|tauto].
    apply N.leb_le in R1. apply N.ltb_lt in R2. rewrite R1, R2 in E. discriminate.
Qed.

Lemma keys_in_range_nodup a b sent : NoDup (map fst sent) -> NoDup (keys_in_range a b sent).
Proof.
  induction sent as [|[s v] t IH]; cbn [keys_in_range map fst]; intros H; [constructor|].
  inversion H; subst.
  destruct ((a <=? s) && (s <? b)); [|auto].
  constructor; [|auto]. rewrite keys_in_range_in. tauto.
Qed.

Lemma collect_new_acks_spec sent : NoDup (map fst sent) -> forall rs lo, ranges_wf lo rs ->
  exists l, collect_new_acks rs sent = Ok l /\ NoDup l /\
            forall x, In x l <-> In x (map fst sent) /\ in_ranges x rs.
Proof.
  intros Hnd. induction rs as [|[a b] t IH]; intros lo Hwf; cbn [collect_new_acks].
  - exists []. split; [reflexivity|]. split; [constructor|]. intros x. cbn [In in_ranges]. tauto.
  - cbn [ranges_wf] in Hwf. destruct Hwf as (H1 & H2 & H3).
    destruct (N.ltb_spec b a); [lia|].
    destruct (IH _ H3) as (l & E & Hl & Hin). rewrite E. cbn [bind].
    eexists; split; [reflexivity|]. split.
    + apply NoDup_app_intro; [now apply keys_in_range_nodup|exact Hl|].
      intros x Hx Hx'. apply keys_in_range_in in Hx. apply Hin in Hx'.
      pose proof (AcksP.in_ranges_lo _ _ _ H3 (proj2 Hx')). lia.
    + intros x. rewrite in_app_iff, keys_in_range_in, Hin. cbn [in_ranges]. tauto.
Qed.

Lemma kind_of_ext s s' j : sm_find j (sr_unacked s') = sm_find j (sr_unacked s) -> kind_of s' j = kind_of s j.
Proof. unfold kind_of. intros ->. reflexivity. Qed.

(* Induction over ack_ids on ids that are each unknown or of a small message: the loop cannot fail, each
   sr_ack_message removes its id and touches nothing else, and the ids of the tail stay unknown or small. *)
Lemma ack_ids_ind now (P : list N -> send_rel -> send_rel -> Prop) :
  (forall s, sr_inv now s -> P [] s s) ->
  (forall id t s s1 s', sr_inv now s -> id_small_ok s id ->
     sr_ack_message s id = Ok s1 -> sr_inv now s1 -> kind_of s1 id = None ->
     (forall j, j <> id -> sm_find j (sr_unacked s1) = sm_find j (sr_unacked s)) ->
     sr_next_id s1 = sr_next_id s -> P t s1 s' -> P (id :: t) s s') ->
  forall ids s, sr_inv now s -> Forall (id_small_ok s) ids -> exists s', ack_ids s ids = Ok s' /\ P ids s s'.
Proof.
  intros Hnil Hcons. induction ids as [|id t IH]; intros s Hs Hids; cbn [ack_ids].
  - exists s. split; [reflexivity|]. now apply Hnil.
  - inversion Hids as [|? ? [Hlt Hk] Ht]; subst.
    destruct (SendRelP.sr_ack_message_safe now s id Hs Hk) as (s1 & E1 & Hs1 & Hnone & Hother & _ & Hnext).
    rewrite E1. cbn [bind].
    destruct (IH s1 Hs1) as (s' & E' & HP).
    { eapply Forall_impl; [|exact Ht]. intros j. apply id_small_ok_stable. split; [lia|].
      intros k _. destruct (N.eq_dec k id) as [->|Hne]; [now right|]. left. apply kind_of_ext. now apply Hother. }
    exists s'. split; [exact E'|]. exact (Hcons id t s s1 s' Hs (conj Hlt Hk) E1 Hs1 Hnone Hother Hnext HP).
Qed.

Lemma ack_ids_safe now ids s : sr_inv now s -> Forall (id_small_ok s) ids ->
  exists s', ack_ids s ids = Ok s' /\ sr_inv now s' /\ sr_next_id s' = sr_next_id s /\
    sr_ch s' = sr_ch s /\
    (forall j, ~ In j ids -> sm_find j (sr_unacked s') = sm_find j (sr_unacked s)) /\
    (forall j, sm_find j (sr_unacked s') = None \/ sm_find j (sr_unacked s') = sm_find j (sr_unacked s)).
Proof.
  revert ids s. apply ack_ids_ind.
  - intros s Hs. split; [exact Hs|]. split; [reflexivity|]. split; [reflexivity|]. split; [reflexivity|].
    intros j. now right.
  - intros id t s s1 s' _ _ E1 _ Hnone Hother Hnext (Hs' & Hn' & Hc' & Ho' & Hf').
    split; [exact Hs'|]. split; [congruence|].
    split; [rewrite Hc'; apply (SendRelP.sr_ack_message_config _ _ _ E1)|].
    split.
    + intros j Hj. cbn [In] in Hj. rewrite Ho' by tauto. apply Hother. intros ->. tauto.
    + intros j. destruct (Hf' j) as [F|F]; [now left|].
      rewrite F. destruct (N.eq_dec j id) as [->|Hne]; [left|right; now apply Hother].
      now apply SendRelP.kind_none_find.
Qed.

Lemma ack_ids_pend now ids s : sr_inv now s -> Forall (id_small_ok s) ids ->
  exists s', ack_ids s ids = Ok s' /\
    (forall j p, SendRelP.packed s' j p = Some false -> SendRelP.packed s j p = Some false) /\
    (forall id p, In id ids -> SendRelP.packed s' id p <> Some false).
Proof.
  revert ids s. apply ack_ids_ind.
  - intros s _. split; [auto|intros id p []].
  - intros id t s s1 s' _ _ _ _ Hnone Hother _ [M F].
    assert (M1 : forall j p, SendRelP.packed s1 j p = Some false -> SendRelP.packed s j p = Some false).
    { intros j p Hp. destruct (N.eq_dec j id) as [->|Hne].
      - rewrite (SendRelP.kind_none_packed _ _ _ Hnone) in Hp. discriminate.
      - rewrite <- Hp. symmetry. apply SendRelP.packed_same_find. now apply Hother. }
    split; [auto|].
    intros k p [<-|Hin]; [|now apply F].
    intros Hp. apply M in Hp. rewrite (SendRelP.kind_none_packed _ _ _ Hnone) in Hp. discriminate.
Qed.

Definition released_by (s : send_rel) (ch id : N) (info : sent_info) : Prop :=
  match info with
  | SIReliableMessages c ids => c = ch /\ In id ids
  | SIReliableSlice c i idx =>
      c = ch /\ i = id /\ exists num, kind_of s id = Some (Some num) /\
        forall j, j < num -> j <> idx -> slice_acked s id j = Some true
  | _ => False
  end.

Definition acked_chan (info : sent_info) (ch : N) (s s' : send_rel) : Prop :=
  sr_next_id s' = sr_next_id s /\
  forall id,
    (sm_find id (sr_unacked s') = None \/ st_of (sr_unacked s') id = st_of (sr_unacked s) id) /\
    (kind_of s id <> None -> kind_of s' id = None -> released_by s ch id info) /\
    (forall idx, slice_acked s' id idx = Some true ->
                 slice_acked s id idx = Some true \/ info = SIReliableSlice ch id idx).

Definition sr_acked (sr sr' : list (N * send_rel)) (info : sent_info) : Prop := sm_rel (acked_chan info) sr sr'.

Lemma acked_chan_refl info ch s : acked_chan info ch s s.
Proof. split; [reflexivity|]. intros id. split; [now right|]. split; [congruence|auto]. Qed.

Lemma sr_acked_same sr info : sr_acked sr sr info.
Proof. apply sm_rel_refl, acked_chan_refl. Qed.

Lemma sr_acked_insert sr ch s s' info :
  sm_find ch sr = Some s -> acked_chan info ch s s' -> sr_acked sr (sm_insert ch s' sr) info.
Proof. exact (sm_rel_insert (acked_chan info) ch s s' sr (acked_chan_refl info)). Qed.

Lemma apply_ack_spec c seq t info :
  conn_inv c -> sm_find seq (c_sent c) = Some (t, info) ->
  exists c', apply_ack c seq = Ok c' /\ conn_inv c' /\ ack_step c seq info c' /\
    (forall x, in_ranges x (c_acks c') -> in_ranges x (c_acks c)) /\
    sr_acked (c_sr c) (c_sr c') info.
Proof.
  intros Hi Hf. unfold apply_ack. rewrite Hf.
  destruct (inv_find_sent _ _ _ _ Hi Hf) as (Hlt & Ht & Hinfo).
  set (c1 := with_sent c (sm_remove seq (c_sent c))).
  assert (Hi1 : conn_inv c1).
  { apply inv_with_sent; [exact Hi|apply asc_sm_remove, (ci_sent_sorted c Hi)|].
    apply Forall_sm_remove. exact (ci_sent c Hi). }
  destruct info as [|ch ids|ch id idx|largest].
  - exists c1. split; [reflexivity|]. split; [exact Hi1|].
    split; [apply AK_none|]. split; [auto|apply sr_acked_same].
  - cbn [sent_info_ok] in Hinfo. destruct Hinfo as (s & Hs & Hids).
    change (c_sr c1) with (c_sr c). rewrite Hs.
    destruct (inv_find_sr _ _ _ Hi Hs) as [Hsi Hch].
    destruct (ack_ids_safe _ ids s Hsi Hids) as (s' & E & Hs' & Hn' & Hc' & Ho' & Hf').
    rewrite E. cbn [lift bind].
    eexists; split; [reflexivity|]. split.
    { apply (inv_with_sr c1 ch s s'); auto; [congruence|]. split; [lia|]. intros j _.
      destruct (Hf' j) as [F|F]; [right; apply (SendRelP.find_none_props _ _ F)|left; now apply kind_of_ext]. }
    split; [exact (AK_msgs c seq ch ids s s' Hs E)|]. split; [auto|]. cbn [with_sr c_sr].
    apply (sr_acked_insert _ _ s); [exact Hs|]. split; [exact Hn'|].
    intros id. destruct (Hf' id) as [Hnone|Hsame].
    + destruct (SendRelP.find_none_props _ _ Hnone) as (K1 & K2 & K3).
      split; [now left|]. split.
      * intros Hk _. cbn [released_by]. split; [reflexivity|].
        destruct (in_dec N.eq_dec id ids) as [Hin|Hnin]; [exact Hin|].
        exfalso. apply Hk. rewrite <- K1. symmetry. apply kind_of_ext. now apply Ho'.
      * intros idx. rewrite K3. discriminate.
    + destruct (SendRelP.find_same_props _ _ _ Hsame) as (K1 & K2 & K3).
      split; [now right|]. split; [congruence|]. intros idx. rewrite K3. auto.
  - cbn [sent_info_ok] in Hinfo. destruct Hinfo as (s & Hs & Hlt' & Hk).
    change (c_sr c1) with (c_sr c). rewrite Hs.
    destruct (inv_find_sr _ _ _ Hi Hs) as [Hsi Hch].
    destruct (SendRelP.sr_ack_slice_spec _ s id idx Hsi Hk) as (s' & E & Hs' & Hn' & Ho' & Hcases & Hst).
    rewrite E. cbn [lift bind].
    eexists; split; [reflexivity|]. split.
    { apply (inv_with_sr c1 ch s s'); auto.
      - rewrite <- Hch. apply (SendRelP.sr_ack_slice_config _ _ _ _ E).
      - split; [lia|]. intros j _. destruct (N.eq_dec j id) as [->|Hne].
        + destruct Hcases as [[_ ->]|[P|P]]; [now left|left; apply P|right; apply P].
        + left. apply kind_of_ext. now apply Ho'. }
    split; [exact (AK_slice c seq ch id idx s s' Hs E)|]. split; [auto|]. cbn [with_sr c_sr].
    apply (sr_acked_insert _ _ s); [exact Hs|]. split; [exact Hn'|].
    intros j. destruct (N.eq_dec j id) as [->|Hne].
    + split; [exact Hst|].
      destruct Hcases as [[_ ->]|[P|P]].
      * split; [congruence|auto].
      * destruct P as (P1 & _ & P3 & P4 & P5 & _). split; [congruence|].
        intros i Hi0. destruct (N.eq_dec i idx) as [->|Hni]; [now right|]. left. now rewrite <- P5.
      * destruct P as (P1 & P2 & P3 & _). split.
        -- intros Hkn _. cbn [released_by]. split; [reflexivity|]. split; [reflexivity|].
           destruct Hk as [Hk|(num & Hk & Hidx)]; [contradiction|].
           exists num. split; [exact Hk|]. intros i Hi0 Hni. eapply P2; eauto.
        -- intros i. unfold slice_acked. rewrite (SendRelP.kind_none_find _ _ P3). discriminate.
    + destruct (SendRelP.find_same_props _ _ _ (Ho' j Hne)) as (K1 & K2 & K3).
      split; [now right|]. split; [congruence|]. intros i. rewrite K3. auto.
  - eexists; split; [reflexivity|]. split.
    { apply inv_with_acks; [exact Hi1| | |]; change (c_acks c1) with (c_acks c).
      - apply AcksP.acked_largest_wf, (ci_acks_wf c Hi).
      - pose proof (AcksP.acked_largest_len (c_acks c) largest). pose proof (ci_acks_len c Hi). lia.
      - apply AcksP.acked_largest_below, (ci_acks_below c Hi). }
    split; [exact (AK_ack c seq largest)|]. split; [|apply sr_acked_same].
    intros x Hx. cbn [with_acks c_acks] in Hx. change (c_acks c1) with (c_acks c) in Hx.
    apply (AcksP.acked_largest_spec _ _ _ (ci_acks_wf c Hi)) in Hx. apply Hx.
Qed.

Lemma released_by_lists s ch id info : released_by s ch id info -> info_lists info ch id.
Proof. destruct info; cbn [released_by info_lists]; tauto. Qed.

(* Induction over apply_acks on distinct sequence numbers that are all on record: the loop cannot fail; the
   first number is found in c_sent c, and acknowledging it removes that record only, so the others are on
   record in the next state. *)
Section ApplyAcksInd.
  Variable P : list N -> conn -> conn -> Prop.
  Hypothesis Hnil : forall c, conn_inv c -> P [] c c.
  Hypothesis Hcons : forall seq t c tm info c1 c',
    conn_inv c -> ~ In seq t -> sm_find seq (c_sent c) = Some (tm, info) ->
    ack_step c seq info c1 -> conn_inv c1 -> (forall x, in_ranges x (c_acks c1) -> in_ranges x (c_acks c)) ->
    sr_acked (c_sr c) (c_sr c1) info -> P t c1 c' -> P (seq :: t) c c'.

  Lemma apply_acks_ind : forall seqs c,
    conn_inv c -> NoDup seqs -> Forall (fun s => sm_mem s (c_sent c) = true) seqs ->
    exists c', apply_acks c seqs = Ok c' /\ P seqs c c'.
  Proof.
    induction seqs as [|seq t IH]; intros c Hi Hnd Hmem; cbn [apply_acks].
    - exists c. split; [reflexivity|]. now apply Hnil.
    - inversion Hnd as [|? ? Hnotin Hnd']; subst. inversion Hmem as [|? ? Hm Hmem']; subst.
      destruct (sm_mem_find _ _ Hm) as ([t0 info] & Hf).
      destruct (apply_ack_spec c seq t0 info Hi Hf) as (c1 & E1 & Hi1 & A & Hacks1 & Hack1).
      rewrite E1. cbn [bind].
      destruct (IH c1 Hi1 Hnd') as (c' & E' & HP).
      { rewrite (ack_step_sent _ _ _ _ A). rewrite Forall_forall in *. intros k Hk.
        rewrite sm_mem_remove by exact (ci_sent_sorted c Hi). rewrite (Hmem' k Hk).
        destruct (N.eqb_spec k seq) as [->|]; [contradiction|reflexivity]. }
      exists c'. split; [exact E'|].
      exact (Hcons seq t c t0 info c1 c' Hi Hnotin Hf A Hi1 Hacks1 Hack1 HP).
  Qed.

  Lemma apply_acks_ok_ind : forall seqs c c',
    conn_inv c -> NoDup seqs -> Forall (fun s => sm_mem s (c_sent c) = true) seqs ->
    apply_acks c seqs = Ok c' -> P seqs c c'.
  Proof.
    intros seqs c c' Hi Hnd Hmem E. destruct (apply_acks_ind seqs c Hi Hnd Hmem) as (c2 & E2 & HP).
    rewrite E in E2. now injection E2 as <-.
  Qed.
End ApplyAcksInd.

Lemma apply_acks_spec : forall seqs c c', conn_inv c -> NoDup seqs ->
  Forall (fun s => sm_mem s (c_sent c) = true) seqs -> apply_acks c seqs = Ok c' ->
  conn_inv c' /\ (forall k v, sm_find k (c_sent c') = Some v -> sm_find k (c_sent c) = Some v) /\
  (forall x, in_ranges x (c_acks c') -> in_ranges x (c_acks c)).
Proof.
  apply apply_acks_ok_ind.
  - intros c Hi. auto.
  - intros seq t c tm info c1 c' Hi _ _ A _ Hacks1 _ (Hi' & Hs & Ha).
    split; [exact Hi'|]. split; [|auto].
    intros k v Hk. apply Hs in Hk. rewrite (ack_step_sent _ _ _ _ A) in Hk.
    now apply (sm_find_remove_some _ _ _ _ (ci_sent_sorted c Hi)) in Hk.
Qed.

Definition is_ack (p : packet) : bool := match p with Ack _ _ => true | _ => false end.

Lemma slice_wf_decoded b s : slice_wf b s -> slice_decoded s.
Proof. intros (_ & _ & H1 & H2 & _). split; assumption. Qed.

Lemma collect_new_acks_sent c rs l : conn_inv c -> ranges_wf 0 rs -> collect_new_acks rs (c_sent c) = Ok l ->
  NoDup l /\ Forall (fun s => sm_mem s (c_sent c) = true) l /\
  forall x, In x l <-> sm_mem x (c_sent c) = true /\ in_ranges x rs.
Proof.
  intros Hi Hwf E.
  destruct (collect_new_acks_spec (c_sent c) (asc_NoDup _ (ci_sent_sorted c Hi)) rs 0 Hwf) as (l' & El & Hnd & Hin).
  rewrite E in El. injection El as <-.
  assert (Hin' : forall x, In x l <-> sm_mem x (c_sent c) = true /\ in_ranges x rs)
    by (intros x; rewrite Hin; now rewrite (sm_mem_in x (c_sent c))).
  split; [exact Hnd|]. split; [|exact Hin']. rewrite Forall_forall. intros x Hx. now apply Hin'.
Qed.

Lemma process_ack_spec c rs l c' :
  conn_inv c -> ranges_wf 0 rs -> collect_new_acks rs (c_sent c) = Ok l -> apply_acks c l = Ok c' ->
  conn_inv c' /\ (forall k v, sm_find k (c_sent c') = Some v -> sm_find k (c_sent c) = Some v) /\
  (forall x, in_ranges x (c_acks c') -> in_ranges x (c_acks c)).
Proof.
  intros Hi Hwf El Ea. destruct (collect_new_acks_sent c rs l Hi Hwf El) as (Hnd & Hmem & _).
  exact (apply_acks_spec l c c' Hi Hnd Hmem Ea).
Qed.

Lemma packet_wf_ack_ranges sq rs : packet_wf (Ack sq rs) -> ranges_wf 0 rs.
Proof. cbn [packet_wf]. tauto. Qed.

Lemma process_parsed_safe c p : conn_inv c -> packet_wf p ->
  match process_parsed c p with Ok c' => conn_inv c' | Err _ => False | Panic _ => False end.
Proof.
  intros Hi Hwf. destruct p as [sq ch ms|sq ch ms|sq ch sl|sq ch sl|sq rs]; cbn [process_parsed].
  - destruct (sm_find ch (c_rr c)) as [r|] eqn:Hr; [|now apply inv_disconnect_with].
    pose proof (process_rel_msgs_safe ms r (inv_find_rr _ _ _ Hi Hr)) as H.
    destruct (process_rel_msgs r ms) as [r'|e|s]; [|now apply inv_disconnect_with|exact H].
    apply inv_with_rr; [exact Hi|exact H].
  - destruct (sm_find ch (c_ru c)) as [r|] eqn:Hr; [|now apply inv_disconnect_with].
    apply inv_with_ru; [exact Hi|]. apply process_unrel_msgs_safe. exact (inv_find_ru _ _ _ Hi Hr).
  - destruct (sm_find ch (c_rr c)) as [r|] eqn:Hr; [|now apply inv_disconnect_with].
    cbn [packet_wf] in Hwf. destruct Hwf as (_ & _ & Hsl).
    pose proof (RecvRelP.rr_process_slice_safe r sl (inv_find_rr _ _ _ Hi Hr) (slice_wf_decoded _ _ Hsl)) as H.
    destruct (rr_process_slice r sl) as [r'|e|s]; [|now apply inv_disconnect_with|exact H].
    apply inv_with_rr; [exact Hi|apply H].
  - destruct (sm_find ch (c_ru c)) as [r|] eqn:Hr; [|now apply inv_disconnect_with].
    cbn [packet_wf] in Hwf. destruct Hwf as (_ & _ & Hsl).
    pose proof (RecvUnrelP.ru_process_slice_safe (c_now c) r sl (inv_find_ru _ _ _ Hi Hr)
                  (slice_wf_decoded _ _ Hsl)) as H.
    destruct (ru_process_slice r sl (c_now c)) as [r'|e|s]; [|now apply inv_disconnect_with|exact H].
    apply inv_with_ru; [exact Hi|apply H].
  - pose proof (packet_wf_ack_ranges _ _ Hwf) as Hrs.
    destruct (collect_new_acks_spec _ (asc_NoDup _ (ci_sent_sorted _ Hi)) rs 0 Hrs) as (l & El & _).
    destruct (collect_new_acks_sent _ rs l Hi Hrs El) as (Hnd & Hmem & _). rewrite El. cbn [bind].
    destruct (apply_acks_ind (fun _ _ _ => True)) with (3 := Hi) (4 := Hnd) (5 := Hmem) as (c' & E' & _); [auto..|].
    rewrite E'. exact (proj1 (apply_acks_spec l c c' Hi Hnd Hmem E')).
Qed.

(* every constructor of parsed_step but the refusal is a run of process_parsed *)
Lemma parsed_step_keeps_inv c1 p c' : parsed_step c1 p c' -> conn_inv c1 -> packet_wf p -> conn_inv c'.
Proof.
  intros PS Hi Hwf. pose proof (process_parsed_safe c1 p Hi Hwf) as H.
  destruct PS as [p0 r0 _|sq ch ms r r' Hr Ep|sq ch ms r Hr|sq ch sl r r' Hr Ep|sq ch sl r r' Hr Ep|sq rs l c2 El Ea].
  - now apply inv_set_status.
  - cbn [process_parsed] in H. rewrite Hr, Ep in H. exact H.
  - cbn [process_parsed] in H. rewrite Hr in H. exact H.
  - cbn [process_parsed] in H. rewrite Hr, Ep in H. exact H.
  - cbn [process_parsed] in H. rewrite Hr, Ep in H. exact H.
  - cbn [process_parsed] in H. rewrite El in H. cbn [bind] in H. rewrite Ea in H. exact H.
Qed.

Lemma packet_wf_seq p : packet_wf p -> packet_seq p <= VARINT_MAX.
Proof. destruct p; cbn [packet_wf packet_seq]; tauto. Qed.

Lemma inv_add_pending_ack c s :
  conn_inv c -> s <= VARINT_MAX -> conn_inv (with_acks c (add_pending_ack (c_acks c) s)).
Proof.
  intros Hi Hs. apply inv_with_acks; [exact Hi| | |].
  - apply AcksP.add_pending_ack_wf, (ci_acks_wf c Hi).
  - apply AcksP.add_pending_ack_bound, (ci_acks_len c Hi).
  - apply AcksP.add_pending_ack_below; [apply (ci_acks_below c Hi)|lia].
Qed.

Lemma inv_note_seq c p : conn_inv c -> packet_wf p -> conn_inv (note_seq c (packet_seq p)).
Proof. intros Hi Hwf. apply inv_add_pending_ack; [exact Hi|now apply packet_wf_seq]. Qed.

Lemma note_seq_sound c sq x : conn_inv c -> in_ranges x (c_acks (note_seq c sq)) -> x = sq \/ in_ranges x (c_acks c).
Proof. intros Hi. exact (AcksP.add_pending_ack_sound _ _ _ (ci_acks_wf c Hi)). Qed.

Lemma process_packet_ok c bytes :
  conn_inv c -> (forall p, from_bytes bytes = Ok p -> packet_wf p) ->
  exists c', process_packet c bytes = Ok c' /\ conn_inv c'.
Proof.
  intros Hi Hb. unfold process_packet. destruct (is_disconnected c); [eauto|].
  pose proof (PacketP.from_bytes_no_panic bytes) as Hnp.
  destruct (from_bytes bytes) as [p|e|s]; [| |discriminate].
  2:{ eexists. split; [reflexivity|]. now apply inv_disconnect_with. }
  pose proof (Hb p eq_refl) as Hwf. fold (note_seq c (packet_seq p)).
  pose proof (process_parsed_safe _ p (inv_note_seq c p Hi Hwf) Hwf) as H.
  destruct (process_parsed (note_seq c (packet_seq p)) p) as [c'|e|s]; [eauto|contradiction|contradiction].
Qed.

Lemma process_packet_safe : forall c bytes,
  conn_inv c -> bytes_ok bytes -> exists c', process_packet c bytes = Ok c' /\ conn_inv c'.
Proof.
  intros c bytes Hi Hb.
  exact (process_packet_ok c bytes Hi (fun p => PacketP.from_bytes_wf bytes p Hb)).
Qed.

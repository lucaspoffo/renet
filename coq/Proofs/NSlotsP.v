(* NSlotsP.v - list-level facts used by the renetcode server proofs, on top of BaseP.v:
   addr_eqb, distinct_by / NoDup, slots (find_slot_by, first_free, upd, some_list,
   count_some) and the pending association list (pend_find / pend_put / pend_remove). *)
From RenetV Require Import Base Consts Aead NPacket Token NServer.
From RenetV Require Import Spec.NetSpec.
From RenetV Require Export Proofs.BaseP.
From RenetV Require Import Proofs.AeadP.
Require Import Lia ZifyBool ZifyN ZifyNat.
Open Scope N_scope.

Lemma len_takeN_le_len {A} n (l : list A) : len (takeN n l) <= len l.
Proof. rewrite len_takeN. lia. Qed.

Lemma addr_eqb_eq : forall a b, addr_eqb a b = true <-> a = b.
Proof.
  intros [i p|i p] [j q|j q]; unfold addr_eqb; split; intros H; try discriminate.
  - apply andb_true_iff in H. destruct H as [H1 H2].
    apply bytes_eqb_eq in H1. apply N.eqb_eq in H2. subst. reflexivity.
  - injection H as -> ->. rewrite bytes_eqb_refl, N.eqb_refl. reflexivity.
  - apply andb_true_iff in H. destruct H as [H1 H2].
    apply bytes_eqb_eq in H1. apply N.eqb_eq in H2. subst. reflexivity.
  - injection H as -> ->. rewrite bytes_eqb_refl, N.eqb_refl. reflexivity.
Qed.

Lemma addr_eqb_refl : forall a, addr_eqb a a = true.
Proof. intros a. apply addr_eqb_eq. reflexivity. Qed.

Lemma addr_eqb_neq : forall a b, addr_eqb a b = false <-> a <> b.
Proof.
  intros a b. split.
  - intros H E. apply addr_eqb_eq in E. congruence.
  - intros H. destruct (addr_eqb a b) eqn:E; [|reflexivity]. apply addr_eqb_eq in E. contradiction.
Qed.

Lemma addr_eqb_sym : forall a b, addr_eqb a b = addr_eqb b a.
Proof.
  intros a b. destruct (addr_eqb a b) eqn:E.
  - apply addr_eqb_eq in E. subst. symmetry. apply addr_eqb_refl.
  - symmetry. apply addr_eqb_neq. apply addr_eqb_neq in E. congruence.
Qed.

Lemma addr_eqb_trans : forall a b c, addr_eqb a b = true -> addr_eqb b c = true -> addr_eqb a c = true.
Proof. intros a b c H1 H2. apply addr_eqb_eq in H1. apply addr_eqb_eq in H2. apply addr_eqb_eq. congruence. Qed.

Lemma addr_eq_dec : forall a b : addr, {a = b} + {a <> b}.
Proof.
  intros a b. destruct (addr_eqb a b) eqn:E.
  - left. apply addr_eqb_eq. exact E.
  - right. apply addr_eqb_neq. exact E.
Qed.

Lemma distinct_by_NoDup {A} (eqb : A -> A -> bool) :
  (forall x y, eqb x y = true <-> x = y) ->
  forall l, distinct_by eqb l <-> NoDup l.
Proof.
  intros R l. induction l as [|x l IH]; cbn [distinct_by].
  - split; intros _; [constructor | exact I].
  - rewrite IH. split.
    + intros [H1 H2]. constructor; [|exact H2].
      intros Hin. specialize (H1 _ Hin).
      assert (eqb x x = true) by (apply R; reflexivity). congruence.
    + intros H. inversion H as [|? ? Hn Hd]; subst. split; [|exact Hd].
      intros y Hy. destruct (eqb x y) eqn:E; [|reflexivity].
      apply R in E. subst. contradiction.
Qed.

Lemma NoDup_insert {A} (a : A) l1 l2 : NoDup (l1 ++ l2) -> ~ In a (l1 ++ l2) -> NoDup (l1 ++ a :: l2).
Proof.
  intros H1 H2. apply (proj2 (NoDup_Add (Add_app a l1 l2))). split; assumption.
Qed.

Lemma NoDup_map_filter {A B} (f : A -> B) (p : A -> bool) l :
  NoDup (map f l) -> NoDup (map f (filter p l)).
Proof.
  induction l as [|x l IH]; cbn [map filter]; intros H; [constructor|].
  inversion H as [|? ? Hn Hd]; subst.
  destruct (p x); cbn [map]; [|auto].
  constructor; [|auto]. intros Hin. apply Hn.
  apply in_map_iff in Hin. destruct Hin as [y [Hy1 Hy2]]. apply filter_In in Hy2.
  apply in_map_iff. exists y. tauto.
Qed.

Lemma upd_out {A} (l : list A) i x : (length l <= i)%nat -> upd l i x = l.
Proof.
  revert i. induction l as [|y l IH]; intros [|i] H; cbn [upd length] in *; try reflexivity; try lia.
  rewrite IH; [reflexivity | lia].
Qed.

Lemma some_list_app {A} (l1 l2 : list (option A)) : some_list (l1 ++ l2) = some_list l1 ++ some_list l2.
Proof.
  induction l1 as [|[x|] l1 IH]; cbn [app some_list]; [reflexivity | rewrite IH; reflexivity | exact IH].
Qed.

Lemma some_list_repeat_none {A} n : some_list (repeatN (@None A) n) = [].
Proof. induction n; cbn [repeatN some_list]; auto. Qed.

Lemma some_list_In {A} (l : list (option A)) x : In x (some_list l) <-> In (Some x) l.
Proof.
  induction l as [|[y|] l IH]; cbn [some_list In].
  - tauto.
  - rewrite IH. split; intros [H|H]; auto; left; congruence.
  - rewrite IH. split; [auto|]. intros [H|H]; [discriminate|auto].
Qed.

Lemma count_some_len {A} (l : list (option A)) : count_some l = len (some_list l).
Proof.
  unfold count_some. induction l as [|[x|] l IH]; cbn [filter some_list].
  - reflexivity.
  - rewrite !len_cons, IH. reflexivity.
  - exact IH.
Qed.

Lemma count_some_le {A} (l : list (option A)) : count_some l <= len l.
Proof.
  rewrite count_some_len. induction l as [|[x|] l IH]; cbn [some_list]; rewrite ?len_cons, ?len_nil; try rewrite len_cons; lia.
Qed.

Lemma count_some_cons_some {A} (x : A) l : count_some (Some x :: l) = 1 + count_some l.
Proof. rewrite !count_some_len. cbn [some_list]. apply len_cons. Qed.

Lemma count_some_cons_none {A} (l : list (option A)) : count_some (None :: l) = count_some l.
Proof. rewrite !count_some_len. reflexivity. Qed.

Lemma find_slot_by_none f cl i :
  find_slot_by f cl i = None <-> (forall c, In c (some_list cl) -> f c = false).
Proof.
  revert i. induction cl as [|[c|] cl IH]; intros i; cbn [find_slot_by some_list].
  - split; [intros _ c []|reflexivity].
  - destruct (f c) eqn:E.
    + split; [discriminate|]. intros H. specialize (H c (or_introl eq_refl)). congruence.
    + rewrite IH. split.
      * intros H c' [<-|Hc]; auto.
      * intros H c' Hc. apply H. right. exact Hc.
  - apply IH.
Qed.

Lemma find_slot_by_some f cl i j c :
  find_slot_by f cl i = Some (j, c) ->
  exists l1 l2, cl = l1 ++ Some c :: l2 /\ j = i + len l1 /\ f c = true /\
                (forall c', In c' (some_list l1) -> f c' = false).
Proof.
  revert i. induction cl as [|[c0|] cl IH]; intros i H; cbn [find_slot_by] in H.
  - discriminate.
  - destruct (f c0) eqn:E.
    + injection H as <- <-. exists [], cl. rewrite len_nil. repeat split; auto; try lia. intros c' [].
    + destruct (IH _ H) as [l1 [l2 [E1 [E2 [E3 E4]]]]]. exists (Some c0 :: l1), l2.
      subst. rewrite len_cons. repeat split; auto; try lia.
      intros c' [<-|Hc]; auto.
  - destruct (IH _ H) as [l1 [l2 [E1 [E2 [E3 E4]]]]]. exists (None :: l1), l2.
    subst. rewrite len_cons. repeat split; auto; try lia.
Qed.

Lemma find_slot_by_mid f l1 c l2 i :
  f c = true -> (forall c', In c' (some_list l1) -> f c' = false) ->
  find_slot_by f (l1 ++ Some c :: l2) i = Some (i + len l1, c).
Proof.
  revert i. induction l1 as [|[c0|] l1 IH]; intros i Hc Hl; cbn [app find_slot_by].
  - rewrite Hc, len_nil. f_equal. f_equal. lia.
  - rewrite (Hl c0) by (left; reflexivity). rewrite IH; auto.
    + rewrite len_cons. f_equal. f_equal. lia.
    + intros c' Hc'. apply Hl. right. exact Hc'.
  - rewrite IH; auto. rewrite len_cons. f_equal. f_equal. lia.
Qed.

Lemma find_slot_by_In f cl i j c : find_slot_by f cl i = Some (j, c) -> In c (some_list cl) /\ f c = true.
Proof.
  intros H. destruct (find_slot_by_some _ _ _ _ _ H) as [l1 [l2 [E1 [E2 [E3 E4]]]]]. subst.
  split; [|exact E3]. rewrite some_list_app. apply in_or_app. right. left. reflexivity.
Qed.

Lemma find_slot_by_is_some f cl i :
  (exists c, In c (some_list cl) /\ f c = true) -> exists j c, find_slot_by f cl i = Some (j, c).
Proof.
  intros [c [H1 H2]]. destruct (find_slot_by f cl i) as [[j c']|] eqn:E; [eauto|].
  rewrite find_slot_by_none in E. rewrite (E _ H1) in H2. discriminate.
Qed.

Lemma find_slot_by_app_none f cl n i :
  find_slot_by f (cl ++ repeatN None n) i = find_slot_by f cl i.
Proof.
  revert i. induction cl as [|[c|] cl IH]; intros i; cbn [app find_slot_by].
  - revert i. induction n as [|n IHn]; intros i; cbn [repeatN find_slot_by]; auto.
  - destruct (f c); auto.
  - auto.
Qed.

Lemma first_free_some cl i j :
  first_free cl i = Some j -> exists l1 l2, cl = l1 ++ None :: l2 /\ j = i + len l1.
Proof.
  revert i. induction cl as [|[c|] cl IH]; intros i H; cbn [first_free] in H.
  - discriminate.
  - destruct (IH _ H) as [l1 [l2 [E1 E2]]]. exists (Some c :: l1), l2. subst. rewrite len_cons.
    split; [reflexivity | lia].
  - injection H as <-. exists [], cl. rewrite len_nil. split; [reflexivity | lia].
Qed.

Lemma first_free_none cl i : first_free cl i = None -> count_some cl = len cl.
Proof.
  revert i. induction cl as [|[c|] cl IH]; intros i H; cbn [first_free] in H.
  - reflexivity.
  - rewrite count_some_cons_some, len_cons, (IH _ H). reflexivity.
  - discriminate.
Qed.

Lemma first_free_full cl i : count_some cl = len cl -> first_free cl i = None.
Proof.
  revert i. induction cl as [|[c|] cl IH]; intros i H; cbn [first_free].
  - reflexivity.
  - apply IH. rewrite count_some_cons_some, len_cons in H. lia.
  - rewrite count_some_cons_none, len_cons in H. pose proof (count_some_le cl). lia.
Qed.

Lemma pend_find_In a p c : pend_find a p = Some c -> In (a, c) p.
Proof.
  induction p as [|[a' c'] p IH]; cbn [pend_find]; intros H; [discriminate|].
  destruct (addr_eqb a a') eqn:E.
  - apply addr_eqb_eq in E. injection H as ->. subst. left. reflexivity.
  - right. auto.
Qed.

Lemma pend_find_none a p : pend_find a p = None <-> ~ In a (map fst p).
Proof.
  induction p as [|[a' c'] p IH]; cbn [pend_find map fst In].
  - tauto.
  - destruct (addr_eqb a a') eqn:E.
    + apply addr_eqb_eq in E. subst. split; [discriminate|]. intros H. exfalso. apply H. left. reflexivity.
    + apply addr_eqb_neq in E. rewrite IH. split; intros H; [intros [H1|H1]; [congruence|auto] | auto].
Qed.

Lemma pend_find_In_nodup a p c : NoDup (map fst p) -> In (a, c) p -> pend_find a p = Some c.
Proof.
  induction p as [|[a' c'] p IH]; cbn [pend_find map fst In]; intros Hd H; [contradiction|].
  inversion Hd as [|? ? Hn Hd']; subst.
  destruct H as [H|H].
  - injection H as -> ->. rewrite addr_eqb_refl. reflexivity.
  - destruct (addr_eqb a a') eqn:E.
    + apply addr_eqb_eq in E. subst. exfalso. apply Hn. apply in_map_iff. exists (a', c). auto.
    + auto.
Qed.

Lemma pend_find_filter (f : addr * nconn -> bool) a p :
  (forall c, pend_find a p = Some c -> f (a, c) = true) -> pend_find a (filter f p) = pend_find a p.
Proof.
  induction p as [|[a' c'] p IH]; intros H; [reflexivity|]. cbn [filter pend_find] in *.
  destruct (addr_eqb a a') eqn:E.
  - pose proof E as E'. apply addr_eqb_eq in E'. subst a'. rewrite (H c' eq_refl). cbn [pend_find]. rewrite E. reflexivity.
  - destruct (f (a', c')); [cbn [pend_find]; rewrite E|]; apply IH; exact H.
Qed.

Lemma pend_put_found_keys a c p c0 :
  pend_find a p = Some c0 -> map fst (pend_put a c p) = map fst p.
Proof.
  intros H. unfold pend_put. rewrite H. rewrite map_map. apply map_ext.
  intros [a' c']. cbn [fst]. destruct (addr_eqb a a'); reflexivity.
Qed.

Lemma pend_put_found_In a c p c0 x :
  pend_find a p = Some c0 -> In x (pend_put a c p) -> x = (a, c) \/ (In x p /\ fst x <> a).
Proof.
  intros H. unfold pend_put. rewrite H. intros Hin. apply in_map_iff in Hin.
  destruct Hin as [[a' c'] [E Hin]]. cbn [fst] in E.
  destruct (addr_eqb a a') eqn:Ea.
  - apply addr_eqb_eq in Ea. subst. left. reflexivity.
  - apply addr_eqb_neq in Ea. subst. right. split; [exact Hin|]. cbn [fst]. congruence.
Qed.

Lemma pend_put_new a c p : pend_find a p = None -> pend_put a c p = p ++ [(a, c)].
Proof. intros H. unfold pend_put. rewrite H. reflexivity. Qed.

Lemma pend_put_find a c p : pend_find a (pend_put a c p) = Some c.
Proof.
  unfold pend_put. destruct (pend_find a p) eqn:E.
  - induction p as [|[a' c'] p IH]; cbn [pend_find] in E; [discriminate|].
    cbn [map fst]. destruct (addr_eqb a a') eqn:Ea; cbn [pend_find fst]; rewrite Ea; auto.
  - induction p as [|[a' c'] p IH]; cbn [pend_find app] in *.
    + rewrite addr_eqb_refl. reflexivity.
    + destruct (addr_eqb a a'); [discriminate|auto].
Qed.

Lemma pend_remove_In a p x : In x (pend_remove a p) -> In x p.
Proof.
  induction p as [|[a' c'] p IH]; cbn [pend_remove]; intros H; [contradiction|].
  destruct (addr_eqb a a'); [right; exact H|].
  destruct H as [H|H]; [left; exact H | right; auto].
Qed.

Lemma pend_remove_keys a p :
  NoDup (map fst p) -> NoDup (map fst (pend_remove a p)) /\ ~ In a (map fst (pend_remove a p)).
Proof.
  induction p as [|[a' c'] p IH]; cbn [pend_remove map fst]; intros H.
  - split; [constructor | intros []].
  - inversion H as [|? ? Hn Hd]; subst. destruct (addr_eqb a a') eqn:E.
    + apply addr_eqb_eq in E. subst. split; assumption.
    + apply addr_eqb_neq in E. destruct (IH Hd) as [I1 I2]. cbn [map fst]. split.
      * constructor; [|exact I1]. intros Hin. apply Hn.
        apply in_map_iff in Hin. destruct Hin as [x [E1 E2]]. apply pend_remove_In in E2.
        apply in_map_iff. exists x. auto.
      * intros [H1|H1]; [congruence | auto].
Qed.

Lemma pend_remove_absent a p : pend_find a p = None -> pend_remove a p = p.
Proof.
  induction p as [|[a' c'] p IH]; cbn [pend_find pend_remove]; intros H; [reflexivity|].
  destruct (addr_eqb a a'); [discriminate|]. rewrite IH; auto.
Qed.

Lemma pend_remove_len a p : len (pend_remove a p) <= len p.
Proof.
  induction p as [|[a' c'] p IH]; cbn [pend_remove]; [lia|].
  destruct (addr_eqb a a'); rewrite ?len_cons; try rewrite len_cons; lia.
Qed.

Lemma pend_put_In a c p x : In x (pend_put a c p) -> x = (a, c) \/ In x p.
Proof.
  destruct (pend_find a p) as [c0|] eqn:E.
  - intros H. destruct (pend_put_found_In _ _ _ _ _ E H) as [H1|[H1 _]]; auto.
  - rewrite (pend_put_new _ _ _ E). intros H. apply in_app_or in H. destruct H as [H|[H|[]]]; auto.
Qed.

Lemma map_id_off_key a (g : addr * nconn -> addr * nconn) (p : list (addr * nconn)) :
  ~ In a (map fst p) -> map (fun ac => if addr_eqb a (fst ac) then g ac else ac) p = p.
Proof.
  induction p as [|[a' c'] t IH]; intros Hn; cbn [map fst] in *; [reflexivity|].
  destruct (addr_eqb a a') eqn:E.
  - exfalso. apply addr_eqb_eq in E. apply Hn. left. auto.
  - rewrite IH; [reflexivity|]. intros Hin. apply Hn. right. exact Hin.
Qed.

Lemma pend_put_same a pc p : NoDup (map fst p) -> pend_find a p = Some pc -> pend_put a pc p = p.
Proof.
  intros Hd Hf. unfold pend_put. rewrite Hf.
  induction p as [|[a' c'] t IH]; [reflexivity|].
  cbn [map fst] in *. inversion Hd as [|x l Hni Hd']; subst.
  cbn [pend_find] in Hf. destruct (addr_eqb a a') eqn:E.
  - injection Hf as ->. apply addr_eqb_eq in E. subst a'.
    rewrite (map_id_off_key a (fun ac => (fst ac, pc)) t Hni). reflexivity.
  - rewrite (IH Hd' Hf). reflexivity.
Qed.


(* ConnBaseP.v - helpers for the connection-level proofs: sorted-map facts, numeric facts about
   the constants, frame lemmas for the connection invariant, and conn_new_cases (construction). *)
From RenetV Require Import Base Consts Varint Packet Channels Conn.
From RenetV Require Import CodecSpec RecvSpec SendSpec ConnSpec ConnInvSpec.
From RenetV Require Import SMapP BaseP.
From RenetV Require RecvRelP RecvUnrelP SendRelP SendUnrelP.
Require Import Lia ZifyBool ZifyN ZifyNat.
Open Scope N_scope.

Local Opaque SLICE_SIZE MAX_ACK_RANGES SER_BUFFER NC_MAX_PAYLOAD_BYTES DISCARD_PACKET_SECS VARINT_MAX.

Lemma bind_ok {E A B} (r : res E A) (f : A -> res E B) b :
  bind r f = Ok b -> exists a, r = Ok a /\ f a = Ok b.
Proof. apply BaseP.bind_ok. Qed.

Lemma never_elim {A} (e : never) : A.
Proof. destruct e. Qed.

Lemma lift_ok {A} (r : cres A) a : r = Ok a -> lift r = Ok a.
Proof. intros ->. reflexivity. Qed.

Lemma lift_ok_inv {A} (r : cres A) a : lift r = Ok a -> r = Ok a.
Proof. destruct r; cbn [lift]; intros H; try discriminate. congruence. Qed.

Section MoreSMap.
  Context {V : Type}.
  Implicit Types (m : list (N * V)) (k : N) (v : V).

  Lemma sm_find_remove_some k k' v m :
    asc (map fst m) -> sm_find k (sm_remove k' m) = Some v -> k <> k' /\ sm_find k m = Some v.
  Proof.
    intros Hs H. rewrite sm_find_remove in H by exact Hs.
    destruct (N.eqb_spec k k'); [discriminate|]. auto.
  Qed.

  Lemma sm_mem_insert_mono k k' v m : sm_mem k m = true -> sm_mem k (sm_insert k' v m) = true.
  Proof. intros H. rewrite sm_mem_insert, H. apply orb_true_r. Qed.

  Lemma sm_keys_insert_present k v v0 m :
    asc (map fst m) -> sm_find k m = Some v0 -> map fst (sm_insert k v m) = map fst m.
  Proof. exact (sm_insert_present_keys k v v0 m). Qed.
End MoreSMap.

Lemma Forall_impl_in {A} (P Q : A -> Prop) l :
  (forall x, In x l -> P x -> Q x) -> Forall P l -> Forall Q l.
Proof.
  intros H F. rewrite Forall_forall in *. auto.
Qed.

Lemma SER_BUFFER_value : SER_BUFFER = 1400.
Proof. reflexivity. Qed.
Lemma NC_MAX_PAYLOAD_BYTES_value : NC_MAX_PAYLOAD_BYTES = 1300.
Proof. reflexivity. Qed.
Lemma SLICE_SIZE_value : SLICE_SIZE = 1200.
Proof. reflexivity. Qed.
Lemma MAX_ACK_RANGES_value : MAX_ACK_RANGES = 64.
Proof. reflexivity. Qed.

Lemma payload_le_buffer : NC_MAX_PAYLOAD_BYTES <= SER_BUFFER.
Proof. rewrite NC_MAX_PAYLOAD_BYTES_value, SER_BUFFER_value. lia. Qed.

(* header + body of a SmallReliable packet *)
Lemma small_reliable_fits : 1 + 8 + 1 + 2 + (SLICE_SIZE + 16) <= NC_MAX_PAYLOAD_BYTES.
Proof. rewrite SLICE_SIZE_value, NC_MAX_PAYLOAD_BYTES_value. lia. Qed.
Lemma small_unreliable_fits : 1 + 8 + 1 + 2 + (SLICE_SIZE + 8) <= NC_MAX_PAYLOAD_BYTES.
Proof. rewrite SLICE_SIZE_value, NC_MAX_PAYLOAD_BYTES_value. lia. Qed.
(* header + four varints + payload of a slice packet *)
Lemma slice_fits : 1 + 8 + 1 + 8 + 8 + 8 + 8 + SLICE_SIZE <= NC_MAX_PAYLOAD_BYTES.
Proof. rewrite SLICE_SIZE_value, NC_MAX_PAYLOAD_BYTES_value. lia. Qed.
Lemma ack_fits : 1 + 8 + 8 + 8 + 8 + 16 * (MAX_ACK_RANGES - 1) <= NC_MAX_PAYLOAD_BYTES.
Proof. rewrite MAX_ACK_RANGES_value, NC_MAX_PAYLOAD_BYTES_value. lia. Qed.

Lemma inv_set_status c st : conn_inv c -> conn_inv (set_status c st).
Proof. intros [S1 S2 S3 S4 S5 Isr Isu Irr Iru Iord A1 A2 A3 Isent]. constructor; assumption. Qed.

Lemma inv_disconnect_with c r : conn_inv c -> conn_inv (disconnect_with c r).
Proof. intros Hi. unfold disconnect_with. destruct (is_disconnected c); [exact Hi | now apply inv_set_status]. Qed.

Lemma inv_with_acks c a :
  conn_inv c -> ranges_wf 0 a -> len a <= MAX_ACK_RANGES -> ranges_below (VARINT_MAX + 1) a ->
  conn_inv (with_acks c a).
Proof. intros [S1 S2 S3 S4 S5 Isr Isu Irr Iru Iord A1 A2 A3 Isent] H1 H2 H3. constructor; assumption. Qed.

Lemma inv_with_seq c q : conn_inv c -> c_seq c <= q -> conn_inv (with_seq c q).
Proof.
  intros [S1 S2 S3 S4 S5 Isr Isu Irr Iru Iord A1 A2 A3 Isent] Hq. constructor; try assumption.
  cbn [with_seq c_sent c_seq c_now c_sr].
  eapply Forall_impl; [|exact Isent]. intros e (H1 & H2). split; [lia|exact H2].
Qed.

Lemma inv_with_rr c ch r : conn_inv c -> rr_inv r -> conn_inv (with_rr c (sm_insert ch r (c_rr c))).
Proof.
  intros [S1 S2 S3 S4 S5 Isr Isu Irr Iru Iord A1 A2 A3 Isent] Hr. constructor; try assumption; cbn [with_rr c_rr].
  - apply asc_sm_insert. assumption.
  - apply Forall_sm_insert; assumption.
Qed.

Lemma inv_with_ru c ch r :
  conn_inv c -> ru_inv (c_now c) r -> conn_inv (with_ru c (sm_insert ch r (c_ru c))).
Proof.
  intros [S1 S2 S3 S4 S5 Isr Isu Irr Iru Iord A1 A2 A3 Isent] Hr.
  constructor; try assumption; cbn [with_ru c_ru c_now].
  - apply asc_sm_insert. assumption.
  - apply Forall_sm_insert; assumption.
Qed.

Lemma order_ok_insert_sr sr su k v e : order_ok sr su e -> order_ok (sm_insert k v sr) su e.
Proof. unfold order_ok. destruct (fst e); auto using sm_mem_insert_mono. Qed.

Lemma order_ok_insert_su sr su k v e : order_ok sr su e -> order_ok sr (sm_insert k v su) e.
Proof. unfold order_ok. destruct (fst e); auto using sm_mem_insert_mono. Qed.

Lemma inv_with_su c ch s :
  conn_inv c -> su_inv s -> su_ch s = ch -> conn_inv (with_su c (sm_insert ch s (c_su c))).
Proof.
  intros [S1 S2 S3 S4 S5 Isr Isu Irr Iru Iord A1 A2 A3 Isent] Hs Hch.
  constructor; try assumption; cbn [with_su c_su c_sr c_order].
  - apply asc_sm_insert. assumption.
  - apply Forall_sm_insert; [split; assumption|assumption].
  - eapply Forall_impl; [|exact Iord]. intros e. apply order_ok_insert_su.
Qed.

Definition kind_stable (s s' : send_rel) : Prop :=
  sr_next_id s <= sr_next_id s' /\
  forall id, id < sr_next_id s -> kind_of s' id = kind_of s id \/ kind_of s' id = None.

Lemma kind_stable_refl s : kind_stable s s.
Proof. split; [lia|auto]. Qed.

Lemma kind_stable_trans s1 s2 s3 : kind_stable s1 s2 -> kind_stable s2 s3 -> kind_stable s1 s3.
Proof.
  intros [A1 A2] [B1 B2]. split; [lia|]. intros id Hid.
  destruct (A2 id Hid) as [E|E], (B2 id ltac:(lia)) as [F|F]; rewrite ?F, ?E; auto.
Qed.

Lemma id_small_ok_stable s s' id : kind_stable s s' -> id_small_ok s id -> id_small_ok s' id.
Proof.
  intros [A1 A2] [H1 H2]. split; [lia|].
  destruct (A2 id H1) as [E|E]; rewrite E; auto.
Qed.

Lemma id_slice_ok_stable s s' id idx : kind_stable s s' -> id_slice_ok s id idx -> id_slice_ok s' id idx.
Proof.
  intros [A1 A2] [H1 H2]. split; [lia|].
  destruct (A2 id H1) as [E|E]; rewrite E; auto.
Qed.

Lemma sent_info_ok_update sr ch s s' i :
  sm_find ch sr = Some s -> kind_stable s s' ->
  sent_info_ok sr i -> sent_info_ok (sm_insert ch s' sr) i.
Proof.
  intros Hf Hk. destruct i as [|c ids|c id idx|l]; cbn [sent_info_ok]; auto.
  - intros (s0 & Hs0 & Hids). rewrite sm_find_insert.
    destruct (N.eqb_spec c ch) as [->|Hne]; [|eauto].
    exists s'. split; [reflexivity|]. rewrite Hf in Hs0. inversion Hs0; subst s0.
    eapply Forall_impl; [|exact Hids]. intros id. now apply id_small_ok_stable.
  - intros (s0 & Hs0 & Hid). rewrite sm_find_insert.
    destruct (N.eqb_spec c ch) as [->|Hne]; [|eauto].
    exists s'. split; [reflexivity|]. rewrite Hf in Hs0. inversion Hs0; subst s0.
    now apply (id_slice_ok_stable s).
Qed.

Lemma inv_with_sr c ch s s' :
  conn_inv c -> sm_find ch (c_sr c) = Some s ->
  sr_inv (c_now c) s' -> sr_ch s' = ch -> kind_stable s s' ->
  conn_inv (with_sr c (sm_insert ch s' (c_sr c))).
Proof.
  intros [S1 S2 S3 S4 S5 Isr Isu Irr Iru Iord A1 A2 A3 Isent] Hf Hs Hch Hk.
  constructor; try assumption; cbn [with_sr c_sr c_su c_order c_sent c_now c_seq].
  - apply asc_sm_insert. assumption.
  - apply Forall_sm_insert; [split; assumption|assumption].
  - eapply Forall_impl; [|exact Iord]. intros e. apply order_ok_insert_sr.
  - eapply Forall_impl; [|exact Isent]. intros e (H1 & H2 & H3).
    split; [exact H1|]. split; [exact H2|]. eapply sent_info_ok_update; eauto.
Qed.

Lemma inv_with_sent c sent :
  conn_inv c -> sorted_keys sent ->
  Forall (fun e => fst e < c_seq c /\ fst (snd e) <= c_now c /\ sent_info_ok (c_sr c) (snd (snd e))) sent ->
  conn_inv (with_sent c sent).
Proof. intros [S1 S2 S3 S4 S5 Isr Isu Irr Iru Iord A1 A2 A3 Isent] H1 H2. constructor; assumption. Qed.

Lemma inv_find_sr c ch s : conn_inv c -> sm_find ch (c_sr c) = Some s -> sr_inv (c_now c) s /\ sr_ch s = ch.
Proof. intros Hi Hf. exact (Forall_sm_find _ _ _ _ (ci_sr c Hi) Hf). Qed.

Lemma inv_find_su c ch s : conn_inv c -> sm_find ch (c_su c) = Some s -> su_inv s /\ su_ch s = ch.
Proof. intros Hi Hf. exact (Forall_sm_find _ _ _ _ (ci_su c Hi) Hf). Qed.

Lemma inv_find_rr c ch r : conn_inv c -> sm_find ch (c_rr c) = Some r -> rr_inv r.
Proof. intros Hi Hf. exact (Forall_sm_find _ _ _ _ (ci_rr c Hi) Hf). Qed.

Lemma inv_find_ru c ch r : conn_inv c -> sm_find ch (c_ru c) = Some r -> ru_inv (c_now c) r.
Proof. intros Hi Hf. exact (Forall_sm_find _ _ _ _ (ci_ru c Hi) Hf). Qed.

Lemma inv_find_sent c seq t i :
  conn_inv c -> sm_find seq (c_sent c) = Some (t, i) ->
  seq < c_seq c /\ t <= c_now c /\ sent_info_ok (c_sr c) i.
Proof. intros Hi Hf. exact (Forall_sm_find _ _ _ _ (ci_sent c Hi) Hf). Qed.

Definition send_maps_ok (su : list (N * send_unrel)) (sr : list (N * send_rel)) (ord : list (bool * N)) : Prop :=
  sorted_keys su /\ sorted_keys sr /\
  Forall (fun e => su_inv (snd e) /\ su_ch (snd e) = fst e) su /\
  Forall (fun e => sr_inv 0 (snd e) /\ sr_ch (snd e) = fst e) sr /\
  Forall (order_ok sr su) ord.

(* with it the two reliable cases of build_send are one *)
Definition cc_rel (cfg : chan_config) : option N :=
  match cc_type cfg with TUnreliable => None | TReliableOrdered rt | TReliableUnordered rt => Some rt end.

Lemma build_send_cons cfg t su sr ord :
  build_send (cfg :: t) su sr ord =
  match cc_rel cfg with
  | None => if sm_mem (cc_id cfg) su then Panic SITE_DUP_CHANNEL
            else build_send t (sm_insert (cc_id cfg) (send_unrel_new (cc_id cfg) (cc_max cfg)) su) sr
                            (ord ++ [(false, cc_id cfg)])
  | Some rt => if sm_mem (cc_id cfg) sr then Panic SITE_DUP_CHANNEL
               else build_send t su (sm_insert (cc_id cfg) (send_rel_new (cc_id cfg) rt (cc_max cfg)) sr)
                               (ord ++ [(true, cc_id cfg)])
  end.
Proof. unfold cc_rel. cbn [build_send]. destruct (cc_type cfg); reflexivity. Qed.

Lemma build_send_inv cfgs : forall su sr ord, send_maps_ok su sr ord ->
  match build_send cfgs su sr ord with
  | Ok (su', sr', ord') => send_maps_ok su' sr' ord'
  | Err _ => False
  | Panic site => site = SITE_DUP_CHANNEL
  end.
Proof.
  induction cfgs as [|cfg t IH]; intros su sr ord H; [exact H|].
  destruct H as (H1 & H2 & H3 & H4 & H5). rewrite build_send_cons. destruct (cc_rel cfg) as [rt|].
  - destruct (sm_mem (cc_id cfg) sr) eqn:Hm; [reflexivity|]. apply IH.
    repeat split; auto.
    + apply asc_sm_insert. exact H2.
    + apply Forall_sm_insert; [|exact H4]. split; [apply SendRelP.sr_inv_init|reflexivity].
    + apply Forall_app. split.
      * eapply Forall_impl; [|exact H5]. intros e. apply order_ok_insert_sr.
      * constructor; [|constructor]. unfold order_ok. cbn [fst snd].
        rewrite sm_mem_insert, N.eqb_refl. reflexivity.
  - destruct (sm_mem (cc_id cfg) su) eqn:Hm; [reflexivity|]. apply IH.
    repeat split; auto.
    + apply asc_sm_insert. exact H1.
    + apply Forall_sm_insert; [|exact H3]. split; [apply SendUnrelP.su_inv_init|reflexivity].
    + apply Forall_app. split.
      * eapply Forall_impl; [|exact H5]. intros e. apply order_ok_insert_su.
      * constructor; [|constructor]. unfold order_ok. cbn [fst snd].
        rewrite sm_mem_insert, N.eqb_refl. reflexivity.
Qed.

Definition recv_maps_ok (ru : list (N * recv_unrel)) (rr : list (N * recv_rel)) : Prop :=
  sorted_keys ru /\ sorted_keys rr /\
  Forall (fun e => ru_inv 0 (snd e)) ru /\ Forall (fun e => rr_inv (snd e)) rr.

(* likewise for build_recv, where the two reliable kinds differ in the flag only *)
Definition cc_ord (cfg : chan_config) : option bool :=
  match cc_type cfg with
  | TUnreliable => None | TReliableOrdered _ => Some true | TReliableUnordered _ => Some false
  end.

Lemma build_recv_cons cfg t ru rr :
  build_recv (cfg :: t) ru rr =
  match cc_ord cfg with
  | None => if sm_mem (cc_id cfg) ru then Panic SITE_DUP_CHANNEL
            else build_recv t (sm_insert (cc_id cfg) (recv_unrel_new (cc_max cfg)) ru) rr
  | Some o => if sm_mem (cc_id cfg) rr then Panic SITE_DUP_CHANNEL
              else build_recv t ru (sm_insert (cc_id cfg) (recv_rel_new (cc_max cfg) o) rr)
  end.
Proof. unfold cc_ord. cbn [build_recv]. destruct (cc_type cfg); reflexivity. Qed.

Lemma build_recv_inv cfgs : forall ru rr, recv_maps_ok ru rr ->
  match build_recv cfgs ru rr with
  | Ok (ru', rr') => recv_maps_ok ru' rr'
  | Err _ => False
  | Panic site => site = SITE_DUP_CHANNEL
  end.
Proof.
  induction cfgs as [|cfg t IH]; intros ru rr H; [exact H|].
  destruct H as (H1 & H2 & H3 & H4). rewrite build_recv_cons. destruct (cc_ord cfg) as [o|].
  - destruct (sm_mem (cc_id cfg) rr) eqn:Hm; [reflexivity|]. apply IH.
    repeat split; auto.
    + apply asc_sm_insert. exact H2.
    + apply Forall_sm_insert; [|exact H4]. apply RecvRelP.rr_inv_init.
  - destruct (sm_mem (cc_id cfg) ru) eqn:Hm; [reflexivity|]. apply IH.
    repeat split; auto.
    + apply asc_sm_insert. exact H1.
    + apply Forall_sm_insert; [|exact H3]. apply RecvUnrelP.ru_inv_init.
Qed.

Lemma conn_new_cases budget scfg rcfg :
  match conn_new budget scfg rcfg with
  | Ok c => conn_inv c /\ c_seq c = 0 /\ c_now c = 0 /\ c_sent c = [] /\ c_acks c = [] /\
            c_budget c = budget /\ c_status c = Connecting
  | Err _ => False
  | Panic site => site = SITE_DUP_CHANNEL
  end.
Proof.
  unfold conn_new.
  pose proof (build_send_inv scfg [] [] []) as HS.
  destruct (build_send scfg [] [] []) as [[[su sr] ord]|e|site]; cbn [bind].
  2:{ destruct e. }
  2:{ apply HS. repeat split; constructor. }
  pose proof (build_recv_inv rcfg [] []) as HR.
  destruct (build_recv rcfg [] []) as [[ru rr]|e|site]; cbn [bind].
  2:{ destruct e. }
  2:{ apply HR. repeat split; constructor. }
  destruct HS as (S1 & S2 & S3 & S4 & S5); [repeat split; constructor|].
  destruct HR as (R1 & R2 & R3 & R4); [repeat split; constructor|].
  split; [|repeat split].
  constructor; cbn [c_sr c_su c_rr c_ru c_sent c_now c_order c_acks c_seq]; auto;
    try constructor.
  rewrite len_nil. lia.
Qed.

Lemma conn_new_send budget scfg rcfg c :
  conn_new budget scfg rcfg = Ok c -> build_send scfg [] [] [] = Ok (c_su c, c_sr c, c_order c).
Proof.
  unfold conn_new. intros E.
  destruct (build_send scfg [] [] []) as [[[su sr] ord]| |]; cbn [bind] in E; try discriminate.
  destruct (build_recv rcfg [] []) as [[ru rr]| |]; cbn [bind] in E; try discriminate. now injection E as <-.
Qed.

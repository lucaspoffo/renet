(* RSysStepP.v - connection-level facts the system proofs need beyond ConnP.v: what exactly the
   gathering round of a flush emits (relative to the static contents of the send channels); what one step
   of the two-endpoint system is (sys_step_kind, sys_step_inv) and what an API call adds to the logs
   (sent_upd, got_upd). *)
From RenetV Require Import Base Consts Varint Packet Channels Conn.
From RenetV Require Import CodecSpec RecvSpec SendSpec ConnSpec ConnInvSpec RSysSpec RSysInvSpec.
From RenetV Require Import SMapP ConnBaseP ConnProcP ConnFlushP ConnP RSysBaseP.
From RenetV Require SendRelP SendUnrelP.
Require Import Lia.
Open Scope N_scope.

Local Opaque SLICE_SIZE.

Import SendRelP(st_of, pkt_ok, packed).

(* the reliable send channels keep their static contents: ids, messages, kinds, acked flags *)
Definition sr_static (sr sr' : list (N * send_rel)) : Prop :=
  forall ch, match sm_find ch sr with
             | None => sm_find ch sr' = None
             | Some s => exists s', sm_find ch sr' = Some s' /\ sr_next_id s' = sr_next_id s /\
                           (forall id, st_of (sr_unacked s') id = st_of (sr_unacked s) id) /\
                           (forall id p, packed s' id p = packed s id p)
             end.

(* sr_static sr sr' is sm_rel static_chan sr sr' *)
Definition static_chan (_ : N) (s s' : send_rel) : Prop :=
  sr_next_id s' = sr_next_id s /\ (forall id, st_of (sr_unacked s') id = st_of (sr_unacked s) id) /\
  (forall id p, packed s' id p = packed s id p).

Lemma static_chan_refl ch s : static_chan ch s s.
Proof. repeat split. Qed.

Lemma sr_static_refl sr : sr_static sr sr.
Proof. exact (sm_rel_refl static_chan sr static_chan_refl). Qed.

Lemma sr_static_trans a b c : sr_static a b -> sr_static b c -> sr_static a c.
Proof.
  apply (sm_rel_trans static_chan static_chan static_chan).
  intros ch s1 s2 s3 (N1 & K1 & P1) (N2 & K2 & P2). split; [congruence|].
  split; [intros id; now rewrite K2, K1|intros id p; now rewrite P2, P1].
Qed.

Lemma sr_static_eq sr sr' : sr' = sr -> sr_static sr sr'.
Proof. intros ->. apply sr_static_refl. Qed.

Lemma sr_static_find sr sr' ch s' : sr_static sr sr' -> sm_find ch sr' = Some s' ->
  exists s, sm_find ch sr = Some s /\ static_chan ch s s'.
Proof.
  intros H Hf. specialize (H ch). destruct (sm_find ch sr) as [s|]; [|congruence].
  destruct H as (s2 & E2 & H). rewrite Hf in E2. injection E2 as <-. eauto.
Qed.

Definition emitted_rel (sr : list (N * send_rel)) (p : packet) : Prop :=
  exists ch s, sm_find ch sr = Some s /\ pkt_ok ch (st_of (sr_unacked s)) p.

Lemma emitted_rel_static sr sr' p : sr_static sr sr' -> emitted_rel sr' p -> emitted_rel sr p.
Proof.
  intros H (ch & s' & Hs' & Hp). destruct (sr_static_find _ _ _ _ H Hs') as (s & Es & _ & K & _).
  exists ch, s. split; [exact Es|]. eapply SendRelP.pkt_ok_ext; [|exact Hp]. intros id. symmetry. apply K.
Qed.

(* the unreliable channels during a flush: f ch sid = the message sliced under sliced-message id sid *)
Definition su_step_ok (f : N -> N -> list N) (su su' : list (N * send_unrel)) (pk : list packet) : Prop :=
  (forall ch, match sm_find ch su with
              | None => sm_find ch su' = None
              | Some s => exists s', sm_find ch su' = Some s' /\ su_sliced_id s <= su_sliced_id s' /\
                                     (forall m, In m (su_queue s') -> In m (su_queue s))
              end) /\
  (forall sq ch ms, In (SmallUnreliable sq ch ms) pk ->
     exists s, sm_find ch su = Some s /\ Forall (fun m => In m (su_queue s)) ms) /\
  (forall sq ch sl, In (UnreliableSlice sq ch sl) pk ->
     exists s s', sm_find ch su = Some s /\ sm_find ch su' = Some s' /\
       su_sliced_id s <= sl_id sl /\ sl_id sl < su_sliced_id s' /\
       In (f ch (sl_id sl)) (su_queue s) /\ SLICE_SIZE < len (f ch (sl_id sl)) /\
       sl_index sl < num_slices_of (f ch (sl_id sl)) /\
       sl = slice_of (f ch (sl_id sl)) (sl_id sl) (sl_index sl)).

Lemma su_step_ok_nil f su : su_step_ok f su su [].
Proof.
  split; [|split].
  - intros ch. destruct (sm_find ch su) as [s|]; [|reflexivity]. exists s. split; [reflexivity|]. split; [lia|auto].
  - intros sq ch ms [].
  - intros sq ch sl [].
Qed.

Lemma su_step_ok_rel f su su2 pk pk2 :
  Forall (fun p => is_rel_packet p = true) pk -> su_step_ok f su su2 pk2 -> su_step_ok f su su2 (pk ++ pk2).
Proof.
  intros Hrel (A & B & C). split; [exact A|]. split.
  - intros sq ch ms Hin. apply in_app_or in Hin. destruct Hin as [Hin|Hin]; [|eauto].
    rewrite Forall_forall in Hrel. specialize (Hrel _ Hin). discriminate.
  - intros sq ch sl Hin. apply in_app_or in Hin. destruct Hin as [Hin|Hin]; [|eauto].
    rewrite Forall_forall in Hrel. specialize (Hrel _ Hin). discriminate.
Qed.

Lemma gather_emits : forall ord c avail c1 av pk,
  gather_rel ord c avail c1 av pk -> conn_inv c ->
  sr_static (c_sr c) (c_sr c1) /\
  Forall (fun p => is_rel_packet p = true -> emitted_rel (c_sr c) p) pk /\
  (exists f, su_step_ok f (c_su c) (c_su c1) pk).
Proof.
  apply (gather_rel_inv_ind (fun _ c _ c1 _ pk =>
    sr_static (c_sr c) (c_sr c1) /\ Forall (fun p => is_rel_packet p = true -> emitted_rel (c_sr c) p) pk /\
    exists f, su_step_ok f (c_su c) (c_su c1) pk)).
  - intros c av _. split; [apply sr_static_refl|]. split; [constructor|]. exists (fun _ _ => []). apply su_step_ok_nil.
  - intros ch t c av s s' pk seq' av1 c2 av2 pk2 Hs Hsi Hch Eg _ (S2 & P2 & f & U2).
    pose proof (SendRelP.sr_get_packets_facts Hsi Eg) as T.
    cbn [with_seq with_sr c_sr c_su] in *.
    assert (S1 : sr_static (c_sr c) (sm_insert ch s' (c_sr c))).
    { apply (sm_rel_insert static_chan ch s s' _ static_chan_refl Hs).
      split; [rewrite (SendRelP.tf_frame T); reflexivity|].
      split; [exact (SendRelP.tick_st T)|intros id p; exact (SendRelP.tick_packed T id p)]. }
    assert (P1 : Forall (fun p => emitted_rel (c_sr c) p) pk).
    { eapply Forall_impl; [|exact (SendRelP.tf_pkts T)].
      intros p Hp. exists ch, s. split; [exact Hs|]. now rewrite <- Hch. }
    split; [eapply sr_static_trans; eauto|]. split.
    + apply Forall_app. split.
      * eapply Forall_impl; [|exact P1]. auto.
      * eapply Forall_impl; [|exact P2]. intros p Hp Hr. eapply emitted_rel_static; eauto.
    + exists f. apply su_step_ok_rel; [|exact U2].
      eapply Forall_impl; [|exact (SendRelP.tf_pkts T)]. intros p. apply pkt_ok_is_rel.
  - intros ch t c av s s' pk seq' av1 c2 av2 pk2 Hs Hsi Hch Eg _ (S2 & P2 & f2 & (U2a & U2b & U2c)).
    destruct (SendUnrelP.su_turn_ok _ _ _ _ _ _ _ Hsi Eg) as (Hq & Hsid & Hch' & Hpc & Hsm & f1 & Hsl).
    rewrite Hch in Hpc.
    cbn [with_seq with_su c_sr c_su] in *.
    split; [exact S2|]. split.
    + apply Forall_app. split; [|exact P2].
      eapply Forall_impl; [|exact Hpc]. intros p Hp Hr. rewrite (unrel_pkt_not_rel _ _ Hp) in Hr. discriminate.
    + exists (fun c0 sid => if (c0 =? ch) && (sid <? su_sliced_id s') then f1 sid else f2 c0 sid).
      split; [|split].
      * intros c0. specialize (U2a c0). rewrite sm_find_insert in U2a.
        destruct (N.eqb_spec c0 ch) as [Heq|Hne]; [subst c0|].
        -- rewrite Hs. destruct U2a as (s2 & E2 & L2 & Q2). exists s2. split; [exact E2|]. split; [lia|].
           intros m Hm. apply Q2 in Hm. rewrite Hq in Hm. destruct Hm.
        -- exact U2a.
      * intros sq c0 ms Hin. apply in_app_or in Hin. destruct Hin as [Hin|Hin].
        -- rewrite Forall_forall in Hpc. pose proof (Hpc _ Hin) as Hc0. cbn [SendUnrelP.unrel_pkt_ch] in Hc0. subst c0.
           exists s. split; [exact Hs|eauto].
        -- destruct (U2b _ _ _ Hin) as (s1 & E1 & F1). rewrite sm_find_insert in E1.
           destruct (N.eqb_spec c0 ch) as [->|Hne].
           ++ injection E1 as <-. exists s. split; [exact Hs|]. rewrite Hq in F1.
              destruct ms as [|m ms]; [constructor|]. inversion F1 as [|? ? []].
           ++ eauto.
      * intros sq c0 sl Hin. apply in_app_or in Hin. destruct Hin as [Hin|Hin].
        -- rewrite Forall_forall in Hpc. pose proof (Hpc _ Hin) as Hc0. cbn [SendUnrelP.unrel_pkt_ch] in Hc0. subst c0.
           destruct (Hsl _ _ _ Hin) as (A1 & A2 & A3 & A4 & A5 & A6).
           specialize (U2a ch). rewrite sm_find_insert_same in U2a. destruct U2a as (s2 & E2 & L2 & _).
           exists s, s2. rewrite N.eqb_refl. destruct (N.ltb_spec (sl_id sl) (su_sliced_id s')); [|lia].
           cbn [andb]. split; [exact Hs|]. split; [exact E2|]. split; [exact A1|]. split; [lia|]. auto.
        -- destruct (U2c _ _ _ Hin) as (s1 & s2 & E1 & E2 & B1 & B2 & B3 & B4 & B5 & B6).
           rewrite sm_find_insert in E1. destruct (N.eqb_spec c0 ch) as [->|Hne].
           ++ injection E1 as <-. rewrite Hq in B3. destruct B3.
           ++ cbn [andb]. exists s1, s2. repeat split; assumption.
Qed.

Definition outs_of (out : cout) : list (list N) := match out with OPkts p => p | _ => [] end.

Definition sent_upd (c c' : conn) (op : cop) (l : chan_log) : chan_log :=
  match op with
  | CSend ch m => if negb (is_disconnected c) && negb (is_disconnected c') then log_add l ch m else l
  | _ => l
  end.

Definition got_upd (op : cop) (out : cout) (l : chan_log) : chan_log :=
  match op, out with CRecv ch, OMsg (Some m) => log_add l ch m | _, _ => l end.

(* a call that can change the status only (CS_status) emits nothing, hands the application nothing and,
   if it is a send, is not logged: the connection is dead before it or after it *)
Lemma outs_idle op : outs_of (idle_out op) = [].
Proof. now destruct op. Qed.

Lemma got_upd_idle op l : got_upd op (idle_out op) l = l.
Proof. now destruct op. Qed.

Lemma got_upd_other ch mo l c0 : c0 <> ch -> log_get (got_upd (CRecv ch) (OMsg mo) l) c0 = log_get l c0.
Proof. intros H. destruct mo; cbn [got_upd]; [now apply log_get_add_other|reflexivity]. Qed.

Lemma got_upd_same ch mo l :
  log_get (got_upd (CRecv ch) (OMsg mo) l) ch = log_get l ch ++ match mo with Some m => [m] | None => [] end.
Proof. destruct mo; cbn [got_upd]; [apply log_get_add_same|now rewrite app_nil_r]. Qed.

Lemma sent_upd_status c op st l : status_only c op st -> sent_upd c (set_status c st) op l = l.
Proof.
  intros [op0 Hd _|op0 _ Hs|ch m s e _ _ _|b e _ _].
  - destruct op0; try reflexivity. cbn [sent_upd]. now rewrite Hd.
  - destruct op0; try discriminate Hs; reflexivity.
  - cbn [sent_upd is_disconnected set_status c_status negb]. now rewrite andb_false_r.
  - reflexivity.
Qed.

Lemma sent_upd_send c c' ch m l : is_disconnected c = false -> is_disconnected c' = false ->
  sent_upd c c' (CSend ch m) l = log_add l ch m.
Proof. intros H H'. cbn [sent_upd]. now rewrite H, H'. Qed.

(* SS_skip: a process_packet call through the API, or the delivery of a packet that does not exist *)
Inductive sys_step_kind (s : rsys) : sysop -> rsys -> Prop :=
| SS_skip o : sys_step_kind s o s
| SS_api x op c' out :
    is_process op = false -> cstep (conn_of s x) op = Ok (c', out) ->
    sys_step_kind s (SysApi x op) (upd_side s x c' (outs_of out) (sent_upd (conn_of s x) c' op) (got_upd op out))
| SS_deliver_a i bytes c' :
    nth_error (out_b s) i = Some bytes -> process_packet (ra s) bytes = Ok c' ->
    sys_step_kind s (SysDeliver SA i)
      {| ra := c'; rb := rb s; out_a := out_a s; out_b := out_b s; sent_a := sent_a s; sent_b := sent_b s;
         got_a := got_a s; got_b := got_b s;
         dlv_a := if is_disconnected (ra s) then dlv_a s else dlv_a s ++ [i]; dlv_b := dlv_b s |}
| SS_deliver_b i bytes c' :
    nth_error (out_a s) i = Some bytes -> process_packet (rb s) bytes = Ok c' ->
    sys_step_kind s (SysDeliver SB i)
      {| ra := ra s; rb := c'; out_a := out_a s; out_b := out_b s; sent_a := sent_a s; sent_b := sent_b s;
         got_a := got_a s; got_b := got_b s; dlv_a := dlv_a s;
         dlv_b := if is_disconnected (rb s) then dlv_b s else dlv_b s ++ [i] |}.

Lemma sys_step_inv s o s' : sys_step s o = Ok s' -> sys_step_kind s o s'.
Proof.
  intros E. destruct o as [x op|[] i]; cbn [sys_step] in E.
  - destruct (is_process op) eqn:Hnp; [injection E as <-; constructor|].
    apply bind_ok in E. destruct E as ([c' out] & Ec & [= <-]). now apply (SS_api s x op c' out).
  - destruct (nth_error (out_b s) i) as [bytes|] eqn:En; [|injection E as <-; constructor].
    apply bind_ok in E. destruct E as (c' & Ep & [= <-]). now apply (SS_deliver_a s i bytes c').
  - destruct (nth_error (out_a s) i) as [bytes|] eqn:En; [|injection E as <-; constructor].
    apply bind_ok in E. destruct E as (c' & Ep & [= <-]). now apply (SS_deliver_b s i bytes c').
Qed.

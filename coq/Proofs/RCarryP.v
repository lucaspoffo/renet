(* RCarryP.v - the sender side of the multiplicity property (Spec/RMultSpec.v, carry_inv): every
   copy of a message that A's output carries on an unreliable channel is a distinct submission of
   A's application.  With RMultP.sys_unreliable_multiplicity: on a network that does not duplicate,
   a message is obtained at most as many times as it was submitted. *)
From RenetV Require Import Base Consts Varint Packet Channels Conn.
From RenetV Require Import CodecSpec RecvSpec SendSpec ConnSpec ConnInvSpec RSysSpec RSysInvSpec RMultSpec.
From RenetV Require Import SMapP ConnBaseP ConnProcP ConnFlushP ConnP RSysBaseP RSysStepP RSysInvP RSysP RMultP.
From RenetV Require SendRelP SendUnrelP.
Require Import Lia.
Open Scope N_scope.

Local Opaque SLICE_SIZE MAX_ACK_RANGES SER_BUFFER NC_MAX_PAYLOAD_BYTES DISCARD_PACKET_SECS VARINT_MAX MAX_NUM_SLICES.

Definition psmall (ch : N) (m : list N) (p : packet) : nat :=
  match p with SmallUnreliable _ c ms => if c =? ch then occ ms m else 0%nat | _ => 0%nat end.
Definition pslice (ch : N) (m : list N) (idx : N) (p : packet) : nat :=
  match p with UnreliableSlice _ c sl => if (c =? ch) && slice_is m idx sl then 1%nat else 0%nat | _ => 0%nat end.

Lemma pkt_small_psmall ch m b : pkt_small ch m b = match from_bytes b with Ok p => psmall ch m p | _ => 0%nat end.
Proof. unfold pkt_small. destruct (from_bytes b) as [[]| |]; reflexivity. Qed.

Lemma pkt_slice_pslice ch m idx b : pkt_slice ch m idx b = match from_bytes b with Ok p => pslice ch m idx p | _ => 0%nat end.
Proof. unfold pkt_slice. destruct (from_bytes b) as [[]| |]; reflexivity. Qed.

Lemma bytes_le_pkts (g : packet -> nat) pk bytes : Forall2 decodes_wf pk bytes ->
  (list_sum (map (fun b => match from_bytes b with Ok p => g p | _ => 0%nat end) bytes) <= list_sum (map g pk))%nat.
Proof.
  induction 1 as [|p b pk bytes Hd _ IH]; [cbn; lia|].
  cbn [map]. rewrite !list_sum_cons.
  destruct (from_bytes b) as [p'| |] eqn:E; [rewrite (proj1 (Hd p' E))|..]; lia.
Qed.

Lemma occ_filter_le f l m : (occ (filter f l) m <= occ l m)%nat.
Proof.
  induction l as [|x t IH]; [cbn; lia|]. cbn [filter]. destruct (f x); rewrite ?occ_cons; lia.
Qed.

Lemma share_cnt_cons x t m idx : share_cnt (x :: t) m idx = (b2n (shares m idx x) + share_cnt t m idx)%nat.
Proof. unfold share_cnt. cbn [filter]. destruct (shares m idx x); reflexivity. Qed.

Lemma share_cnt_app a b m idx : share_cnt (a ++ b) m idx = (share_cnt a m idx + share_cnt b m idx)%nat.
Proof. unfold share_cnt. rewrite filter_app, app_length. reflexivity. Qed.

Lemma share_cnt_nil m idx : share_cnt [] m idx = 0%nat.
Proof. reflexivity. Qed.

Lemma kept_occ_le q m : forall avail, (occ (SendUnrelP.su_kept avail q) m <= occ q m)%nat.
Proof. intros avail. apply subseq_occ_le, SendUnrelP.su_kept_subseq. Qed.

Lemma kept_share_le q m idx : forall avail, (share_cnt (SendUnrelP.su_kept avail q) m idx <= share_cnt q m idx)%nat.
Proof. intros avail. apply SendUnrelP.subseq_filter_le, SendUnrelP.su_kept_subseq. Qed.

Lemma psmall_sum c0 ch m pk : Forall (SendUnrelP.unrel_pkt_ch c0) pk ->
  list_sum (map (psmall ch m) pk) = if c0 =? ch then occ (SendUnrelP.small_msgs_of pk) m else 0%nat.
Proof.
  induction 1 as [|p pk Hp _ IH]; [cbn; now destruct (c0 =? ch)|].
  cbn [map]. rewrite list_sum_cons, IH. unfold SendUnrelP.small_msgs_of. cbn [flat_map].
  destruct p as [sq c ms|sq c ms|sq c sl|sq c sl|sq rs]; cbn [SendUnrelP.unrel_pkt_ch psmall] in *; try contradiction; subst c.
  - rewrite occ_app. destruct (c0 =? ch); lia.
  - cbn [app]. destruct (c0 =? ch); lia.
Qed.

Definition cntb {A} (f : A -> bool) (l : list A) : nat := length (filter f l).

Lemma cntb_app {A} (f : A -> bool) a b : cntb f (a ++ b) = (cntb f a + cntb f b)%nat.
Proof. unfold cntb. rewrite filter_app, app_length. reflexivity. Qed.

Lemma pslice_sum c0 ch m idx pk : Forall (SendUnrelP.unrel_pkt_ch c0) pk ->
  list_sum (map (pslice ch m idx) pk) = if c0 =? ch then cntb (slice_is m idx) (SendUnrelP.slices_of pk) else 0%nat.
Proof.
  induction 1 as [|p pk Hp _ IH]; [cbn; now destruct (c0 =? ch)|].
  cbn [map]. rewrite list_sum_cons, IH. unfold SendUnrelP.slices_of. cbn [flat_map].
  destruct p as [sq c ms|sq c ms|sq c sl|sq c sl|sq rs]; cbn [SendUnrelP.unrel_pkt_ch pslice] in *; try contradiction; subst c.
  - cbn [app]. destruct (c0 =? ch); lia.
  - rewrite cntb_app. unfold cntb at 2. cbn [filter]. destruct (c0 =? ch); cbn [andb]; [|lia].
    destruct (slice_is m idx sl); cbn [length]; lia.
Qed.

(* among the slices 0..n-1 of x exactly slice idx can be slice idx of m *)
Lemma cntb_slices_of_one m idx x sid : forall n, n <= num_slices_of x ->
  cntb (slice_is m idx) (map (slice_of x sid) (iota n)) =
  if idx <? n then b2n ((num_slices_of x =? num_slices_of m) &&
                        (if msg_eq_dec (slice_payload x idx) (slice_payload m idx) then true else false))
  else 0%nat.
Proof.
  intros n. induction n as [|n IH] using N.peano_ind; intros Hn.
  - rewrite iota_0. cbn [map]. destruct (N.ltb_spec idx 0); [lia|reflexivity].
  - rewrite <- N.add_1_r, iota_succ, map_app, cntb_app, IH by lia. cbn [map]. unfold cntb at 1. cbn [filter].
    rewrite slice_is_of.
    destruct (N.eqb_spec n idx) as [->|Hne].
    + destruct (N.ltb_spec idx idx); [lia|]. destruct (N.ltb_spec idx (idx + 1)); [|lia].
      cbn [andb]. destruct (_ && _); cbn [length b2n]; lia.
    + cbn [andb length]. destruct (N.ltb_spec idx n); destruct (N.ltb_spec idx (n + 1)); try lia.
Qed.

Lemma cntb_all_slices m idx : forall kept sid,
  (cntb (slice_is m idx) (SendUnrelP.all_slices sid (filter SendUnrelP.is_large kept)) <= share_cnt kept m idx)%nat.
Proof.
  induction kept as [|x t IH]; intros sid; cbn [filter SendUnrelP.all_slices]; [cbn; lia|].
  rewrite share_cnt_cons. destruct (SendUnrelP.is_large x) eqn:El.
  - cbn [SendUnrelP.all_slices]. rewrite cntb_app, cntb_slices_of_one by lia.
    specialize (IH (sid + 1)). unfold shares. unfold SendUnrelP.is_large in El. rewrite El. cbn [andb].
    destruct (idx <? num_slices_of x); cbn [andb]; [|cbn [b2n]]; lia.
  - specialize (IH sid). lia.
Qed.

Lemma su_turn_carry s seq avail s' pk seq' avail' ch m :
  su_inv s -> su_get_packets s seq avail = Ok (s', pk, seq', avail') ->
  su_queue s' = [] /\
  (list_sum (map (psmall ch m) pk) <= if (su_ch s =? ch)%N then occ (su_queue s) m else 0)%nat /\
  forall idx, (list_sum (map (pslice ch m idx) pk) <= if (su_ch s =? ch)%N then share_cnt (su_queue s) m idx else 0)%nat.
Proof.
  intros Hinv E.
  destruct (SendUnrelP.su_carried s seq avail s' pk seq' avail' Hinv E) as (_ & Hsm & Hsl & _ & Hch & _).
  set (kept := SendUnrelP.su_kept avail (su_queue s)) in *.
  split; [exact (proj1 (SendUnrelP.su_turn_ok _ _ _ _ _ _ _ Hinv E))|]. split.
  - rewrite (psmall_sum _ _ _ _ Hch), Hsm. destruct (su_ch s =? ch); [|lia].
    pose proof (occ_filter_le (fun m0 => negb (SendUnrelP.is_large m0)) kept m) as Hf.
    pose proof (kept_occ_le (su_queue s) m avail) as Hk. fold kept in Hk. lia.
  - intros idx. rewrite (pslice_sum _ _ _ _ _ Hch), Hsl. destruct (su_ch s =? ch); [|lia].
    pose proof (cntb_all_slices m idx kept (su_sliced_id s)) as Hs.
    pose proof (kept_share_le (su_queue s) m idx avail) as Hk. fold kept in Hk. lia.
Qed.

Lemma rel_carries_nothing ch m idx p : is_rel_packet p = true -> psmall ch m p = 0%nat /\ pslice ch m idx p = 0%nat.
Proof. destruct p; cbn [is_rel_packet psmall pslice]; intros; try discriminate; auto. Qed.

Lemma list_sum_zero {A} (g : A -> nat) l : Forall (fun x => g x = 0%nat) l -> list_sum (map g l) = 0%nat.
Proof. induction 1 as [|x l Hx _ IH]; [reflexivity|]. cbn [map]. rewrite list_sum_cons. lia. Qed.

Lemma gather_carry : forall ord c avail c1 av pk,
  gather_rel ord c avail c1 av pk -> conn_inv c -> forall ch m,
  (list_sum (map (psmall ch m) pk) + qocc (c_su c1) ch m <= qocc (c_su c) ch m)%nat /\
  forall idx, (list_sum (map (pslice ch m idx) pk) + qshare (c_su c1) ch m idx <= qshare (c_su c) ch m idx)%nat.
Proof.
  apply (gather_rel_inv_ind (fun _ c _ c1 _ pk => forall ch m,
    (list_sum (map (psmall ch m) pk) + qocc (c_su c1) ch m <= qocc (c_su c) ch m)%nat /\
    forall idx, (list_sum (map (pslice ch m idx) pk) + qshare (c_su c1) ch m idx <= qshare (c_su c) ch m idx)%nat)).
  - intros c av _ ch m. cbn [map list_sum fold_right]. split; [lia|intros; lia].
  - intros ch0 t c av s s' pk seq' av1 c2 av2 pk2 _ Hsi _ Eg _ IH ch m.
    pose proof (SendRelP.sr_get_packets_facts Hsi Eg) as T.
    assert (Hrelp : Forall (fun p => is_rel_packet p = true) pk).
    { eapply Forall_impl; [|exact (SendRelP.tf_pkts T)]. intros p. apply pkt_ok_is_rel. }
    destruct (IH ch m) as [A B]. cbn [with_seq with_sr c_su] in A, B.
    rewrite !map_app, !list_sum_app. split.
    + rewrite (list_sum_zero (psmall ch m) pk); [lia|].
      eapply Forall_impl; [|exact Hrelp]. intros p Hp. now destruct (rel_carries_nothing ch m 0 p Hp).
    + intros idx. rewrite map_app, list_sum_app. specialize (B idx).
      rewrite (list_sum_zero (pslice ch m idx) pk); [lia|].
      eapply Forall_impl; [|exact Hrelp]. intros p Hp. now destruct (rel_carries_nothing ch m idx p Hp).
  - intros ch0 t c av s s' pk seq' av1 c2 av2 pk2 Hs Hsi Hch Eg _ IH ch m.
    destruct (su_turn_carry s (c_seq c) av s' pk seq' av1 ch m Hsi Eg) as (Hq & Hsm & Hsl).
    destruct (IH ch m) as [A B]. cbn [with_seq with_su c_su] in A, B.
    unfold qocc, qshare in *. rewrite sm_find_insert in A, B. rewrite Hch in Hsm, Hsl.
    rewrite !map_app, !list_sum_app.
    destruct (N.eqb_spec ch ch0) as [->|Hne].
    + rewrite Hs. rewrite N.eqb_refl in Hsm, Hsl. rewrite Hq in A, B. split.
      * cbn in A. lia.
      * intros idx. rewrite map_app, list_sum_app. specialize (B idx). specialize (Hsl idx). cbn in B. lia.
    + destruct (N.eqb_spec ch0 ch) as [Heq|_]; [congruence|]. split.
      * lia.
      * intros idx. rewrite map_app, list_sum_app. specialize (B idx). specialize (Hsl idx). lia.
Qed.

Lemma flush_carry c c' bytes :
  conn_inv c -> chans_u8 c -> is_disconnected c = false -> get_packets_to_send c = Ok (c', bytes) ->
  forall ch m,
  (out_small_total bytes ch m + qocc (c_su c') ch m <= qocc (c_su c) ch m)%nat /\
  forall idx, (out_slice_total bytes ch m idx + qshare (c_su c') ch m idx <= qshare (c_su c) ch m idx)%nat.
Proof.
  intros Hi Hu8 Hd E ch m.
  destruct (flush_summary c c' bytes Hi Hu8 Hd E) as (c1 & av & pk & pks & F).
  pose proof (fl_dec F) as Hdec. rewrite (fl_pk F) in Hdec.
  destruct (gather_carry _ _ _ _ _ _ (fl_gather F) Hi ch m) as [A B]. rewrite (fl_su F).
  assert (Hack : forall g : packet -> nat, (forall sq rs, g (Ack sq rs) = 0%nat) ->
            list_sum (map g (flush_pkts c1 pk)) = list_sum (map g pk)).
  { intros g Hg. unfold flush_pkts. rewrite map_app, list_sum_app.
    destruct (c_acks c1); cbn [ack_part map list_sum fold_right]; rewrite ?Hg; lia. }
  split.
  - unfold out_small_total. rewrite (map_ext _ _ (pkt_small_psmall ch m)).
    pose proof (bytes_le_pkts (psmall ch m) _ _ Hdec) as Hle. rewrite Hack in Hle by reflexivity. lia.
  - intros idx. unfold out_slice_total. rewrite (map_ext _ _ (pkt_slice_pslice ch m idx)).
    pose proof (bytes_le_pkts (pslice ch m idx) _ _ Hdec) as Hle. rewrite Hack in Hle by reflexivity.
    specialize (B idx). lia.
Qed.

Definition carry_at (su : list (N * send_unrel)) (oa : list (list N)) (sent : chan_log) : Prop :=
  forall ch m,
    (out_small_total oa ch m + qocc su ch m <= occ (log_get sent ch) m)%nat /\
    forall idx, (out_slice_total oa ch m idx + qshare su ch m idx <= share_cnt (log_get sent ch) m idx)%nat.

Lemma carry_at_log_add su oa sent ch0 m0 : carry_at su oa sent -> carry_at su oa (log_add sent ch0 m0).
Proof.
  intros H ch m. destruct (H ch m) as [A B]. rewrite log_get_add. destruct (ch =? ch0).
  - rewrite occ_app. split; [lia|]. intros idx. specialize (B idx). rewrite share_cnt_app. lia.
  - auto.
Qed.

(* carry_inv s is Dcarry (dir_ab s) *)
Definition Dcarry (d : dir) : Prop := carry_at (c_su (d_snd d)) (d_oa d) (d_sent d).

Lemma Dcarry_step ordf d d' : dir_ok ordf d -> dstep d d' -> Dcarry d -> Dcarry d'.
Proof.
  intros O [|op c' out Hnp Ec|op c' out Hnp Ec|i bytes c' En Ep|i bytes c' En Ep] M;
    unfold Dcarry in *; cbn [with_snd with_rcv d_snd d_oa d_sent]; auto.
  - destruct (cstep_inv _ op c' out Ec)
      as [op st S|ch0 m0 s s' Hd Hs Es|ch0 m0 s Hd Hs Hsu|ch0 r r' mo _ Hr Er|ch0 r r' mo _ Hr Hru Er
         |dt ru1 sent1 Hru Hdl|c' bytes Hd Eg|b p c' _ _ _]; cbn [outs_of]; rewrite ?app_nil_r; try exact M.
    + rewrite outs_idle, app_nil_r, (sent_upd_status _ _ _ _ S). exact M.
    + rewrite sent_upd_send by exact Hd. now apply carry_at_log_add.
    + rewrite sent_upd_send by exact Hd. cbn [with_su c_su].
      intros ch m. destruct (M ch m) as [A B]. unfold qocc, qshare in *.
      rewrite sm_find_insert, log_get_add. destruct (N.eqb_spec ch ch0) as [->|Hne]; [|auto].
      rewrite Hsu in A, B. rewrite occ_app. destruct (proj2 (SendUnrelP.su_send_cases s m0)) as [->| ->].
      * split; [lia|]. intros idx. specialize (B idx). rewrite share_cnt_app. lia.
      * rewrite occ_app. split; [lia|]. intros idx. specialize (B idx). rewrite !share_cnt_app. lia.
    + intros ch m. destruct (M ch m) as [A B]. destruct (flush_carry _ c' bytes (do_snd O) (do_u8s O) Hd Eg ch m) as [FA FB].
      cbn [sent_upd]. unfold out_small_total, out_slice_total in *. rewrite map_app, list_sum_app. split; [lia|].
      intros idx. specialize (B idx). specialize (FB idx). rewrite map_app, list_sum_app. lia.
    + discriminate Hnp.
  - rewrite (process_packet_su (d_snd d) bytes c' Ep). exact M.
Qed.

Lemma Dcarry_fresh d : d_oa d = [] -> Forall su_fresh (c_su (d_snd d)) -> Dcarry d.
Proof.
  intros Ho Hf. unfold Dcarry. rewrite Ho. intros ch m. unfold qocc, qshare.
  destruct (sm_find ch (c_su (d_snd d))) as [su|] eqn:Hs.
  - pose proof (Forall_sm_find _ _ _ _ Hf Hs) as A. unfold su_fresh in A. cbn [snd] in A. rewrite A.
    split; [cbn; lia|intros idx; cbn; lia].
  - split; [cbn; lia|intros idx; cbn; lia].
Qed.

Lemma run_carry_inv ba bb cfg_ab cfg_ba s0 s ops :
  cfg_u8 cfg_ab -> cfg_u8 cfg_ba -> sys_init ba bb cfg_ab cfg_ba = Ok s0 -> sys_run s0 ops = Ok s ->
  carry_inv s /\ carry_inv (flip s).
Proof.
  intros Hab Hba Hinit Hrun.
  apply (sys_run_both Dcarry Dcarry_step cfg_ab cfg_ba ops s0 s); [eapply sys_init_inv; eauto|exact Hrun|].
  destruct (sys_init_ok _ _ _ _ _ Hinit) as (a & b & Ea & Eb & ->).
  pose proof (cf_su (conn_new_cf _ _ _ _ Ea Hab)) as A2. pose proof (cf_su (conn_new_cf _ _ _ _ Eb Hba)) as B2.
  split; apply Dcarry_fresh; cbn [dir_ab flip ra out_a d_snd d_oa]; auto.
Qed.

(* every copy of m that A's output carries on channel ch is a distinct submission: a
   position of a SmallUnreliable packet per submission of m, and a packet with slice idx of m per
   submitted sliced message whose slice idx is that of m *)
Theorem sys_unreliable_carried : forall ba bb cfg_ab cfg_ba s0 ops s,
  cfg_u8 cfg_ab -> cfg_u8 cfg_ba ->
  sys_init ba bb cfg_ab cfg_ba = Ok s0 -> sys_run s0 ops = Ok s -> Forall (sysop_ok cfg_ab cfg_ba) ops ->
  forall ch m,
    (out_small_total (out_a s) ch m <= count_occ msg_eq_dec (log_get (sent_a s) ch) m)%nat /\
    forall idx, (out_slice_total (out_a s) ch m idx <= share_cnt (log_get (sent_a s) ch) m idx)%nat.
Proof.
  intros ba bb cfg_ab cfg_ba s0 ops s Hab Hba Hinit Hrun _ ch m.
  destruct (run_carry_inv ba bb cfg_ab cfg_ba s0 s ops Hab Hba Hinit Hrun) as [C _].
  destruct (C ch m) as [A B]. unfold occ in A. split; [lia|].
  intros idx. specialize (B idx). lia.
Qed.

(* on a network that does not duplicate, a message that travels whole is obtained at most
   as many times as A's application submitted it; a sliced message at most as many times as
   sliced messages with the same slice idx were submitted, for every idx *)
Theorem non_duplicating_network_submitted : forall ba bb cfg_ab cfg_ba s0 ops s,
  cfg_u8 cfg_ab -> cfg_u8 cfg_ba ->
  sys_init ba bb cfg_ab cfg_ba = Ok s0 -> sys_run s0 ops = Ok s -> Forall (sysop_ok cfg_ab cfg_ba) ops ->
  forall ch, chan_kind cfg_ab ch = Some TUnreliable -> ordf_of cfg_ab ch = None ->
  NoDup (dlv_b s) ->
  forall m,
    (len m <= SLICE_SIZE ->
       (count_occ msg_eq_dec (log_get (got_b s) ch) m <= count_occ msg_eq_dec (log_get (sent_a s) ch) m)%nat /\
       (count_occ msg_eq_dec (log_get (got_b s) ch) m <= count_occ msg_eq_dec (submitted SA ch ops) m)%nat) /\
    (SLICE_SIZE < len m -> forall idx, idx < num_slices_of m ->
       (count_occ msg_eq_dec (log_get (got_b s) ch) m <= share_cnt (log_get (sent_a s) ch) m idx)%nat).
Proof.
  intros ba bb cfg_ab cfg_ba s0 ops s Hab Hba Hinit Hrun Hops ch Hk Hord Hnd m.
  destruct (non_duplicating_network_bound ba bb cfg_ab cfg_ba s0 ops s Hab Hba Hinit Hrun Hops ch Hk Hord Hnd m) as [A B].
  destruct (sys_unreliable_carried ba bb cfg_ab cfg_ba s0 ops s Hab Hba Hinit Hrun Hops ch m) as [C D].
  split.
  - intros Hs. specialize (A Hs). split; [lia|].
    pose proof (sent_a_count ops s0 s ch m Hrun) as Hc.
    destruct (sys_init_ok _ _ _ _ _ Hinit) as (a & b & _ & _ & ->).
    unfold occ in Hc. cbn [sent_a log_get count_occ] in Hc. lia.
  - intros Hl idx Hidx. specialize (B Hl idx Hidx). specialize (D idx). lia.
Qed.

(* carried_once follows from the submissions, so that RMultP.non_duplicating_network_at_most_once applies *)
Theorem submitted_once_carried_once : forall ba bb cfg_ab cfg_ba s0 ops s,
  cfg_u8 cfg_ab -> cfg_u8 cfg_ba ->
  sys_init ba bb cfg_ab cfg_ba = Ok s0 -> sys_run s0 ops = Ok s -> Forall (sysop_ok cfg_ab cfg_ba) ops ->
  forall ch m, (count_occ msg_eq_dec (log_get (sent_a s) ch) m <= 1)%nat ->
    (len m <= SLICE_SIZE \/
     exists idx, idx < num_slices_of m /\ (share_cnt (log_get (sent_a s) ch) m idx <= 1)%nat) ->
    carried_once (out_a s) ch m.
Proof.
  intros ba bb cfg_ab cfg_ba s0 ops s Hab Hba Hinit Hrun Hops ch m Hone Hcase.
  destruct (sys_unreliable_carried ba bb cfg_ab cfg_ba s0 ops s Hab Hba Hinit Hrun Hops ch m) as [C D].
  unfold carried_once. destruct (N.leb_spec (len m) SLICE_SIZE) as [Hs|Hl].
  - lia.
  - destruct Hcase as [Hs|(idx & Hidx & Hsh)]; [lia|]. exists idx. split; [exact Hidx|]. specialize (D idx). lia.
Qed.

(* in terms of the submissions alone: m submitted once and, if it is sliced, some slice of m is not
   a slice (same index, same slice count) of any other submitted message *)
Theorem submitted_once_obtained_at_most_once : forall ba bb cfg_ab cfg_ba s0 ops s,
  cfg_u8 cfg_ab -> cfg_u8 cfg_ba ->
  sys_init ba bb cfg_ab cfg_ba = Ok s0 -> sys_run s0 ops = Ok s -> Forall (sysop_ok cfg_ab cfg_ba) ops ->
  forall ch, chan_kind cfg_ab ch = Some TUnreliable -> ordf_of cfg_ab ch = None ->
  NoDup (dlv_b s) ->
  forall m, count_occ msg_eq_dec (log_get (sent_a s) ch) m = 1%nat ->
    (len m <= SLICE_SIZE \/
     exists idx, idx < num_slices_of m /\ (share_cnt (log_get (sent_a s) ch) m idx <= 1)%nat) ->
    (count_occ msg_eq_dec (log_get (got_b s) ch) m <= 1)%nat.
Proof.
  intros ba bb cfg_ab cfg_ba s0 ops s Hab Hba Hinit Hrun Hops ch Hk Hord Hnd m Hone Hcase.
  apply (non_duplicating_network_at_most_once ba bb cfg_ab cfg_ba s0 ops s Hab Hba Hinit Hrun Hops ch Hk Hord Hnd m).
  apply (submitted_once_carried_once ba bb cfg_ab cfg_ba s0 ops s Hab Hba Hinit Hrun Hops ch m); [lia|exact Hcase].
Qed.

Example carried_example :
  match run_from_init ux_cfg ux_ops_twice with
  | Ok s => Some (out_small_total (out_a s) 0 sx_small, count_occ msg_eq_dec (log_get (sent_a s) 0) sx_small,
                  map (out_slice_total (out_a s) 0 sx_big) [0; 1; 2],
                  map (share_cnt (log_get (sent_a s) 0) sx_big) [0; 1; 2; 3])
  | _ => None
  end = Some (1%nat, 1%nat, [1; 1; 1]%nat, [1; 1; 1; 0]%nat).
Proof. rewrite ux_twice_eq, sx_big_eq. evaluates. Qed.

Print Assumptions sys_unreliable_carried.
Print Assumptions non_duplicating_network_submitted.
Print Assumptions submitted_once_obtained_at_most_once.
Print Assumptions submitted_once_carried_once.
Print Assumptions carried_example.

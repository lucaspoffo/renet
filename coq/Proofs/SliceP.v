(* SliceP.v - slicing of a message, reassembly by SliceConstructor, and the table of
   constructors that the two receive channels keep. *)
From RenetV Require Import Base Consts Varint Packet Channels RecvSpec SMapP.
Require Import Lia ZifyBool ZifyN ZifyNat.
Open Scope N_scope.

(* the only fact about the constant that the proofs of this file use *)
Lemma SLICE_SIZE_pos : 0 < SLICE_SIZE.
Proof. reflexivity. Qed.
Local Opaque SLICE_SIZE.

Lemma div_ceil_spec a b :
  0 < b -> 0 < a ->
  1 <= div_ceil a b /\ (div_ceil a b - 1) * b < a /\ a <= div_ceil a b * b.
Proof.
  intros Hb Ha. unfold div_ceil.
  pose proof (N.div_mod (a + b - 1) b ltac:(lia)) as E.
  pose proof (N.mod_lt (a + b - 1) b ltac:(lia)) as L.
  set (q := (a + b - 1) / b) in *. set (r := (a + b - 1) mod b) in *.
  assert (1 <= q) by nia.
  repeat split; nia.
Qed.

Lemma div_ceil_ge2 a b : 0 < b -> b < a -> 2 <= div_ceil a b.
Proof.
  intros Hb Ha. destruct (div_ceil_spec a b Hb ltac:(lia)) as (H1 & H2 & H3). nia.
Qed.

Lemma num_spec m : 0 < len m ->
  1 <= num_slices_of m /\ (num_slices_of m - 1) * SLICE_SIZE < len m /\
  len m <= num_slices_of m * SLICE_SIZE.
Proof. apply div_ceil_spec, SLICE_SIZE_pos. Qed.

Lemma num_bounds m : SLICE_SIZE < len m ->
  (num_slices_of m - 1) * SLICE_SIZE < len m /\ len m <= num_slices_of m * SLICE_SIZE /\
  2 <= num_slices_of m.
Proof.
  intros H. pose proof SLICE_SIZE_pos. destruct (num_spec m ltac:(lia)) as (_ & B1 & B2).
  repeat split; [exact B1 | exact B2 | apply div_ceil_ge2; assumption].
Qed.

Lemma payload_nonlast m i : i + 1 < num_slices_of m ->
  slice_payload m i = takeN SLICE_SIZE (dropN (i * SLICE_SIZE) m).
Proof.
  intros H. unfold slice_payload.
  destruct (N.eqb_spec i (num_slices_of m - 1)); [lia|]. f_equal. lia.
Qed.

Lemma payload_last m :
  slice_payload m (num_slices_of m - 1) = dropN ((num_slices_of m - 1) * SLICE_SIZE) m.
Proof.
  unfold slice_payload. rewrite N.eqb_refl. apply takeN_all. rewrite len_dropN. lia.
Qed.

Lemma len_payload_nonlast m i : 0 < len m -> i + 1 < num_slices_of m ->
  len (slice_payload m i) = SLICE_SIZE.
Proof.
  intros H Hi. rewrite payload_nonlast by auto. rewrite len_takeN, len_dropN.
  destruct (num_spec m H) as (_ & B1 & _).
  pose proof (N.mul_le_mono_r (i + 1) (num_slices_of m - 1) SLICE_SIZE ltac:(lia)). lia.
Qed.

Lemma len_payload_last m : 0 < len m ->
  1 <= len (slice_payload m (num_slices_of m - 1)) <= SLICE_SIZE.
Proof.
  intros H. rewrite payload_last, len_dropN. destruct (num_spec m H) as (B0 & B1 & B2).
  replace (num_slices_of m) with (num_slices_of m - 1 + 1) in B2 at 1 by lia. lia.
Qed.

Lemma len_payload_bounds m i : 0 < len m -> i < num_slices_of m ->
  1 <= len (slice_payload m i) <= SLICE_SIZE.
Proof.
  intros H Hi. pose proof SLICE_SIZE_pos. destruct (N.eq_dec i (num_slices_of m - 1)) as [->|Hne].
  - apply len_payload_last, H.
  - rewrite len_payload_nonlast by (auto; lia). lia.
Qed.

Lemma concat_payload_prefix m k : k + 1 <= num_slices_of m ->
  concat (map (slice_payload m) (iota k)) = takeN (k * SLICE_SIZE) m.
Proof.
  induction k as [|k IH] using N.peano_ind; intros H.
  - reflexivity.
  - rewrite <- N.add_1_r in *. rewrite iota_succ, map_app, concat_app. cbn [map concat].
    rewrite app_nil_r, IH by lia. rewrite payload_nonlast by lia.
    rewrite takeN_add. f_equal. lia.
Qed.

Lemma concat_payload_all m : 0 < len m ->
  concat (map (slice_payload m) (iota (num_slices_of m))) = m.
Proof.
  intros H. destruct (num_spec m H) as (B0 & _).
  replace (num_slices_of m) with ((num_slices_of m - 1) + 1) at 1 by lia.
  rewrite iota_succ, map_app, concat_app. cbn [map concat]. rewrite app_nil_r.
  rewrite concat_payload_prefix by lia. rewrite payload_last. apply takeN_dropN.
Qed.

Theorem slices_partition : forall m, SLICE_SIZE < len m ->
  concat (map (slice_payload m) (iota (num_slices_of m))) = m /\
  2 <= num_slices_of m /\
  (forall i, i + 1 < num_slices_of m -> len (slice_payload m i) = SLICE_SIZE) /\
  1 <= len (slice_payload m (num_slices_of m - 1)) <= SLICE_SIZE.
Proof.
  intros m H. assert (Hm : 0 < len m) by (pose proof SLICE_SIZE_pos; lia).
  split; [exact (concat_payload_all m Hm)|]. split; [apply (num_bounds m H)|]. split.
  - intros i Hi. apply len_payload_nonlast; assumption.
  - apply len_payload_last, Hm.
Qed.

Lemma len_payload_ok m i : SLICE_SIZE < len m -> i < num_slices_of m ->
  if i =? num_slices_of m - 1 then len (slice_payload m i) <= SLICE_SIZE
  else len (slice_payload m i) = SLICE_SIZE.
Proof.
  intros H Hi. pose proof SLICE_SIZE_pos. destruct (N.eqb_spec i (num_slices_of m - 1)).
  - subst. apply len_payload_last. lia.
  - apply len_payload_nonlast; lia.
Qed.

Lemma nth_error_upd_same {A} (l : list A) i x : (i < length l)%nat -> nth_error (upd l i x) i = Some x.
Proof. rewrite <- nth_opt_eq. apply nth_opt_upd_same. Qed.

Lemma nth_error_upd_other {A} (l : list A) i j x : i <> j -> nth_error (upd l i x) j = nth_error l j.
Proof. rewrite <- !nth_opt_eq. apply nth_opt_upd_other. Qed.

Notation isS := (fun o : option (list N) => match o with Some _ => true | None => false end).

Lemma len_concat_chunks_le (l : list (option (list N))) :
  (forall ch, In (Some ch) l -> len ch <= SLICE_SIZE) ->
  len (concat_chunks l) <= len l * SLICE_SIZE.
Proof.
  induction l as [|[c|] l IH]; cbn [concat_chunks In]; intros H.
  - rewrite !len_nil. lia.
  - rewrite len_app, len_cons. specialize (H c (or_introl eq_refl)) as Hc.
    assert (len (concat_chunks l) <= len l * SLICE_SIZE) by (apply IH; intros; apply H; auto).
    lia.
  - rewrite len_cons.
    assert (len (concat_chunks l) <= len l * SLICE_SIZE) by (apply IH; intros; apply H; auto).
    lia.
Qed.

Lemma concat_chunks_full (f : nat -> list N) (l : list (option (list N))) k :
  (forall i ch, nth_error l i = Some (Some ch) -> ch = f (k + i)%nat) ->
  (forall x, In x l -> isS x = true) ->
  concat_chunks l = concat (map f (seq k (length l))).
Proof.
  revert k. induction l as [|y l IH]; intros k H1 H2; cbn [length seq map concat concat_chunks].
  - reflexivity.
  - destruct y as [c|].
    + f_equal.
      * specialize (H1 0%nat c eq_refl). rewrite Nat.add_0_r in H1. exact H1.
      * apply IH.
        -- intros i ch Hi. specialize (H1 (S i) ch Hi). rewrite H1. f_equal. lia.
        -- intros x Hx. apply H2. right. exact Hx.
    + specialize (H2 None (or_introl eq_refl)). discriminate.
Qed.

Definition sctor_put (c : sctor) (idx : N) (bytes : list N) : sctor :=
  {| sc_num := sc_num c; sc_nrecv := sc_nrecv c + 1;
     sc_chunks := upd (sc_chunks c) (N.to_nat idx) (Some bytes) |}.

Definition size_ok (c : sctor) (idx : N) (bytes : list N) : Prop :=
  if idx =? sc_num c - 1 then len bytes <= SLICE_SIZE else len bytes = SLICE_SIZE.

Lemma size_test_false c idx bytes :
  (if idx =? sc_num c - 1 then SLICE_SIZE <? len bytes else negb (len bytes =? SLICE_SIZE)) = false
  <-> size_ok c idx bytes.
Proof. unfold size_ok. destruct (idx =? sc_num c - 1); lia. Qed.

Lemma sctor_process_cases c idx bytes : sctor_wf c ->
  (sctor_process c idx bytes = Err InvalidSliceMessage /\ (sc_num c <= idx \/ ~ size_ok c idx bytes))
  \/ (idx < sc_num c /\ size_ok c idx bytes /\
      exists cur, nth_error (sc_chunks c) (N.to_nat idx) = Some cur /\
        match cur with
        | Some _ => sctor_process c idx bytes = Ok (c, None)
        | None =>
            sctor_process c idx bytes =
              if sc_nrecv c + 1 =? sc_num c
              then Ok (sctor_put c idx bytes, Some (concat_chunks (sc_chunks (sctor_put c idx bytes))))
              else Ok (sctor_put c idx bytes, None)
        end).
Proof.
  intros (W1 & W2 & W3 & W4 & W5). unfold sctor_process.
  destruct (N.leb_spec (sc_num c) idx) as [Hle|Hlt]; [left; split; auto|]. cbv zeta.
  destruct (if idx =? sc_num c - 1 then _ else _) eqn:T.
  { left. split; [reflexivity|right]. intros Hs. apply size_test_false in Hs. congruence. }
  apply size_test_false in T. right. split; [exact Hlt|split; [exact T|]].
  rewrite nth_opt_eq.
  destruct (nth_error (sc_chunks c) (N.to_nat idx)) as [cur|] eqn:En.
  2:{ apply nth_error_None in En. lia. }
  exists cur. split; [reflexivity|].
  destruct cur; [|reflexivity].
  destruct (N.eqb_spec (sc_nrecv c) (sc_num c)); [lia|reflexivity].
Qed.

Lemma size_ok_le c idx bytes : size_ok c idx bytes -> len bytes <= SLICE_SIZE.
Proof. unfold size_ok. destruct (idx =? sc_num c - 1); lia. Qed.

Lemma wf_chunk_in c ch : sctor_wf c -> In (Some ch) (sc_chunks c) -> len ch <= SLICE_SIZE.
Proof.
  intros (_ & _ & _ & _ & W5) Hin. apply In_nth_error in Hin. destruct Hin as [i Hi]. eauto.
Qed.

Lemma put_nrecv c idx bytes : sctor_wf c ->
  nth_error (sc_chunks c) (N.to_nat idx) = Some None ->
  sc_nrecv (sctor_put c idx bytes) =
    len (filter isS (sc_chunks (sctor_put c idx bytes))).
Proof.
  intros (W1 & W2 & W3 & W4 & W5) Hn. cbn [sctor_put sc_nrecv sc_chunks]. rewrite <- nth_opt_eq in Hn.
  rewrite (len_filter_upd isS _ _ None (Some bytes) Hn eq_refl eq_refl), W3. reflexivity.
Qed.

Lemma put_chunk_bound c idx bytes : sctor_wf c -> size_ok c idx bytes ->
  forall i ch, nth_error (sc_chunks (sctor_put c idx bytes)) i = Some (Some ch) -> len ch <= SLICE_SIZE.
Proof.
  intros W Hs i ch. cbn [sctor_put sc_chunks].
  destruct (Nat.eq_dec (N.to_nat idx) i) as [<-|Hne].
  - intros H. assert (Hl : (N.to_nat idx < length (sc_chunks c))%nat).
    { rewrite <- (upd_length _ (N.to_nat idx) (Some bytes)). apply nth_error_Some. congruence. }
    rewrite nth_error_upd_same in H by auto. injection H as <-. eapply size_ok_le; eauto.
  - rewrite nth_error_upd_other by auto. destruct W as (_ & _ & _ & _ & W5). apply W5.
Qed.

Lemma put_wf c idx bytes : sctor_wf c -> size_ok c idx bytes ->
  nth_error (sc_chunks c) (N.to_nat idx) = Some None ->
  sc_nrecv c + 1 <> sc_num c ->
  sctor_wf (sctor_put c idx bytes).
Proof.
  intros W Hs Hn Hne. pose proof W as (W1 & W2 & W3 & W4 & W5).
  split; [exact W1|]. split; [cbn [sctor_put sc_chunks sc_num]; rewrite upd_length; exact W2|].
  split; [apply put_nrecv; auto|]. split; [cbn [sctor_put sc_nrecv sc_num]; lia|].
  apply put_chunk_bound; auto.
Qed.

Theorem sctor_process_safe : forall c idx bytes, sctor_wf c ->
  match sctor_process c idx bytes with
  | Ok (c', None) => sctor_wf c' /\ sc_num c' = sc_num c
  | Ok (c', Some m) => len m <= sc_num c * SLICE_SIZE
  | Err e => e = InvalidSliceMessage
  | Panic _ => False
  end.
Proof.
  intros c idx bytes W.
  destruct (sctor_process_cases c idx bytes W) as [[-> _]|(Hi & Hs & cur & Hn & Hc)]; [reflexivity|].
  destruct cur as [x|].
  - rewrite Hc. auto.
  - rewrite Hc. destruct (N.eqb_spec (sc_nrecv c + 1) (sc_num c)) as [E|E].
    + pose proof (len_concat_chunks_le (sc_chunks (sctor_put c idx bytes))) as L.
      assert (Hlen : len (sc_chunks (sctor_put c idx bytes)) = sc_num c).
      { cbn [sctor_put sc_chunks]. unfold len. rewrite upd_length.
        destruct W as (_ & W2 & _). rewrite W2. lia. }
      rewrite Hlen in L. apply L.
      intros ch Hin. apply In_nth_error in Hin. destruct Hin as [i Hi'].
      eapply put_chunk_bound; eauto.
    + split; [apply put_wf; auto|reflexivity].
Qed.

Theorem sctor_new_wf : forall n, 1 <= n -> sctor_wf (sctor_new n).
Proof.
  intros n Hn. unfold sctor_wf, sctor_new. cbn [sc_num sc_nrecv sc_chunks].
  split; [exact Hn|]. split; [apply repeatN_length|].
  split.
  - symmetry. apply len_filter_repeatN. reflexivity.
  - split; [lia|]. intros i ch H. apply nth_error_repeatN in H. discriminate.
Qed.

Definition ctor_ok (m : list N) (c : sctor) : Prop :=
  sc_num c = num_slices_of m /\
  forall i ch, nth_error (sc_chunks c) i = Some (Some ch) -> ch = slice_payload m (N.of_nat i).

Definition has (c : sctor) (i : N) : Prop :=
  exists ch, nth_error (sc_chunks c) (N.to_nat i) = Some (Some ch).

Lemma ctor_ok_new m : ctor_ok m (sctor_new (num_slices_of m)).
Proof.
  split; [reflexivity|]. intros i ch H. cbn [sctor_new sc_chunks] in H.
  apply nth_error_repeatN in H. discriminate.
Qed.

Lemma has_new n i : ~ has (sctor_new n) i.
Proof.
  intros [ch H]. cbn [sctor_new sc_chunks] in H. apply nth_error_repeatN in H. discriminate.
Qed.

Lemma wf_not_full c : sctor_wf c -> (forall i, i < sc_num c -> has c i) -> False.
Proof.
  intros (W1 & W2 & W3 & W4 & W5) H.
  destruct (len_filter_not_full isS (sc_chunks c)) as (i & o & Hi & Ho); [rewrite <- W3; unfold len; lia|].
  pose proof (nth_opt_some_lt _ _ _ Hi) as Hl. rewrite nth_opt_eq in Hi.
  destruct (H (N.of_nat i)) as [ch Hch]; [lia|].
  rewrite Nat2N.id, Hi in Hch. injection Hch as ->. discriminate.
Qed.

Lemma has_put c idx bytes i : (N.to_nat idx < length (sc_chunks c))%nat ->
  has (sctor_put c idx bytes) i <-> has c i \/ i = idx.
Proof.
  intros Hl. unfold has. cbn [sctor_put sc_chunks].
  destruct (N.eq_dec i idx) as [-> |Hne].
  - rewrite nth_error_upd_same by auto. split; [auto|]. intros _. eauto.
  - rewrite nth_error_upd_other by lia. split; [auto|]. intros [?|?]; [auto|congruence].
Qed.

Lemma ctor_ok_put m c idx : ctor_ok m c -> (N.to_nat idx < length (sc_chunks c))%nat ->
  ctor_ok m (sctor_put c idx (slice_payload m idx)).
Proof.
  intros [O1 O2] Hl. split; [exact O1|]. intros i ch. cbn [sctor_put sc_chunks].
  destruct (Nat.eq_dec (N.to_nat idx) i) as [<-|Hne].
  - rewrite nth_error_upd_same by auto. intros [= <-]. rewrite N2Nat.id. reflexivity.
  - rewrite nth_error_upd_other by auto. apply O2.
Qed.

Lemma ctor_ok_size m c idx : SLICE_SIZE < len m -> ctor_ok m c -> idx < num_slices_of m ->
  size_ok c idx (slice_payload m idx).
Proof.
  intros H [O1 _] Hi. unfold size_ok. rewrite O1. apply len_payload_ok; auto.
Qed.

Lemma ctor_full_concat m c : SLICE_SIZE < len m -> ctor_ok m c ->
  length (sc_chunks c) = N.to_nat (sc_num c) ->
  len (filter isS (sc_chunks c)) = len (sc_chunks c) ->
  concat_chunks (sc_chunks c) = m.
Proof.
  intros H [O1 O2] Hl Hf.
  rewrite (concat_chunks_full (fun i => slice_payload m (N.of_nat i)) _ 0%nat).
  - rewrite Hl, O1. pose proof (concat_payload_all m ltac:(lia)) as E.
    unfold iota in E. rewrite map_map in E. exact E.
  - intros i ch Hi. cbn [Nat.add]. apply O2. exact Hi.
  - apply len_filter_full. exact Hf.
Qed.

Lemma sctor_process_honest m c idx :
  SLICE_SIZE < len m -> sctor_wf c -> ctor_ok m c -> idx < num_slices_of m ->
  match sctor_process c idx (slice_payload m idx) with
  | Ok (c', None) =>
      sctor_wf c' /\ ctor_ok m c' /\ sc_num c' = sc_num c /\ (forall i, has c' i <-> has c i \/ i = idx)
  | Ok (c', Some m') => m' = m /\ (forall i, i < num_slices_of m -> has c i \/ i = idx)
  | _ => False
  end.
Proof.
  intros H W O Hi. pose proof O as [O1 O2]. pose proof W as (W1 & W2 & W3 & W4 & W5).
  pose proof (ctor_ok_size m c idx H O Hi) as Hs.
  destruct (sctor_process_cases c idx (slice_payload m idx) W)
    as [[_ [Hbad|Hbad]]|(_ & _ & cur & Hn & Hc)]; [lia|tauto|].
  assert (Hl : (N.to_nat idx < length (sc_chunks c))%nat) by lia.
  destruct cur as [x|].
  - rewrite Hc. split; [auto|split; [auto|split; [auto|]]].
    intros i. split; [auto|]. intros [?| ->]; [auto|]. exists x. exact Hn.
  - rewrite Hc. destruct (N.eqb_spec (sc_nrecv c + 1) (sc_num c)) as [E|E].
    + assert (Hfull : len (filter isS (sc_chunks (sctor_put c idx (slice_payload m idx))))
                      = len (sc_chunks (sctor_put c idx (slice_payload m idx)))).
      { rewrite <- put_nrecv by auto. cbn [sctor_put sc_nrecv sc_chunks]. rewrite len_upd. unfold len. lia. }
      split.
      * apply ctor_full_concat; auto.
        -- apply ctor_ok_put; auto.
        -- cbn [sctor_put sc_chunks sc_num]. rewrite upd_length. exact W2.
      * intros i Hi'. apply (proj1 (has_put c idx (slice_payload m idx) i Hl)).
        pose proof (len_filter_full _ _ Hfull) as Hall.
        assert (Hli : (N.to_nat i < length (sc_chunks (sctor_put c idx (slice_payload m idx))))%nat).
        { cbn [sctor_put sc_chunks]. rewrite upd_length. lia. }
        apply nth_error_Some in Hli.
        destruct (nth_error (sc_chunks (sctor_put c idx (slice_payload m idx))) (N.to_nat i))
          as [o|] eqn:Eo; [|congruence].
        specialize (Hall o (nth_error_In _ _ Eo)). destruct o; [|discriminate].
        eexists. exact Eo.
    + split; [apply put_wf; auto|]. split; [apply ctor_ok_put; auto|].
      split; [reflexivity|]. intros i. apply has_put. exact Hl.
Qed.

Lemma ctor_feed_gen m : SLICE_SIZE < len m ->
  forall idxs c, sctor_wf c -> ctor_ok m c -> Forall (fun i => i < num_slices_of m) idxs ->
  ((forall i, i < num_slices_of m -> has c i \/ In i idxs) -> ctor_feed m c idxs = Ok (Some m)) /\
  (~ (forall i, i < num_slices_of m -> has c i \/ In i idxs) -> ctor_feed m c idxs = Ok None).
Proof.
  intros H. induction idxs as [|idx t IH]; intros c W O F.
  - split; [|reflexivity]. intros Hall. exfalso. apply (wf_not_full c W).
    destruct O as [O1 _]. rewrite O1. intros i Hi. destruct (Hall i Hi) as [?|[]]; auto.
  - inversion F as [|? ? Hidx F']; subst. cbn [ctor_feed].
    pose proof (sctor_process_honest m c idx H W O Hidx) as P.
    destruct (sctor_process c idx (slice_payload m idx)) as [[c' [m'|]]|e|s]; try contradiction.
    + destruct P as [-> Hall]. cbn [bind]. split; [reflexivity|].
      intros Hn. exfalso. apply Hn. intros i Hi. destruct (Hall i Hi) as [?| ->]; [auto|].
      right. left. reflexivity.
    + destruct P as (W' & O' & _ & Hhas). cbn [bind].
      destruct (IH c' W' O' F') as [I1 I2]. split.
      * intros Hall. apply I1. intros i Hi. rewrite Hhas.
        destruct (Hall i Hi) as [?|[-> |?]]; auto.
      * intros Hn. apply I2. intros Hall. apply Hn. intros i Hi.
        destruct (Hall i Hi) as [Hh|?]; [|right; right; auto].
        apply Hhas in Hh. destruct Hh as [?| ->]; [auto|right; left; reflexivity].
Qed.

Theorem ctor_reassembles : forall m idxs, SLICE_SIZE < len m ->
  Forall (fun i => i < num_slices_of m) idxs ->
  (covers (num_slices_of m) idxs -> ctor_feed m (sctor_new (num_slices_of m)) idxs = Ok (Some m)) /\
  (~ covers (num_slices_of m) idxs -> ctor_feed m (sctor_new (num_slices_of m)) idxs = Ok None).
Proof.
  intros m idxs H F.
  destruct (num_bounds m H) as (_ & _ & B3).
  destruct (ctor_feed_gen m H idxs (sctor_new (num_slices_of m))
              (sctor_new_wf (num_slices_of m) ltac:(lia)) (ctor_ok_new m) F) as [G1 G2].
  split.
  - intros C. apply G1. intros i Hi. right. apply C. exact Hi.
  - intros C. apply G2. intros Hall. apply C. intros i Hi.
    destruct (Hall i Hi) as [Hh|?]; [|auto]. exfalso. eapply has_new. exact Hh.
Qed.

(* [ctors_bytes] is the [vsum cb] of SMapP.v by conversion *)
Notation cb := (fun c : sctor => sc_num c * SLICE_SIZE).

Lemma cb_insert id c sl : asc (map fst sl) ->
  ctors_bytes (sm_insert id c sl) + fopt cb (sm_find id sl) = ctors_bytes sl + sc_num c * SLICE_SIZE.
Proof. exact (vsum_insert cb id c sl). Qed.
Lemma cb_remove id sl : ctors_bytes (sm_remove id sl) + fopt cb (sm_find id sl) = ctors_bytes sl.
Proof. exact (vsum_remove cb id sl). Qed.

Definition tbl_ok (sl : list (N * sctor)) : Prop :=
  Forall (fun ic => sctor_wf (snd ic)) sl /\ asc (map fst sl).

Lemma tbl_find id c sl : tbl_ok sl -> sm_find id sl = Some c -> sctor_wf c.
Proof. intros [W _] F. exact (Forall_sm_find _ _ _ _ W F). Qed.

Lemma tbl_open id n sl : tbl_ok sl -> 1 <= n -> sm_find id sl = None ->
  tbl_ok (sm_insert id (sctor_new n) sl) /\
  ctors_bytes (sm_insert id (sctor_new n) sl) = ctors_bytes sl + n * SLICE_SIZE.
Proof.
  intros [W A] Hn F. pose proof (cb_insert id (sctor_new n) sl A) as E.
  rewrite F in E. cbn [fopt sctor_new sc_num] in E. split; [split|lia].
  - apply Forall_sm_insert; [apply sctor_new_wf; exact Hn|exact W].
  - apply asc_sm_insert. exact A.
Qed.

Lemma tbl_put id c c' sl : tbl_ok sl -> sm_find id sl = Some c -> sctor_wf c' -> sc_num c' = sc_num c ->
  tbl_ok (sm_insert id c' sl) /\ ctors_bytes (sm_insert id c' sl) = ctors_bytes sl.
Proof.
  intros [W A] F W' En. pose proof (cb_insert id c' sl A) as E.
  rewrite F, En in E. cbn [fopt] in E. split; [split|lia].
  - apply Forall_sm_insert; [exact W'|exact W].
  - apply asc_sm_insert. exact A.
Qed.

Lemma tbl_close id c sl : tbl_ok sl -> sm_find id sl = Some c ->
  tbl_ok (sm_remove id sl) /\ ctors_bytes (sm_remove id sl) + sc_num c * SLICE_SIZE = ctors_bytes sl.
Proof.
  intros [W A] F. pose proof (cb_remove id sl) as E. rewrite F in E. split; [split|exact E].
  - apply Forall_sm_remove. exact W.
  - apply asc_sm_remove. exact A.
Qed.

Print Assumptions slices_partition.
Print Assumptions ctor_reassembles.
Print Assumptions sctor_process_safe.
Print Assumptions sctor_new_wf.

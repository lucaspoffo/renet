(* NCodecP.v - the facts about the netcode packet codec and the tokens in the form the server, client
   and system proofs use them: outcomes compared with [Panic site] (an [eqn:] can be fed to them
   directly), the lengths a successful decode implies, lengths of what encode produces, decode of what
   encode produced (decode_encode; read without a window, decode_encoded).  Everything here is a
   corollary of Proofs/NPacketP.v and Proofs/TokenP.v. *)
From RenetV Require Import Base Consts Aead NPacket Token NServer.
From RenetV Require Import Spec.NetSpec.
From RenetV Require Import Proofs.AeadP Proofs.ReplayP Proofs.NPacketP Proofs.TokenP.
Require Import Lia ZifyBool ZifyN ZifyNat.
Open Scope N_scope.

Lemma request_min_val : 13 + 8 + 8 + NC_XNONCE_BYTES + NC_PRIVATE_BYTES = 1077.
Proof. reflexivity. Qed.
Lemma global_seq_init_val : NC_GLOBAL_SEQUENCE_INIT = 2 ^ 63.
Proof. reflexivity. Qed.

Lemma encode_no_panic cap p proto cr site : encode cap p proto cr <> Panic site.
Proof. apply is_panic_false_iff, NPacketP.encode_no_panic. Qed.

Lemma encode_sealed_len cap p proto q key d :
  packet_id p <> 0 -> encode cap p proto (Some (q, key)) = Ok d ->
  len d = 1 + sequence_bytes_required q + len (packet_body p) + NC_MAC_BYTES.
Proof.
  intros Hid H. rewrite (encode_length _ _ _ _ _ _ H).
  destruct (packet_id p =? 0) eqn:E; [lia | reflexivity].
Qed.

Lemma encode_sealed_len_le cap p proto q key d :
  packet_id p <> 0 -> encode cap p proto (Some (q, key)) = Ok d ->
  len d <= 1 + 8 + len (packet_body p) + NC_MAC_BYTES.
Proof.
  intros Hid H. rewrite (encode_sealed_len _ _ _ _ _ _ Hid H).
  pose proof (sequence_bytes_required_le q). lia.
Qed.

Lemma encode_small_ok p proto q key :
  packet_id p <> 0 -> len (packet_body p) <= 1300 ->
  exists d, encode OUT_CAP p proto (Some (q, key)) = Ok d.
Proof.
  intros Hid Hl. apply encode_room. pose proof (sequence_bytes_required_le q).
  destruct (packet_id p =? 0) eqn:E; [lia|].
  unfold OUT_CAP. rewrite max_packet_bytes_val, mac_bytes_val. lia.
Qed.

Theorem encode_dgram_seq cap p proto q key d :
  packet_id p <> 0 -> q < U64 -> encode cap p proto (Some (q, key)) = Ok d -> dgram_seq d = q.
Proof.
  intros Hid Hq H. rewrite (encode_sealed_form _ _ _ _ _ _ Hid H). cbn [dgram_seq].
  pose proof (packet_id_le p) as Hp.
  destruct (encode_prefix_split (packet_id p) q) as [_ ->]; [lia|].
  rewrite BaseP.takeN_app_exact by (rewrite len_le_bytes; lia).
  apply prefix_roundtrip. exact Hq.
Qed.

Theorem encode_dgram_type cap p proto q key d :
  packet_id p <> 0 -> encode cap p proto (Some (q, key)) = Ok d -> dgram_type d = packet_id p.
Proof.
  intros Hid H. rewrite (encode_sealed_form _ _ _ _ _ _ Hid H). cbn [dgram_type].
  pose proof (packet_id_le p) as Hp. apply encode_prefix_split. lia.
Qed.

Lemma read_packet_no_panic ty src site : read_packet ty src <> Panic site.
Proof. apply is_panic_false_iff, NPacketP.read_packet_no_panic. Qed.

Lemma packet_id_response p : packet_id p = 3 -> exists ts td, p = PResponse ts td.
Proof. destruct p; cbn [packet_id]; try discriminate. intros _. eauto. Qed.

Lemma decode_no_panic buf proto key rp site : snd (decode buf proto key rp) <> Panic site.
Proof. apply is_panic_false_iff, NPacketP.decode_no_panic. Qed.

Lemma decode_request_len buf proto key rp q p :
  snd (decode buf proto key rp) = Ok (q, p) -> packet_id p = 0 ->
  1 + (13 + 8 + 8 + NC_XNONCE_BYTES + NC_PRIVATE_BYTES) <= len buf.
Proof.
  intros H Hp. assert (E : dgram_type buf = 0) by (rewrite (decode_ok_type _ _ _ _ _ _ H); exact Hp).
  destruct (decode_ok_request _ _ _ _ _ _ H E) as (_ & _ & Hr & Hl & _).
  destruct buf as [|prefix rest]; [rewrite len_nil in Hl; lia|]. cbn [tl read_packet] in Hr. rewrite len_cons.
  destruct (len rest <? 13 + 8 + 8 + NC_XNONCE_BYTES + NC_PRIVATE_BYTES) eqn:El; [discriminate | lia].
Qed.

Lemma decode_response_len buf proto key rp q p :
  snd (decode buf proto key rp) = Ok (q, p) -> packet_id p = 3 ->
  1 + (8 + NC_CHALLENGE_BYTES) + NC_MAC_BYTES <= len buf.
Proof.
  intros H Hp. pose proof (decode_ok_type _ _ _ _ _ _ H) as Hty. rewrite Hp in Hty.
  destruct (decode_ok_sealed _ _ _ _ _ _ H) as (k & plain & _ & Ho & _ & Hr & _); [lia|].
  rewrite Hty in Hr. cbn [read_packet] in Hr.
  destruct (len plain <? 8 + NC_CHALLENGE_BYTES) eqn:E; [discriminate|].
  destruct (opens_to_form _ _ _ _ Ho) as (prefix & sb & -> & _).
  rewrite len_cons, len_app, aead_seal_len, mac_bytes_val. lia.
Qed.

Theorem decode_encode cap p proto q key d rp :
  npacket_wf p -> packet_id p <> 0 -> q < U64 -> 1 <= sequence_bytes_required q + len (packet_body p) ->
  encode cap p proto (Some (q, key)) = Ok d ->
  (forall r, rp = Some r -> applies_replay (packet_id p) && already_received r q = false) ->
  decode d proto (Some key) rp =
    (match rp with
     | Some r => if applies_replay (packet_id p) then Some (advance_sequence r q) else Some r
     | None => None
     end, Ok (q, p)).
Proof.
  intros W Hid Hq Hlen He Hrp.
  rewrite (npacket_roundtrip_full p q key proto cap d rp W Hq He).
  - destruct (packet_id p =? 0) eqn:E; [lia | reflexivity].
  - rewrite (encode_sealed_len _ _ _ _ _ _ Hid He). lia.
  - destruct rp as [r|]; [apply Hrp; reflexivity | reflexivity].
Qed.

Lemma decode_encoded cap p proto q key d :
  encode cap p proto (Some (q, key)) = Ok d ->
  npacket_wf p -> packet_id p <> 0 -> q < U64 -> 1 <= sequence_bytes_required q + len (packet_body p) ->
  snd (decode d proto (Some key) None) = Ok (q, p).
Proof.
  intros He W Hid Hq Hl. rewrite (decode_encode _ _ _ _ _ _ None W Hid Hq Hl He); [reflexivity | discriminate].
Qed.

Lemma decode_challenge cap cseq td proto q key d :
  q < U64 -> cseq < U64 -> len td = NC_CHALLENGE_BYTES ->
  encode cap (PChallenge cseq td) proto (Some (q, key)) = Ok d ->
  snd (decode d proto (Some key) None) = Ok (q, PChallenge cseq td).
Proof.
  intros Hq Hs Hl He. apply (decode_encoded cap _ _ q _ d He); [split; assumption | discriminate | exact Hq |].
  cbn [packet_body]. rewrite len_app, len_le64. lia.
Qed.

Lemma decode_keepalive cap slot mc proto q key d :
  q < U64 -> slot < 4294967296 -> mc < 4294967296 ->
  encode cap (PKeepAlive slot mc) proto (Some (q, key)) = Ok d ->
  snd (decode d proto (Some key) None) = Ok (q, PKeepAlive slot mc).
Proof.
  intros Hq Hs Hm He. apply (decode_encoded cap _ _ q _ d He); [split; assumption | discriminate | exact Hq |].
  cbn [packet_body]. rewrite len_app, !len_le32. lia.
Qed.

Lemma private_decode_no_panic data proto ex xn key site : private_decode data proto ex xn key <> Panic site.
Proof. apply is_panic_false_iff, TokenP.private_decode_no_panic. Qed.

Lemma private_decode_user_len data proto ex xn key t :
  private_decode data proto ex xn key = Ok t -> len (pt_user t) <= NC_USER_DATA_BYTES.
Proof.
  intros H. apply private_decode_sound in H. destruct H as (plain & _ & H).
  destruct (private_read_inv _ _ H) as (slots & r1 & _ & _ & _ & ->). cbn [pt_user]. rewrite len_takeN. lia.
Qed.

Lemma challenge_decode_no_panic td ts key site : challenge_decode td ts key <> Panic site.
Proof. apply is_panic_false_iff, NPacketP.challenge_decode_no_panic. Qed.

Lemma challenge_body_len id user cseq key :
  len user <= NC_USER_DATA_BYTES ->
  len (packet_body (generate_challenge id user cseq key)) = 8 + NC_CHALLENGE_BYTES.
Proof.
  intros H. unfold generate_challenge. cbn [packet_body].
  rewrite len_app, aead_seal_len, len_le64, len_challenge_plain by exact H.
  rewrite challenge_bytes_val, mac_bytes_val. reflexivity.
Qed.

Lemma keepalive_encodes ci mc proto q key : exists d, encode OUT_CAP (PKeepAlive ci mc) proto (Some (q, key)) = Ok d.
Proof.
  apply encode_small_ok; [discriminate|]. cbn [packet_body]. unfold le32. rewrite len_app, !len_le_bytes. lia.
Qed.

Lemma denied_encodes proto q key : exists d, encode OUT_CAP PDenied proto (Some (q, key)) = Ok d.
Proof. apply encode_small_ok; [discriminate|]. cbn [packet_body]. rewrite len_nil. lia. Qed.

Lemma disconnect_encodes proto q key : exists d, encode OUT_CAP PDisconnect proto (Some (q, key)) = Ok d.
Proof. apply encode_small_ok; [discriminate|]. cbn [packet_body]. rewrite len_nil. lia. Qed.

Lemma challenge_encodes id user cseq ckey proto q key :
  len user <= NC_USER_DATA_BYTES ->
  exists d, encode OUT_CAP (generate_challenge id user cseq ckey) proto (Some (q, key)) = Ok d.
Proof.
  intros Hu. apply encode_small_ok; [discriminate|]. rewrite challenge_body_len by exact Hu. rewrite challenge_bytes_val. lia.
Qed.

(* the body of the response is that of the challenge it echoes *)
Lemma response_encodes id user ts ckey proto q key :
  len user <= NC_USER_DATA_BYTES ->
  exists d, encode OUT_CAP (PResponse ts (aead_seal ckey (nonce_of ts) [] (challenge_plain id user))) proto
                   (Some (q, key)) = Ok d.
Proof.
  intros Hu. apply encode_small_ok; [discriminate|].
  change (packet_body (PResponse ts _)) with (packet_body (generate_challenge id user ts ckey)).
  rewrite challenge_body_len by exact Hu. rewrite challenge_bytes_val. lia.
Qed.

Lemma challenge_decode_generate id user cseq key :
  id < U64 -> len user = NC_USER_DATA_BYTES ->
  match generate_challenge id user cseq key with
  | PChallenge ts td => ts = cseq /\ len td = NC_CHALLENGE_BYTES /\ challenge_decode td ts key = Ok (id, user)
  | _ => False
  end.
Proof.
  intros Hi Hu. destruct (challenge_roundtrip id user cseq key _ Hu Hi eq_refl) as [D L].
  unfold generate_challenge. auto.
Qed.

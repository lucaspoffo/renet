(* RLiveTickP.v - what one good tick (Spec/RLiveSpec.v) does to the direction A -> B:
   whatever A transmits reaches B, is acknowledged by B's Ack packet of the same tick, and is
   released by A when that Ack packet arrives; B's application has taken everything available. *)
From RenetV Require Import Base Consts Varint Packet Channels Conn Server.
From RenetV Require Import CodecSpec RecvSpec SendSpec ConnSpec ConnInvSpec RSysSpec RSysInvSpec RLiveSpec.
From RenetV Require Import SMapP ConnBaseP ConnProcP ConnFlushP ConnP RSysBaseP RSysStepP RSysInvP RSysP RLiveBaseP RLiveInvP.
From RenetV Require Import BaseP RunP.
From RenetV Require SMapSendP SendRelP SendUnrelP DisconnectP.
Require Import Lia ZifyBool ZifyN ZifyNat.
Open Scope N_scope.
Local Opaque SLICE_SIZE MAX_ACK_RANGES SER_BUFFER NC_MAX_PAYLOAD_BYTES DISCARD_PACKET_SECS VARINT_MAX MAX_NUM_SLICES.

Import SendRelP(st_of, static_of, pkt_ok, entry_ok, packed, part_acked).

Lemma packed_small_kind s id p : kind_of s id = Some None -> packed s id p = Some false -> p = None.
Proof.
  unfold packed, kind_of. destruct (sm_find id (sr_unacked s)) as [[]|]; try discriminate.
  destruct p; cbn [part_acked]; [discriminate|reflexivity].
Qed.

Lemma packed_sliced_kind s id p n : kind_of s id = Some (Some n) -> packed s id p = Some false -> exists i, p = Some i.
Proof.
  unfold packed, kind_of. destruct (sm_find id (sr_unacked s)) as [[]|]; try discriminate.
  destruct p; cbn [part_acked]; [eauto|discriminate].
Qed.

Definition info_parts (info : sent_info) : list cpart :=
  match info with
  | SIReliableMessages ch ids => map (fun id => (ch, (id, None))) ids
  | SIReliableSlice ch id idx => [(ch, (id, Some idx))]
  | _ => []
  end.

Lemma pend_with_sr c ch s s' x :
  sm_find ch (c_sr c) = Some s ->
  (forall j p, packed s' j p = Some false -> packed s j p = Some false) ->
  pend (with_sr c (sm_insert ch s' (c_sr c))) x -> pend c x.
Proof.
  intros Hs M. destruct x as [c0 [id p]]. cbn [pend with_sr c_sr]. intros (s0 & Hf & Hp).
  rewrite sm_find_insert in Hf. destruct (N.eqb_spec c0 ch) as [->|Hne]; [|eauto].
  injection Hf as <-. eauto.
Qed.

Lemma ack_step_pend c x t info c' :
  conn_inv c -> sm_find x (c_sent c) = Some (t, info) -> ack_step c x info c' ->
  (forall y, pend c' y -> pend c y) /\ (forall y, In y (info_parts info) -> ~ pend c' y).
Proof.
  intros Hi Hf A. destruct (inv_find_sent _ _ _ _ Hi Hf) as (_ & _ & Hinfo). revert Hinfo.
  destruct A as [|ch ids s s' Hs Ea|ch id idx s s' Hs Ea|largest]; cbn [info_parts sent_info_ok]; intros Hinfo.
  - split; [auto|intros y []].
  - destruct Hinfo as (s0 & Hs0 & Hids). rewrite Hs in Hs0. injection Hs0 as <-.
    destruct (inv_find_sr _ _ _ Hi Hs) as [Hsi _].
    destruct (ack_ids_pend _ ids s Hsi Hids) as (s2 & E2 & M & F). rewrite Ea in E2. injection E2 as <-. split.
    + intros y Hy. apply (pend_with_sr (with_sent c _) ch s s' y Hs M) in Hy. exact Hy.
    + intros y Hy. apply in_map_iff in Hy. destruct Hy as (id & <- & Hin).
      cbn [pend with_sr c_sr]. intros (s0 & Hf0 & Hp). rewrite sm_find_insert_same in Hf0. injection Hf0 as <-.
      exact (F id None Hin Hp).
  - destruct Hinfo as (s0 & Hs0 & Hok). rewrite Hs in Hs0. injection Hs0 as <-.
    destruct (inv_find_sr _ _ _ Hi Hs) as [Hsi _].
    destruct (SendRelP.sr_ack_slice_pend _ s id idx s' Hsi (proj2 Hok) Ea) as [M F]. split.
    + intros y Hy. apply (pend_with_sr (with_sent c _) ch s s' y Hs M) in Hy. exact Hy.
    + intros y [<-|[]]. cbn [pend with_sr c_sr]. intros (s0 & Hf0 & Hp).
      rewrite sm_find_insert_same in Hf0. injection Hf0 as <-. exact (F Hp).
  - split; [auto|intros y []].
Qed.

Lemma apply_acks_pend : forall seqs c c', conn_inv c -> NoDup seqs ->
  Forall (fun s => sm_mem s (c_sent c) = true) seqs -> apply_acks c seqs = Ok c' ->
  (forall y, pend c' y -> pend c y) /\
  (forall x t info y, In x seqs -> sm_find x (c_sent c) = Some (t, info) -> In y (info_parts info) -> ~ pend c' y).
Proof.
  apply apply_acks_ok_ind.
  - intros c _. split; [auto|intros x t info y []].
  - intros seq t c t0 info0 c1 c' Hi Hnotin Hf Ak _ _ _ [M F].
    destruct (ack_step_pend c seq t0 info0 c1 Hi Hf Ak) as [M1 F1]. split; [auto|].
    intros x tx info y [<-|Hin] Hfx Hy.
    + rewrite Hf in Hfx. injection Hfx as <- <-. intros Hp. apply M in Hp. exact (F1 y Hy Hp).
    + apply (F x tx info y Hin); [|exact Hy]. rewrite (ack_step_sent _ _ _ _ Ak).
      rewrite sm_find_remove_other; [exact Hfx|]. intros ->. contradiction.
Qed.

Lemma process_ack_pend c rs l c' :
  conn_inv c -> ranges_wf 0 rs -> collect_new_acks rs (c_sent c) = Ok l -> apply_acks c l = Ok c' ->
  (forall y, pend c' y -> pend c y) /\
  (forall x t info y, in_ranges x rs -> sm_find x (c_sent c) = Some (t, info) -> In y (info_parts info) -> ~ pend c' y).
Proof.
  intros Hi Hwf El Ea. destruct (collect_new_acks_sent c rs l Hi Hwf El) as (Hnd & Hmem & Hin).
  destruct (apply_acks_pend l c c' Hi Hnd Hmem Ea) as [M F]. split; [exact M|].
  intros x t info y Hx Hf Hy. apply (F x t info y); auto. apply Hin. split; [|exact Hx].
  eapply sm_find_some_mem. exact Hf.
Qed.

Lemma ack_step_acks c x info c' : ack_step c x info c' ->
  c_acks c' = match info with SIAck lg => acked_largest (c_acks c) lg | _ => c_acks c end.
Proof. now intros []. Qed.

Definition ackrecs_below (recs : list (N * (N * sent_info))) (lo : N) : Prop :=
  forall k t lg, sm_find k recs = Some (t, SIAck lg) -> lg < lo.

Lemma apply_acks_ends lo hi : forall seqs c c', conn_inv c -> NoDup seqs ->
  Forall (fun s => sm_mem s (c_sent c) = true) seqs -> apply_acks c seqs = Ok c' ->
  ackrecs_below (c_sent c) lo -> AcksP.top_block (c_acks c) lo hi ->
  ackrecs_below (c_sent c') lo /\ AcksP.top_block (c_acks c') lo hi.
Proof.
  refine (apply_acks_ok_ind (fun seqs c c' => _) _ _); [auto|].
  intros seq t c t0 info0 c1 c' Hi _ Hf Ak _ _ _ IH Hb He. apply IH.
  - intros k tk lg Hk. rewrite (ack_step_sent _ _ _ _ Ak) in Hk.
    apply (sm_find_remove_some _ _ _ _ (ci_sent_sorted c Hi)) in Hk. destruct Hk as [_ Hk]. eauto.
  - rewrite (ack_step_acks c seq info0 c1 Ak). destruct info0; auto.
    apply AcksP.top_block_acked_largest; [exact (ci_acks_wf c Hi)|eauto|exact He].
Qed.

(* the state of the pending acks after the packets lo, ..., hi-1 have arrived *)
Definition acks_upto (acks : list (N * N)) (lo hi : N) : Prop := lo <= hi /\ AcksP.top_block acks lo hi.

Lemma process_packet_alive c b c' : process_packet c b = Ok c' -> is_disconnected c' = false ->
  exists p, from_bytes b = Ok p /\ parsed_step (note_seq c (packet_seq p)) p c'.
Proof.
  intros E Hal. destruct (process_packet_cases _ _ _ E) as [(st & S & ->)|(p & _ & Hp & PS)]; [exfalso|eauto].
  inversion S as [op Hd _|op _ Hs| |b0 e Hd He]; subst; [|discriminate Hs|discriminate Hal].
  rewrite set_status_same in Hal. congruence.
Qed.

(* a decoded packet leaves the top block of the pending acks alone: only an Ack packet touches them,
   and it prunes below lo *)
Lemma parsed_step_top c1 p c' lo hi :
  parsed_step c1 p c' -> conn_inv c1 -> packet_wf p -> is_disconnected c' = false ->
  ackrecs_below (c_sent c1) lo -> AcksP.top_block (c_acks c1) lo hi ->
  ackrecs_below (c_sent c') lo /\ AcksP.top_block (c_acks c') lo hi.
Proof.
  intros [p0 r _| | | | |sq rs l c2 El E2] Hi1 Hwf Hal Hb He; try (split; [exact Hb|exact He]).
  destruct (collect_new_acks_sent c1 rs l Hi1 (packet_wf_ack_ranges _ _ Hwf) El) as (Hnd & Hmem & _).
  exact (apply_acks_ends lo hi l _ c2 Hi1 Hnd Hmem E2 Hb He).
Qed.

Lemma process_fresh_packet c bytes p c' lo hi :
  conn_inv c -> decodes_wf p bytes -> process_packet c bytes = Ok c' -> is_disconnected c' = false ->
  packet_seq p = hi -> ackrecs_below (c_sent c) lo -> acks_upto (c_acks c) lo hi ->
  ackrecs_below (c_sent c') lo /\ acks_upto (c_acks c') lo (hi + 1).
Proof.
  intros Hi Hdec E Hal Hseq Hb [Hle Hu].
  destruct (process_packet_alive c bytes c' E Hal) as (q & Hp & PS). destruct (Hdec _ Hp) as [-> Hwf].
  destruct (parsed_step_top _ p c' lo (hi + 1) PS (inv_note_seq c p Hi Hwf) Hwf Hal Hb) as [Hb' He'].
  - rewrite Hseq. unfold note_seq. cbn [with_acks c_acks]. exact (add_ack_next _ lo hi (ci_acks_wf c Hi) Hle Hu).
  - split; [exact Hb'|]. split; [lia|exact He'].
Qed.

Definition pkt_parts (p : packet) : list cpart := info_parts (pkt_info p).
Definition cparts (pk : list packet) : list cpart := flat_map pkt_parts pk.

Lemma cparts_app p q : cparts (p ++ q) = cparts p ++ cparts q.
Proof. unfold cparts. apply flat_map_app. Qed.

Lemma cparts_rel ch st pk : Forall (pkt_ok ch st) pk -> cparts pk = map (pair ch) (parts_of pk).
Proof.
  induction 1 as [|p t Hp _ IH]; [reflexivity|].
  change (cparts (p :: t)) with (pkt_parts p ++ cparts t). rewrite IH.
  destruct p as [sq c ms|sq c ms|sq c sl|sq c sl|sq rs]; cbn [pkt_ok] in Hp; try contradiction;
    destruct Hp as [-> _]; cbn [parts_of pkt_parts pkt_info info_parts].
  - rewrite map_app, !map_map. reflexivity.
  - reflexivity.
Qed.

Lemma cparts_unrel ch pk : Forall (SendUnrelP.unrel_pkt_ch ch) pk -> cparts pk = [].
Proof.
  induction 1 as [|p t Hp _ IH]; [reflexivity|].
  change (cparts (p :: t)) with (pkt_parts p ++ cparts t). rewrite IH.
  destruct p; cbn [SendUnrelP.unrel_pkt_ch] in Hp; try contradiction; reflexivity.
Qed.

Definition all_due (c : conn) (ch : N) : Prop :=
  forall s id p l, sm_find ch (c_sr c) = Some s -> SendRelP.plast s id p = Some l ->
                   is_due (c_now c) (sr_resend s) l.

(* each transmitted part carries at most SLICE_SIZE bytes *)
Lemma payload_le_parts now ch s pk :
  sr_inv now s -> Forall (pkt_ok ch (st_of (sr_unacked s))) pk ->
  payload_total pk <= SLICE_SIZE * len (parts_of pk).
Proof.
  intros Hinv. induction 1 as [|p t Hp _ IH].
  - unfold payload_total. cbn [map parts_of]. rewrite sum_nil. lia.
  - change (payload_total (p :: t)) with (sum (payload_bytes p :: map payload_bytes t)).
    rewrite sum_cons. fold (payload_total t).
    destruct p as [sq c ms|sq c ms|sq c sl|sq c sl|sq rs]; cbn [pkt_ok] in Hp; try contradiction;
      cbn [parts_of payload_bytes].
    + destruct Hp as [_ He]. rewrite len_app, len_map.
      assert (Hs : sum (map (fun im : N * list N => len (snd im)) ms) <= SLICE_SIZE * len ms).
      { clear IH. induction He as [|im ms' Him _ IHe]; cbn [map].
        - rewrite sum_nil. lia.
        - rewrite sum_cons, len_cons.
          apply SendRelP.st_of_small in Him. destruct Him as (l & Eu).
          destruct (SendRelP.sr_inv_find _ _ _ _ Hinv Eu) as (_ & [Hl _] & _). lia. }
      lia.
    + destruct Hp as [_ (m & num & Hst & Hsl & Hidx)]. rewrite len_cons.
      apply SendRelP.st_of_sliced in Hst. destruct Hst as (na & nx & ak & ls & Eu).
      destruct (SendRelP.sr_inv_find _ _ _ _ Hinv Eu) as (_ & (W1 & W2 & _) & _). subst num.
      rewrite Hsl. cbn [slice_of sl_payload].
      pose proof (SMapSendP.plen_bounds m (sl_index sl) ltac:(lia) Hidx) as Hb. unfold SMapSendP.plen in Hb. lia.
Qed.

Lemma chan_bytes_rel c ch s : sm_find ch (c_sr c) = Some s -> chan_bytes c (true, ch) = sr_mem s.
Proof. unfold chan_bytes. cbn [fst snd]. now intros ->. Qed.

Lemma chan_bytes_unrel c ch s : sm_find ch (c_su c) = Some s -> chan_bytes c (false, ch) = su_mem s.
Proof. unfold chan_bytes. cbn [fst snd]. now intros ->. Qed.

Lemma map_ext_in' {A B} (f g : A -> B) l : (forall x, In x l -> f x = g x) -> map f l = map g l.
Proof. apply map_ext_in. Qed.

(* No channel is listed twice in the send order, so every turn of the gathering loop finds its
   channel as it was when the loop began: the loop is a chain of per-channel calls on the channels
   of c itself, and only the sequence number and the budget pass from one turn to the next. *)
Inductive turns (c : conn) : list (bool * N) -> N -> N -> N -> list packet -> Prop :=
| TNil : forall sq av, turns c [] sq av av []
| TRel : forall ch t sq av s s' pk sq1 av1 av2 pk2,
    sm_find ch (c_sr c) = Some s -> sr_get_packets s sq av (c_now c) = Ok (s', pk, sq1, av1) ->
    turns c t sq1 av1 av2 pk2 -> turns c ((true, ch) :: t) sq av av2 (pk ++ pk2)
| TUnrel : forall ch t sq av s s' pk sq1 av1 av2 pk2,
    sm_find ch (c_su c) = Some s -> su_get_packets s sq av = Ok (s', pk, sq1, av1) ->
    turns c t sq1 av1 av2 pk2 -> turns c ((false, ch) :: t) sq av av2 (pk ++ pk2).

(* c agrees with the connection c0 the loop runs on: same clock, same channels for what is left *)
Lemma gather_turns ord c0 avail c1 av pk : gather_rel ord c0 avail c1 av pk ->
  forall c, c_now c = c_now c0 ->
  (forall ch, In (true, ch) ord -> sm_find ch (c_sr c) = sm_find ch (c_sr c0)) ->
  (forall ch, In (false, ch) ord -> sm_find ch (c_su c) = sm_find ch (c_su c0)) ->
  NoDup ord -> turns c ord (c_seq c0) avail av pk.
Proof.
  induction 1 as [c0 av|ch t c0 av s s' pk sq1 av1 c2 av2 pk2 Hs Eg _ IH
                  |ch t c0 av s s' pk sq1 av1 c2 av2 pk2 Hs Eg _ IH];
    intros c Hnow Hr Hu Hnd; [constructor| |]; inversion Hnd as [|? ? Hnotin Hnd']; subst.
  - apply (TRel c ch t _ av s s' pk sq1 av1); [rewrite Hr by (now left); exact Hs|rewrite Hnow; exact Eg|].
    apply IH; [exact Hnow| |intros ch0 Hin; apply Hu; now right|exact Hnd'].
    intros ch0 Hin. cbn [with_seq with_sr c_sr]. rewrite sm_find_insert_other; [apply Hr; now right|].
    intros ->. contradiction.
  - apply (TUnrel c ch t _ av s s' pk sq1 av1); [rewrite Hu by (now left); exact Hs|exact Eg|].
    apply IH; [exact Hnow|intros ch0 Hin; apply Hr; now right| |exact Hnd'].
    intros ch0 Hin. cbn [with_seq with_su c_su]. rewrite sm_find_insert_other; [apply Hu; now right|].
    intros ->. contradiction.
Qed.

Lemma turns_budget c ord sq avail av pk : turns c ord sq avail av pk -> conn_inv c ->
  av <= avail /\ avail <= av + sum (map (chan_bytes c) ord) /\
  ((forall ch s, In (false, ch) ord -> sm_find ch (c_su c) = Some s -> su_queue s = []) ->
   avail = av + payload_total pk /\ payload_total pk <= SLICE_SIZE * len (cparts pk)).
Proof.
  intros H Hi.
  induction H as [|ch t sq av s s' pk sq1 av1 av2 pk2 Hs Eg _ (A1 & A2 & A3)
                  |ch t sq av s s' pk sq1 av1 av2 pk2 Hs Eg _ (A1 & A2 & A3)]; cbn [map].
  - rewrite sum_nil. split; [lia|]. split; [lia|]. intros _.
    unfold payload_total. cbn [map cparts flat_map]. rewrite sum_nil, (@len_nil cpart). lia.
  - destruct (inv_find_sr _ _ _ Hi Hs) as [Hsi Hch].
    pose proof (SendRelP.sr_get_packets_facts Hsi Eg) as T.
    pose proof (SendRelP.tf_pkts T) as Hpk. rewrite Hch in Hpk.
    pose proof (SendRelP.tf_avail T) as Hav.
    pose proof (SendRelP.tf_bound T) as Hbd.
    rewrite sum_cons, (chan_bytes_rel c ch s Hs). split; [lia|]. split; [lia|]. intros Hq.
    destruct A3 as [B1 B2]; [intros ch0 s0 Hin; apply Hq; now right|].
    rewrite SMapSendP.payload_total_app, cparts_app, len_app, (cparts_rel _ _ _ Hpk), len_map.
    pose proof (payload_le_parts _ ch s pk Hsi Hpk). lia.
  - destruct (inv_find_su _ _ _ Hi Hs) as [Hsi Hch].
    destruct (SendUnrelP.su_turn_ok _ _ _ _ _ _ _ Hsi Eg) as (_ & _ & _ & Hpc & _).
    rewrite (SendUnrelP.su_get_packets_spec s sq av Hsi) in Eg.
    unfold SendUnrelP.su_spec in Eg. injection Eg as _ Epk _ Eav.
    pose proof (SendUnrelP.su_left_ge av (su_queue s)) as Hleft.
    pose proof (SendUnrelP.su_left_kept av (su_queue s)) as Hkept.
    destruct Hsi as [Hmem _].
    rewrite sum_cons, (chan_bytes_unrel c ch s Hs). split; [lia|]. split; [lia|]. intros Hq.
    destruct A3 as [B1 B2]; [intros ch0 s0 Hin; apply Hq; now right|].
    rewrite cparts_app, (cparts_unrel _ _ Hpc).
    rewrite (Hq ch s (or_introl eq_refl) Hs) in Epk, Eav.
    cbn [SendUnrelP.su_kept SendUnrelP.su_pack SendUnrelP.su_left] in Epk, Eav.
    subst pk av1. exact (conj B1 B2).
Qed.

Lemma turns_parts c ord sq avail av pk : turns c ord sq avail av pk -> conn_inv c -> NoDup ord ->
  (forall y, In y (cparts pk) -> pend c y /\ In (true, fst y) ord) /\
  NoDup (cparts pk) /\
  (SLICE_SIZE <= av -> forall ch id p, In (true, ch) ord -> all_due c ch ->
                       pend c (ch, (id, p)) -> In (ch, (id, p)) (cparts pk)).
Proof.
  intros H Hi.
  induction H as [|ch t sq av s s' pk sq1 av1 av2 pk2 Hs Eg Ht IH|ch t sq av s s' pk sq1 av1 av2 pk2 Hs Eg Ht IH];
    intros Hnd.
  - split; [intros y []|]. split; [constructor|intros _ ch id p []].
  - inversion Hnd as [|? ? Hnotin Hnd']; subst. destruct (IH Hnd') as (A2 & A3 & A4).
    destruct (inv_find_sr _ _ _ Hi Hs) as [Hsi Hch].
    pose proof (SendRelP.sr_get_packets_facts Hsi Eg) as T.
    pose proof (SendRelP.tf_pkts T) as Hpk. rewrite Hch in Hpk.
    rewrite cparts_app, (cparts_rel _ _ _ Hpk). split; [|split].
    + intros y Hy. apply in_app_or in Hy. destruct Hy as [Hy|Hy].
      * apply in_map_iff in Hy. destruct Hy as ([id p] & <- & Hin).
        destruct (SendRelP.tick_sent T id p Hin) as (l & _ & _ & Hp & _).
        split; [cbn [pend]; eauto|now left].
      * destruct (A2 y Hy) as [Hp Hin]. split; [exact Hp|now right].
    + apply NoDup_app_intro; [|exact A3|].
      * apply NoDup_map_pair. exact (SendRelP.tf_nodup T).
      * intros y Hy Hy'. apply in_map_iff in Hy. destruct Hy as (ip & <- & _).
        destruct (A2 _ Hy') as [_ Hin]. contradiction.
    + intros Hge ch0 id p Hin Hdue Hp. apply in_or_app. destruct Hin as [Heq|Hin]; [|right; now apply A4].
      injection Heq as <-. left. apply in_map_iff. exists (id, p). split; [reflexivity|].
      destruct Hp as (s0 & Hs0 & Hp). rewrite Hs in Hs0. injection Hs0 as <-.
      destruct (SendRelP.packed_plast _ _ _ _ _ Hsi Hp) as (l & Hl).
      destruct (turns_budget _ _ _ _ _ _ Ht Hi) as [Hle _].
      apply (SendRelP.tick_prompt T id p l); [lia|exact Hl| |exact Hp]. eapply Hdue; eauto.
  - inversion Hnd as [|? ? Hnotin Hnd']; subst. destruct (IH Hnd') as (A2 & A3 & A4).
    destruct (inv_find_su _ _ _ Hi Hs) as [Hsi Hch].
    destruct (SendUnrelP.su_turn_ok _ _ _ _ _ _ _ Hsi Eg) as (_ & _ & _ & Hpc & _).
    rewrite cparts_app, (cparts_unrel _ _ Hpc). cbn [app]. split; [|split; [exact A3|]].
    + intros y Hy. destruct (A2 y Hy) as [Hp Hin]. split; [exact Hp|now right].
    + intros Hge ch0 id p Hin. destruct Hin as [Heq|Hin]; [discriminate|now apply A4].
Qed.

Lemma cparts_ack_part seq acks : cparts (ack_part seq acks) = [].
Proof. destruct acks; reflexivity. Qed.

Lemma unrel_queued_iff c : conn_inv c ->
  unrel_queued c = false <-> forall ch s, sm_find ch (c_su c) = Some s -> su_queue s = [].
Proof.
  intros Hi. unfold unrel_queued. rewrite <- Bool.not_true_iff_false, existsb_exists. split.
  - intros H ch s Hs. destruct (su_queue s) as [|m q] eqn:Eq; [reflexivity|exfalso].
    apply H. exists (ch, s). split; [now apply sm_find_in|]. cbn [snd]. now rewrite Eq.
  - intros H ([ch q] & Hin & Hq). cbn [snd] in Hq.
    rewrite (H ch q (sm_in_find _ _ _ (ci_su_sorted c Hi) Hin)) in Hq. discriminate.
Qed.

(* a turn empties the queue of its channel and touches no other *)
Lemma gather_su_emptied ord c avail c1 av pk : gather_rel ord c avail c1 av pk -> conn_inv c ->
  forall ch s', sm_find ch (c_su c1) = Some s' ->
    In (false, ch) ord \/ (exists s, sm_find ch (c_su c) = Some s /\ su_queue s = []) -> su_queue s' = [].
Proof.
  revert ord c avail c1 av pk.
  apply (gather_rel_inv_ind (fun ord c _ c1 _ _ => forall ch s', sm_find ch (c_su c1) = Some s' ->
           In (false, ch) ord \/ (exists s, sm_find ch (c_su c) = Some s /\ su_queue s = []) -> su_queue s' = [])).
  - intros c _ _ ch s' Hs' [[]|(s & Hs & Hq)]. congruence.
  - intros ch0 t c av s s1 pk seq' av1 c2 av2 pk2 _ _ _ _ _ IH ch s' Hs' H. apply (IH ch s' Hs').
    destruct H as [[[=]|Hin]|H]; [now left|right; exact H].
  - intros ch0 t c av s s1 pk seq' av1 c2 av2 pk2 Hs Hsi _ Eg _ IH ch s' Hs' H. apply (IH ch s' Hs').
    destruct (SendUnrelP.su_turn_ok _ _ _ _ _ _ _ Hsi Eg) as (Hq & _). cbn [with_seq with_su c_su].
    destruct (N.eq_dec ch ch0) as [->|Hne]; [right; exists s1; now rewrite sm_find_insert_same|].
    destruct H as [[[=]|Hin]|H]; [congruence|now left|right]. now rewrite sm_find_insert_other.
Qed.

(* av: the budget the flush leaves over *)
Set Implicit Arguments.
Record transmits (c c' : conn) (pk : list packet) (av : N) : Prop := {
  tx_seqs : seqs_from (c_seq c) pk;
  tx_sent : forall p, In p pk -> sm_find (packet_seq p) (c_sent c') = Some (c_now c, pkt_info p);
  tx_static : sr_static (c_sr c) (c_sr c');
  tx_su : forall ch s', sm_find ch (c_su c') = Some s' -> su_queue s' = [];
  tx_pend : forall y, In y (cparts pk) -> pend c y;
  tx_nodup : NoDup (cparts pk);
  tx_all : SLICE_SIZE <= av -> (forall ch, all_due c ch) -> forall y, pend c y -> In y (cparts pk);
  tx_bytes : c_budget c <= av + pending_bytes c;
  tx_parts : unrel_queued c = false -> c_budget c <= av + SLICE_SIZE * len (cparts pk)
}.
Unset Implicit Arguments.

Lemma flush_live c c' bytes :
  conn_inv c -> chans_u8 c -> is_disconnected c = false -> order_inv c ->
  get_packets_to_send c = Ok (c', bytes) ->
  exists pk av, Forall2 decodes_wf pk bytes /\ transmits c c' pk av.
Proof.
  intros Hi Hu8 Hd (Ond & Orel & Ounrel) E.
  destruct (flush_summary c c' bytes Hi Hu8 Hd E) as (c1 & av & pk & pks & F).
  pose proof (fl_gather F) as Hrel. pose proof (fl_pk F) as Epk. subst pks. destruct (fl_unrel F) as (f & Hsu).
  pose proof (gather_turns _ _ _ _ _ _ Hrel c eq_refl (fun _ _ => eq_refl) (fun _ _ => eq_refl) Ond) as Ht.
  destruct (turns_budget _ _ _ _ _ _ Ht Hi) as (_ & L5 & L6).
  destruct (turns_parts _ _ _ _ _ _ Ht Hi Ond) as (L2 & L3 & L4).
  exists (flush_pkts c1 pk), av. split; [exact (fl_dec F)|].
  assert (Ecp : cparts (flush_pkts c1 pk) = cparts pk)
    by (unfold flush_pkts; now rewrite cparts_app, cparts_ack_part, app_nil_r).
  constructor; rewrite ?Ecp;
    [exact (fl_seqs F)|exact (fl_new F)|exact (fl_static F)| |intros y Hy; now apply L2|exact L3| |exact L5|].
  - intros ch s' Hs'. rewrite (fl_su F) in Hs'. destruct Hsu as (A & _).
    (* every unreliable channel had its turn: it is listed in the send order *)
    apply (gather_su_emptied _ _ _ _ _ _ Hrel Hi ch s' Hs'). left.
    apply Ounrel. specialize (A ch). unfold sm_mem. destruct (sm_find ch (c_su c)); [reflexivity|].
    rewrite (fl_su F) in A. congruence.
  - intros Hge Hdue [ch [id p]] Hp. apply L4; auto. apply Orel.
    destruct Hp as (s & Hs & _). eapply sm_find_some_mem; eauto.
  - intros Hq. destruct L6 as [B1 B2]; [intros ch s _; now apply (unrel_queued_iff c Hi)|]. lia.
Qed.

Lemma flush_acks c c' bytes :
  conn_inv c -> chans_u8 c -> is_disconnected c = false -> get_packets_to_send c = Ok (c', bytes) ->
  exists pk, Forall2 decodes_wf pk bytes /\ c_rr c' = c_rr c /\
    (c_acks c <> [] -> exists sq, In (Ack sq (c_acks c)) pk) /\
    (forall sq rs, In (Ack sq rs) pk -> rs = c_acks c).
Proof.
  intros Hi Hu8 Hd E. destruct (flush_summary c c' bytes Hi Hu8 Hd E) as (c1 & av & pk0 & pk & F).
  destruct (g_frame (gather_facts _ _ _ _ _ _ (fl_gather F) Hi)) as (_ & _ & Hacks1 & _).
  exists pk. split; [exact (fl_dec F)|]. split; [exact (fl_rr F)|]. split.
  - intros Hne. exists (c_seq c1). rewrite (fl_pk F). apply in_or_app. right. rewrite Hacks1.
    destruct (c_acks c); [congruence|]. now left.
  - intros sq rs Hin. now destruct (proj1 (Forall_forall _ _) (fl_emit F) _ Hin) as [-> _].
Qed.

Lemma sys_api_step s x op s' : is_process op = false -> sys_step s (SysApi x op) = Ok s' ->
  exists c' out, conn_step (conn_of s x) op c' out /\
    conn_of s' x = c' /\ conn_of s' (flip_side x) = conn_of s (flip_side x) /\
    out_of s' x = out_of s x ++ outs_of out /\ out_of s' (flip_side x) = out_of s (flip_side x) /\
    got_of s' x = got_upd op out (got_of s x) /\
    ((forall ch m, op <> CSend ch m) -> sent_a s' = sent_a s /\ sent_b s' = sent_b s).
Proof.
  intros Hnp E. cbn [sys_step] in E. rewrite Hnp in E.
  destruct (cstep (conn_of s x) op) as [[c' out]| |] eqn:Ec; cbn [bind] in E; try discriminate.
  injection E as <-. exists c', out. split; [now apply cstep_inv|].
  destruct x; cbn [upd_side conn_of flip_side out_of got_of ra rb out_a out_b got_a got_b sent_a sent_b];
    repeat split; try reflexivity; destruct op; try reflexivity; exfalso; eapply H; reflexivity.
Qed.

Definition only_side (x : side) (s s' : rsys) : Prop :=
  conn_of s' (flip_side x) = conn_of s (flip_side x) /\ out_a s' = out_a s /\ out_b s' = out_b s /\
  sent_a s' = sent_a s /\ sent_b s' = sent_b s.

Lemma only_side_refl x s : only_side x s s.
Proof. repeat split. Qed.

Lemma only_side_trans x a b c : only_side x a b -> only_side x b c -> only_side x a c.
Proof. intros (A1 & A2 & A3 & A4 & A5) (B1 & B2 & B3 & B4 & B5). repeat split; congruence. Qed.

Lemma only_side_intro x s s' :
  conn_of s' (flip_side x) = conn_of s (flip_side x) -> out_of s' x = out_of s x ->
  out_of s' (flip_side x) = out_of s (flip_side x) -> sent_a s' = sent_a s /\ sent_b s' = sent_b s ->
  only_side x s s'.
Proof. intros A B C [D E]. destruct x; cbn [out_of flip_side] in B, C; repeat split; assumption. Qed.

Lemma sys_deliver_step s x i s' : sys_step s (SysDeliver x i) = Ok s' ->
  only_side x s s' /\
  match nth_error (out_of s (flip_side x)) i with
  | None => s' = s
  | Some b => process_packet (conn_of s x) b = Ok (conn_of s' x)
  end.
Proof.
  intros E. cbn [sys_step] in E. destruct x; cbn [flip_side out_of conn_of].
  - destruct (nth_error (out_b s) i) as [b|]; [|injection E as <-; repeat split].
    destruct (process_packet (ra s) b) as [c'| |]; cbn [bind] in E; try discriminate.
    injection E as <-. repeat split.
  - destruct (nth_error (out_a s) i) as [b|]; [|injection E as <-; repeat split].
    destruct (process_packet (rb s) b) as [c'| |]; cbn [bind] in E; try discriminate.
    injection E as <-. repeat split.
Qed.

Lemma run_trans s s1 s2 :
  (exists ops, sys_run s ops = Ok s1) -> (exists ops, sys_run s1 ops = Ok s2) -> exists ops, sys_run s ops = Ok s2.
Proof. intros (a & Ea) (b & Eb). exists (a ++ b). now rewrite sys_run_app, Ea. Qed.

Lemma run_one s o s' : sys_step s o = Ok s' -> exists ops, sys_run s ops = Ok s'.
Proof. intros E. exists [o]. cbn [sys_run]. now rewrite E. Qed.

Lemma deliver_from_is_run x : forall n i s s', deliver_from x i n s = Ok s' ->
  sys_run s (map (SysDeliver x) (seq i n)) = Ok s'.
Proof.
  induction n as [|n IH]; intros i s s' E; cbn [deliver_from seq map sys_run] in *; [exact E|].
  destruct (sys_step s (SysDeliver x i)) as [s1| |]; cbn [bind] in *; try discriminate. now apply IH.
Qed.

Lemma flush_deliver_is_run x s s' : flush_deliver x s = Ok s' -> exists ops, sys_run s ops = Ok s'.
Proof.
  unfold flush_deliver. intros E. apply bind_ok in E. destruct E as (s1 & E1 & E).
  exact (run_trans _ _ _ (run_one _ _ _ E1) (ex_intro _ _ (deliver_from_is_run _ _ _ _ _ E))).
Qed.

Lemma drain_chan_is_run x ch : forall fuel s s', drain_chan fuel x ch s = Ok s' -> exists ops, sys_run s ops = Ok s'.
Proof.
  induction fuel as [|f IH]; intros s s' E; cbn [drain_chan] in E; [discriminate|].
  apply bind_ok in E. destruct E as (s1 & E1 & E). destruct (Nat.eqb _ _).
  - injection E as <-. exact (run_one _ _ _ E1).
  - exact (run_trans _ _ _ (run_one _ _ _ E1) (IH s1 s' E)).
Qed.

Lemma drain_is_run x s s' : drain x s = Ok s' -> exists ops, sys_run s ops = Ok s'.
Proof.
  unfold drain. generalize (recv_channels (conn_of s x)). intros chs. revert s.
  induction chs as [|ch t IH]; intros s E; cbn [drain_chans] in E.
  - injection E as <-. now exists [].
  - apply bind_ok in E. destruct E as (s1 & E1 & E).
    exact (run_trans _ _ _ (drain_chan_is_run _ _ _ _ _ E1) (IH s1 E)).
Qed.

Lemma good_tick_ok s dt s' : good_tick s dt = Ok s' ->
  exists s1 s2 s3 s4 s5,
    sys_step s (SysApi SA (CUpdate dt)) = Ok s1 /\ sys_step s1 (SysApi SB (CUpdate dt)) = Ok s2 /\
    flush_deliver SA s2 = Ok s3 /\ drain SB s3 = Ok s4 /\ flush_deliver SB s4 = Ok s5 /\ drain SA s5 = Ok s'.
Proof.
  unfold good_tick. intros E.
  apply bind_ok in E. destruct E as (s1 & E1 & E). apply bind_ok in E. destruct E as (s2 & E2 & E).
  apply bind_ok in E. destruct E as (s3 & E3 & E). apply bind_ok in E. destruct E as (s4 & E4 & E).
  apply bind_ok in E. destruct E as (s5 & E5 & E). exists s1, s2, s3, s4, s5. repeat split; assumption.
Qed.

Lemma good_tick_is_run s dt s' : good_tick s dt = Ok s' -> exists ops, sys_run s ops = Ok s'.
Proof.
  intros E. destruct (good_tick_ok _ _ _ E) as (s1 & s2 & s3 & s4 & s5 & E1 & E2 & E3 & E4 & E5 & E6).
  apply (run_trans _ _ _ (run_one _ _ _ E1)), (run_trans _ _ _ (run_one _ _ _ E2)).
  apply (run_trans _ _ _ (flush_deliver_is_run _ _ _ E3)), (run_trans _ _ _ (drain_is_run _ _ _ E4)).
  exact (run_trans _ _ _ (flush_deliver_is_run _ _ _ E5) (drain_is_run _ _ _ E6)).
Qed.

Lemma alive_split s : alive s = true <-> is_disconnected (ra s) = false /\ is_disconnected (rb s) = false.
Proof. unfold alive. destruct (is_disconnected (ra s)), (is_disconnected (rb s)); cbn; intuition congruence. Qed.

Lemma run_dead s s' x : (exists ops, sys_run s ops = Ok s') ->
  is_disconnected (conn_of s x) = true -> is_disconnected (conn_of s' x) = true.
Proof.
  intros (ops & E) Hd.
  apply (steps_inv sys_step (fun s1 => is_disconnected (conn_of s1 x) = true)) with (3 := E); [|exact Hd].
  intros s1 o s2 H E1. exact (one_call_dead _ _ (sys_step_side s1 o s2 x E1) H).
Qed.

Lemma run_alive s s' : (exists ops, sys_run s ops = Ok s') -> alive s' = true -> alive s = true.
Proof.
  intros R H. apply alive_split in H. destruct H as [H1 H2]. apply alive_split. split.
  - destruct (is_disconnected (ra s)) eqn:E; [|reflexivity].
    pose proof (run_dead s s' SA R E) as D. cbn [conn_of] in D. congruence.
  - destruct (is_disconnected (rb s)) eqn:E; [|reflexivity].
    pose proof (run_dead s s' SB R E) as D. cbn [conn_of] in D. congruence.
Qed.

Lemma run_tick_inv cfg_ab cfg_ba s s' :
  (exists ops, sys_run s ops = Ok s') -> tick_inv cfg_ab cfg_ba s -> tick_inv cfg_ab cfg_ba s'.
Proof. intros (ops & E) H. exact (tick_inv_run _ _ _ _ _ H E). Qed.

Lemma deliver_from_step cfg_ab cfg_ba x i b bs s s' :
  (forall j b0, nth_error (b :: bs) j = Some b0 -> nth_error (out_of s (flip_side x)) (i + j) = Some b0) ->
  deliver_from x i (S (length bs)) s = Ok s' -> tick_inv cfg_ab cfg_ba s -> is_disconnected (conn_of s' x) = false ->
  exists s1, deliver_from x (S i) (length bs) s1 = Ok s' /\ tick_inv cfg_ab cfg_ba s1 /\ only_side x s s1 /\
    (forall j b0, nth_error bs j = Some b0 -> nth_error (out_of s1 (flip_side x)) (S i + j) = Some b0) /\
    process_packet (conn_of s x) b = Ok (conn_of s1 x) /\ is_disconnected (conn_of s1 x) = false.
Proof.
  intros Hpos E Hinv Halive. cbn [deliver_from] in E.
  destruct (sys_step s (SysDeliver x i)) as [s1| |] eqn:E1; cbn [bind] in E; try discriminate.
  destruct (sys_deliver_step _ _ _ _ E1) as (O1 & Hp).
  pose proof (Hpos 0%nat b eq_refl) as Hnth. rewrite Nat.add_0_r in Hnth. rewrite Hnth in Hp.
  exists s1. split; [exact E|]. split; [exact (tick_inv_step _ _ _ _ _ Hinv E1)|]. split; [exact O1|]. split.
  { intros j b0 Hj. replace (out_of s1 (flip_side x)) with (out_of s (flip_side x)).
    - rewrite Nat.add_succ_comm. apply Hpos. exact Hj.
    - destruct O1 as (_ & A2 & A3 & _). destruct x; cbn [out_of flip_side]; congruence. }
  split; [exact Hp|].
  destruct (is_disconnected (conn_of s1 x)) eqn:Hd; [|reflexivity].
  pose proof (run_dead s1 s' x (ex_intro _ _ (deliver_from_is_run _ _ _ _ _ E)) Hd) as Hdd. congruence.
Qed.

Lemma deliver_b_run cfg_ab cfg_ba lo : forall pk bs, Forall2 decodes_wf pk bs -> forall i s s' hi,
  (forall j b, nth_error bs j = Some b -> nth_error (out_a s) (i + j) = Some b) ->
  seqs_from hi pk ->
  deliver_from SB i (length bs) s = Ok s' ->
  tick_inv cfg_ab cfg_ba s -> is_disconnected (rb s') = false ->
  ackrecs_below (c_sent (rb s)) lo -> acks_upto (c_acks (rb s)) lo hi ->
  only_side SB s s' /\ ackrecs_below (c_sent (rb s')) lo /\ acks_upto (c_acks (rb s')) lo (hi + len bs).
Proof.
  induction 1 as [|p b pk bs Hpb _ IH]; intros i s s' hi Hpos Hseqs E Hinv Halive Hb Hu; cbn [length] in E.
  - injection E as <-. rewrite len_nil, N.add_0_r. split; [apply only_side_refl|auto].
  - destruct (deliver_from_step _ _ SB i b bs s s' Hpos E Hinv Halive) as (s1 & E' & Hinv1 & O1 & Hpos1 & Hp & Hd1).
    cbn [conn_of out_of flip_side] in Hpos1, Hp, Hd1. cbn [seqs_from] in Hseqs. destruct Hseqs as [Hsq Hseqs].
    destruct (process_fresh_packet (rb s) b p (rb s1) lo hi (tick_inv_conn _ _ _ SB Hinv) Hpb Hp Hd1 Hsq Hb Hu) as (Hb1 & Hu1).
    destruct (IH (S i) s1 s' (hi + 1)) as (B1 & B6 & B7); auto.
    rewrite len_cons, N.add_assoc. split; [exact (only_side_trans _ _ _ _ O1 B1)|auto].
Qed.

Lemma pend_static c c' y : sr_static (c_sr c) (c_sr c') -> (pend c' y <-> pend c y).
Proof.
  intros Hst. destruct y as [ch [id p]]. cbn [pend]. specialize (Hst ch).
  destruct (sm_find ch (c_sr c)) as [s|].
  - destruct Hst as (s' & -> & _ & _ & Hp). split.
    + intros (s0 & [= <-] & H). exists s. split; [reflexivity|]. now rewrite <- Hp.
    + intros (s0 & [= <-] & H). exists s'. split; [reflexivity|]. now rewrite Hp.
  - rewrite Hst. split; intros (s0 & [=] & _).
Qed.

Lemma pend_ext c c' y : c_sr c' = c_sr c -> (pend c' y <-> pend c y).
Proof. intros E. apply pend_static. rewrite E. apply sr_static_refl. Qed.

Lemma process_a_step c b p c' :
  conn_inv c -> decodes_wf p b -> process_packet c b = Ok c' -> is_disconnected c' = false ->
  c_su c' = c_su c /\ (forall y, pend c' y -> pend c y) /\
  (is_ack p = false -> c_sent c' = c_sent c) /\
  (forall sq rs, p = Ack sq rs -> forall x t info y, in_ranges x rs -> sm_find x (c_sent c) = Some (t, info) ->
                                   In y (info_parts info) -> ~ pend c' y).
Proof.
  intros Hi Hdec E Hal.
  destruct (process_packet_alive c b c' E Hal) as (q & Hp & PS). destruct (Hdec _ Hp) as [-> Hwf].
  destruct (is_ack p) eqn:Ha.
  - destruct p as [| | | |sq rs]; try discriminate Ha. pose proof (inv_note_seq c _ Hi Hwf) as Hi1.
    inversion PS as [p0 r _| | | | |sq0 rs0 l c3 El E2]; subst.
    { discriminate Hal. }
    destruct (process_ack_pend _ rs l c' Hi1 (packet_wf_ack_ranges _ _ Hwf) El E2) as [M F].
    pose proof (af_su (apply_acks_frame _ _ _ E2)) as Esu.
    split; [exact Esu|]. split; [exact M|]. split; [discriminate|]. intros sq0 rs0 [= <- <-]. exact F.
  - destruct (data_packet_frame _ p c' PS Ha) as (_ & _ & _ & Esr & Esu & Esent & _).
    split; [exact Esu|]. split; [intros y; now apply pend_ext|]. split; [auto|].
    intros sq rs ->. discriminate Ha.
Qed.

Definition tracked_or_released (c : conn) (t0 : N) (p : packet) : Prop :=
  sm_find (packet_seq p) (c_sent c) = Some (t0, pkt_info p) \/ (forall y, In y (pkt_parts p) -> ~ pend c y).

Lemma deliver_a_run cfg_ab cfg_ba (pk : list packet) (t0 : N) : forall pkB bs, Forall2 decodes_wf pkB bs -> forall i s s',
  (forall j b, nth_error bs j = Some b -> nth_error (out_b s) (i + j) = Some b) ->
  deliver_from SA i (length bs) s = Ok s' ->
  tick_inv cfg_ab cfg_ba s -> is_disconnected (ra s') = false ->
  Forall (fun q => forall sq rs, q = Ack sq rs -> forall p, In p pk -> in_ranges (packet_seq p) rs) pkB ->
  (forall p, In p pk -> tracked_or_released (ra s) t0 p) ->
  only_side SA s s' /\ c_su (ra s') = c_su (ra s) /\
  (forall y, pend (ra s') y -> pend (ra s) y) /\
  (Exists (fun q => is_ack q = true) pkB -> forall p y, In p pk -> In y (pkt_parts p) -> ~ pend (ra s') y).
Proof.
  induction 1 as [|q b pkB bs Hqb _ IH]; intros i s s' Hpos E Hinv Halive Hacks Htr; cbn [length] in E.
  - injection E as <-. split; [apply only_side_refl|]. split; [reflexivity|]. split; [auto|].
    intros Hex. inversion Hex.
  - destruct (deliver_from_step _ _ SA i b bs s s' Hpos E Hinv Halive) as (s1 & E' & Hinv1 & O1 & Hpos1 & Hp & Hd1).
    cbn [conn_of out_of flip_side] in Hpos1, Hp, Hd1.
    destruct (process_a_step (ra s) b q (ra s1) (tick_inv_conn _ _ _ SA Hinv) Hqb Hp Hd1) as (F1 & M1 & D1 & K1).
    inversion Hacks as [|? ? Hq Hacks']; subst.
    assert (Htr1 : forall p, In p pk -> tracked_or_released (ra s1) t0 p).
    { intros p Hin. destruct (is_ack q) eqn:Ha.
      - destruct q as [| | | |sq rs]; try discriminate. right. intros y Hy.
        destruct (Htr p Hin) as [Hf|Hrel].
        + exact (K1 sq rs eq_refl _ _ _ y (Hq sq rs eq_refl p Hin) Hf Hy).
        + intros Hpend. exact (Hrel y Hy (M1 y Hpend)).
      - destruct (Htr p Hin) as [Hf|Hrel]; [left; now rewrite (D1 eq_refl)|right].
        intros y Hy Hpend. exact (Hrel y Hy (M1 y Hpend)). }
    destruct (IH (S i) s1 s') as (B1 & B6 & B7 & B9); auto.
    split; [exact (only_side_trans _ _ _ _ O1 B1)|]. split; [congruence|]. split; [auto|].
    intros Hex p y Hin Hy. inversion Hex as [? ? Hack|? ? Hex']; subst; [|eapply B9; eauto].
    destruct q as [| | | |sq rs]; try discriminate.
    intros Hpend. apply B7 in Hpend. destruct (Htr1 p Hin) as [Hf|Hrel]; [|exact (Hrel y Hy Hpend)].
    (* the record cannot have survived its own acknowledgement *)
    destruct (Htr p Hin) as [Hf0|Hrel0].
    + exact (K1 sq rs eq_refl _ _ _ y (Hq sq rs eq_refl p Hin) Hf0 Hy Hpend).
    + exact (Hrel0 y Hy (M1 y Hpend)).
Qed.

Set Implicit Arguments.
Record frame_recv (c c' : conn) : Prop := {
  fr_sr : c_sr c' = c_sr c; fr_su : c_su c' = c_su c; fr_acks : c_acks c' = c_acks c;
  fr_status : c_status c' = c_status c }.
Unset Implicit Arguments.

Lemma frame_recv_refl c : frame_recv c c.
Proof. constructor; reflexivity. Qed.

Lemma frame_recv_trans a b c : frame_recv a b -> frame_recv b c -> frame_recv a c.
Proof. intros [A1 A2 A3 A4] [B1 B2 B3 B4]. constructor; congruence. Qed.

Lemma recv_call_frame c ch c' out : conn_step c (CRecv ch) c' out ->
  outs_of out = [] /\ frame_recv c c' /\
  (forall ch', ch' <> ch -> sm_find ch' (c_rr c') = sm_find ch' (c_rr c)) /\
  (forall ch', sm_mem ch' (c_rr c') = true -> sm_mem ch' (c_rr c) = true) /\
  ((forall m, out <> OMsg (Some m)) -> is_disconnected c = false ->
   forall r, sm_find ch (c_rr c') = Some r -> next_id r = None).
Proof.
  intros E. inversion E as [op st S| | |ch0 r r' mo _ Hr Er|ch0 r r' mo _ Hr _ _| | |]; subst; split; try reflexivity.
  - destruct (status_only_dead _ _ _ S eq_refl) as (Hd & _ & ->).
    split; [apply frame_recv_refl|]. split; [auto|]. split; [auto|]. intros _ Hd'. congruence.
  - split; [constructor; reflexivity|]. cbn [with_rr c_rr]. split; [intros ch' Hne; now apply sm_find_insert_other|].
    split.
    + intros ch'. rewrite sm_mem_insert. destruct (N.eqb_spec ch' ch) as [->|]; cbn [orb]; [|auto].
      intros _. eapply sm_find_some_mem; eauto.
    + intros Hn _ r0. rewrite sm_find_insert_same. intros [= <-]. destruct mo as [m|]; [now destruct (Hn m)|].
      destruct (RecvRelP.rr_receive_next_id _ _ _ Er) as [-> Hnone]. exact Hnone.
  - split; [constructor; reflexivity|]. cbn [with_ru c_rr]. split; [auto|]. split; [auto|]. intros _ _ r0 Hr0. congruence.
Qed.

Lemma log_add_length l ch m : length (log_get (log_add l ch m) ch) = S (length (log_get l ch)).
Proof. rewrite log_get_add_same, app_length. cbn [length]. lia. Qed.

Lemma recv_step s x ch s1 : sys_step s (SysApi x (CRecv ch)) = Ok s1 ->
  exists out, conn_step (conn_of s x) (CRecv ch) (conn_of s1 x) out /\ only_side x s s1 /\
    got_of s1 x = got_upd (CRecv ch) out (got_of s x).
Proof.
  intros E. destruct (sys_api_step s x (CRecv ch) s1 eq_refl E) as (c' & out & Ec & <- & A2 & A3 & A4 & A5 & A7).
  exists out. split; [exact Ec|]. split; [|exact A5]. rewrite (proj1 (recv_call_frame _ _ _ _ Ec)), app_nil_r in A3.
  apply only_side_intro; auto. apply A7. discriminate.
Qed.

Lemma drain_chan_run x ch : forall fuel s s', drain_chan fuel x ch s = Ok s' ->
  only_side x s s' /\ frame_recv (conn_of s x) (conn_of s' x) /\
  (forall ch', ch' <> ch -> sm_find ch' (c_rr (conn_of s' x)) = sm_find ch' (c_rr (conn_of s x))) /\
  (forall ch', sm_mem ch' (c_rr (conn_of s' x)) = true -> sm_mem ch' (c_rr (conn_of s x)) = true) /\
  (is_disconnected (conn_of s' x) = false -> forall r, sm_find ch (c_rr (conn_of s' x)) = Some r -> next_id r = None).
Proof.
  induction fuel as [|f IH]; intros s s' E; cbn [drain_chan] in E; [discriminate|].
  destruct (sys_step s (SysApi x (CRecv ch))) as [s1| |] eqn:E1; cbn [bind] in E; try discriminate.
  destruct (recv_step _ _ _ _ E1) as (out & Er & O1 & A5).
  destruct (recv_call_frame _ _ _ _ Er) as (_ & F1 & F2 & F3 & F4).
  destruct (Nat.eqb (length (log_get (got_of s1 x) ch)) (length (log_get (got_of s x) ch))) eqn:El.
  - injection E as <-. split; [exact O1|]. split; [exact F1|]. split; [exact F2|]. split; [exact F3|].
    intros Hd. apply F4.
    + intros m ->. cbn [got_upd] in A5. rewrite A5, log_add_length in El. apply Nat.eqb_eq in El. lia.
    + unfold is_disconnected in *. now rewrite <- (fr_status F1).
  - destruct (IH s1 s' E) as (B1 & B7 & B8 & B9 & B10).
    split; [exact (only_side_trans _ _ _ _ O1 B1)|]. split; [eapply frame_recv_trans; eauto|].
    split; [intros ch' Hne; rewrite (B8 ch' Hne); auto|]. split; [auto|exact B10].
Qed.

Lemma drain_chans_run x : forall chs s s', drain_chans x chs s = Ok s' ->
  only_side x s s' /\ frame_recv (conn_of s x) (conn_of s' x) /\
  (forall ch', ~ In ch' chs -> sm_find ch' (c_rr (conn_of s' x)) = sm_find ch' (c_rr (conn_of s x))) /\
  (forall ch', sm_mem ch' (c_rr (conn_of s' x)) = true -> sm_mem ch' (c_rr (conn_of s x)) = true) /\
  (is_disconnected (conn_of s' x) = false ->
   forall ch r, In ch chs -> sm_find ch (c_rr (conn_of s' x)) = Some r -> next_id r = None).
Proof.
  induction chs as [|ch t IH]; intros s s' E; cbn [drain_chans] in E.
  - injection E as <-. split; [apply only_side_refl|]. split; [apply frame_recv_refl|].
    split; [auto|]. split; [auto|]. intros _ ch r [].
  - destruct (drain_chan (S (buffered (conn_of s x) ch)) x ch s) as [s1| |] eqn:E1; cbn [bind] in E; try discriminate.
    destruct (drain_chan_run x ch _ s s1 E1) as (A1 & A7 & A8 & A9 & A10).
    destruct (IH s1 s' E) as (B1 & B7 & B8 & B9 & B10).
    split; [exact (only_side_trans _ _ _ _ A1 B1)|]. split; [eapply frame_recv_trans; eauto|].
    split.
    { intros ch' Hn. rewrite B8 by (intros H; apply Hn; now right). apply A8. intros ->. apply Hn. now left. }
    split; [auto|].
    intros Hd ch0 r Hin Hr. destruct (in_dec N.eq_dec ch0 t) as [Ht|Hnt]; [eapply B10; eauto|].
    destruct Hin as [<-|Hin]; [|contradiction].
    rewrite (B8 ch Hnt) in Hr. refine (A10 _ r Hr).
    unfold is_disconnected in *. now rewrite <- (fr_status B7).
Qed.

Definition drained (c : conn) : Prop := forall ch r, sm_find ch (c_rr c) = Some r -> next_id r = None.

Lemma drain_run x s s' : drain x s = Ok s' ->
  only_side x s s' /\ frame_recv (conn_of s x) (conn_of s' x) /\
  (is_disconnected (conn_of s' x) = false -> drained (conn_of s' x)).
Proof.
  unfold drain. intros E. destruct (drain_chans_run x _ s s' E) as (A1 & A7 & A8 & A9 & A10).
  split; [exact A1|]. split; [exact A7|]. intros Hd ch r Hr. apply (A10 Hd ch r); [|exact Hr].
  unfold recv_channels. apply in_or_app. left. apply sm_mem_in. apply A9. eapply sm_find_some_mem; eauto.
Qed.

Lemma flush_call c c' out : conn_step c CFlush c' out ->
  (is_disconnected c' = true /\ out = OPkts []) \/
  (is_disconnected c = false /\ exists bytes, out = OPkts bytes /\ get_packets_to_send c = Ok (c', bytes)).
Proof.
  intros E. inversion E as [op st S| | | | | |c0 bytes Hd Eg|]; subst; [left|right; eauto].
  destruct (status_only_dead _ _ _ S eq_refl) as (Hd & _ & ->). auto.
Qed.

Lemma flush_deliver_live cfg_ab cfg_ba x s s' :
  flush_deliver x s = Ok s' -> tick_inv cfg_ab cfg_ba s -> is_disconnected (conn_of s' x) = false ->
  exists s1 c' bytes,
    tick_inv cfg_ab cfg_ba s1 /\ is_disconnected (conn_of s x) = false /\
    get_packets_to_send (conn_of s x) = Ok (c', bytes) /\
    conn_of s1 x = c' /\ conn_of s1 (flip_side x) = conn_of s (flip_side x) /\
    out_of s1 x = out_of s x ++ bytes /\ out_of s1 (flip_side x) = out_of s (flip_side x) /\
    sent_a s1 = sent_a s /\ sent_b s1 = sent_b s /\
    deliver_from (flip_side x) (length (out_of s x)) (length bytes) s1 = Ok s'.
Proof.
  unfold flush_deliver. intros E Hinv Halive.
  destruct (sys_step s (SysApi x CFlush)) as [s1| |] eqn:E1; cbn [bind] in E; try discriminate.
  destruct (sys_api_step s x CFlush s1 eq_refl E1) as (c' & out & Ec & A1 & A2 & A3 & A4 & _ & A7).
  destruct A7 as [A5 A6]; [discriminate|].
  destruct (flush_call _ _ _ Ec) as [[Hdead ->]|(Hd & bytes & -> & Eg)]; cbn [outs_of] in A3.
  { exfalso. rewrite A3, app_nil_r, Nat.sub_diag in E. cbn [deliver_from] in E. injection E as <-. congruence. }
  rewrite A3, app_length, Nat.add_comm, Nat.add_sub in E.
  exists s1, c', bytes. split; [exact (tick_inv_step _ _ _ _ _ Hinv E1)|]. repeat split; assumption.
Qed.

Lemma phase_a_to_b cfg_ab cfg_ba s s' :
  flush_deliver SA s = Ok s' -> tick_inv cfg_ab cfg_ba s -> alive s' = true ->
  exists pk av, transmits (ra s) (ra s') pk av /\ sent_a s' = sent_a s /\
    (forall p, In p pk -> in_ranges (packet_seq p) (c_acks (rb s'))).
Proof.
  intros E0 Hinv Halive. apply alive_split in Halive. destruct Halive as [HaA HaB].
  destruct (flush_deliver_live _ _ SA s s' E0 Hinv HaA) as (s1 & c' & bytes & Hinv1 & Hd & Eg & A1 & A2 & A3 & A4 & A5 & A6 & E).
  cbn [conn_of out_of flip_side] in *.
  pose proof Hinv as ((Hbase & Dab & _) & (Hlin & Hoa) & _ & _). destruct Hbase as [Hia Hib Hua _ _ _].
  destruct (flush_live (ra s) c' bytes Hia Hua Hd Hoa Eg) as (pk & av & F1 & Htx).
  pose proof (tx_seqs Htx) as F2.
  assert (Hb0 : ackrecs_below (c_sent (rb s1)) (c_seq (ra s))).
  { rewrite A2. exact (li_ackrec _ _ _ _ _ _ _ _ Hlin). }
  assert (Hu0 : acks_upto (c_acks (rb s1)) (c_seq (ra s)) (c_seq (ra s))).
  { split; [apply N.le_refl|]. split; [intros x Hx; lia|].
    rewrite A2. unfold dir_inv in Dab. eapply acks_below_seq; eauto. }
  destruct (deliver_b_run cfg_ab cfg_ba (c_seq (ra s)) pk bytes F1 (length (out_a s)) s1 s' (c_seq (ra s)))
    as ((B1 & _ & _ & B4 & _) & _ & B7); auto.
  { intros j b Hj. rewrite A3. now apply nth_error_app_off. }
  cbn [conn_of flip_side] in B1. exists pk, av. rewrite B1, A1. split; [exact Htx|]. split; [congruence|].
  intros p Hp. rewrite <- (Forall2_len _ _ _ F1) in B7.
  pose proof (seqs_from_bounds _ _ F2) as HB. rewrite Forall_forall in HB. specialize (HB p Hp).
  destruct B7 as (_ & Hall & _). exact (Hall _ HB).
Qed.

Lemma phase_b_to_a cfg_ab cfg_ba (pk : list packet) (t0 : N) s s' :
  flush_deliver SB s = Ok s' -> tick_inv cfg_ab cfg_ba s -> alive s' = true ->
  (forall p, In p pk -> in_ranges (packet_seq p) (c_acks (rb s))) ->
  (forall p, In p pk -> sm_find (packet_seq p) (c_sent (ra s)) = Some (t0, pkt_info p)) ->
  c_rr (rb s') = c_rr (rb s) /\ sent_a s' = sent_a s /\ c_su (ra s') = c_su (ra s) /\
  (forall y, pend (ra s') y -> pend (ra s) y) /\
  (forall y, In y (cparts pk) -> ~ pend (ra s') y).
Proof.
  intros E0 Hinv Halive Hacked Htracked. apply alive_split in Halive. destruct Halive as [HaA HaB].
  destruct (flush_deliver_live _ _ SB s s' E0 Hinv HaB) as (s1 & c' & bytes & Hinv1 & Hd & Eg & A1 & A2 & A3 & A4 & A5 & A6 & E).
  cbn [conn_of out_of flip_side] in *.
  pose proof Hinv as ((Hbase & _) & _). destruct Hbase as [Hia Hib _ Hub _ _].
  destruct (flush_acks (rb s) c' bytes Hib Hub Hd Eg) as (pkB & F1 & F6 & F18 & F19).
  destruct (deliver_a_run cfg_ab cfg_ba pk t0 pkB bytes F1 (length (out_b s)) s1 s')
    as ((B1 & _ & _ & B4 & _) & B6 & B7 & B9); auto.
  { intros j b Hj. rewrite A3. now apply nth_error_app_off. }
  { rewrite Forall_forall. intros q Hq sq rs -> p Hp. rewrite (F19 sq rs Hq). auto. }
  { intros p Hp. left. rewrite A2. auto. }
  cbn [conn_of flip_side] in B1.
  rewrite A2 in B6, B7. split; [rewrite B1, A1; exact F6|]. split; [congruence|].
  split; [exact B6|]. split; [exact B7|].
  intros y Hy. unfold cparts in Hy. apply in_flat_map in Hy. destruct Hy as (p & Hp & Hy).
  refine (B9 _ p y Hp Hy).
  assert (Hne : c_acks (rb s) <> []) by (intros Hnil; specialize (Hacked p Hp); rewrite Hnil in Hacked; exact Hacked).
  destruct (F18 Hne) as (sq & Hin). apply Exists_exists. exists (Ack sq (c_acks (rb s))). auto.
Qed.

Lemma update_step s x dt s1 : sys_step s (SysApi x (CUpdate dt)) = Ok s1 ->
  only_side x s s1 /\
  exists ru sent, conn_of s1 x = with_sent (with_ru (with_now (conn_of s x) (c_now (conn_of s x) + dt)) ru) sent.
Proof.
  intros E. destruct (sys_api_step s x (CUpdate dt) s1 eq_refl E) as (c' & out & Ec & <- & A2 & A3 & A4 & _ & A7).
  inversion Ec as [op st S| | | | |dt0 ru sent _ _| |]; subst.
  { destruct (status_only_dead _ _ _ S eq_refl) as (_ & Hu & _). discriminate Hu. }
  cbn [outs_of] in A3. rewrite app_nil_r in A3. split; [|eauto]. apply only_side_intro; auto. apply A7. discriminate.
Qed.

Lemma update_all_due c dt ru sent :
  conn_inv c -> (forall ch s, sm_find ch (c_sr c) = Some s -> sr_resend s <= dt) ->
  forall ch, all_due (with_sent (with_ru (with_now c (c_now c + dt)) ru) sent) ch.
Proof.
  intros Hi Hr ch s id p l Hs Hl. cbn [with_sent with_ru with_now c_sr c_now] in *.
  destruct l as [t|]; cbn [is_due]; [|exact I].
  destruct (inv_find_sr _ _ _ Hi Hs) as [Hsi _]. specialize (Hr ch s Hs).
  assert (Ht : t <= c_now c).
  { unfold SendRelP.plast in Hl. destruct (sm_find id (sr_unacked s)) as [u|] eqn:Eu; [|discriminate].
    destruct (SendRelP.sr_inv_find _ _ _ _ Hsi Eu) as (_ & Hwf & _).
    destruct u as [m last|m num na nx ak ls]; destruct p as [i|]; cbn [SendRelP.part_last] in Hl; try discriminate.
    - injection Hl as ->. destruct Hwf as [_ Hle]. exact Hle.
    - destruct Hwf as (_ & _ & _ & _ & _ & _ & Hall).
      exact (Forall_nth_opt _ _ _ _ Hall Hl). }
  lia.
Qed.

Lemma resend_bound cfg c dt : resend_inv cfg c -> cfg_resend_le cfg dt = true ->
  forall ch s, sm_find ch (c_sr c) = Some s -> sr_resend s <= dt.
Proof.
  intros R H ch s Hs. unfold cfg_resend_le in H. rewrite forallb_forall in H.
  specialize (H _ (R ch s Hs)). lia.
Qed.

Lemma tick_clocks cfg_ab cfg_ba s dt s1 s2 :
  tick_inv cfg_ab cfg_ba s -> sys_step s (SysApi SA (CUpdate dt)) = Ok s1 -> sys_step s1 (SysApi SB (CUpdate dt)) = Ok s2 ->
  cfg_resend_le cfg_ab dt = true ->
  c_sr (ra s2) = c_sr (ra s) /\ c_su (ra s2) = c_su (ra s) /\ c_order (ra s2) = c_order (ra s) /\
  c_budget (ra s2) = c_budget (ra s) /\ sent_a s2 = sent_a s /\ forall ch, all_due (ra s2) ch.
Proof.
  intros Hinv E1 E2 Hres.
  destruct (update_step _ _ _ _ E1) as ((_ & _ & _ & A5 & _) & ru1 & sent1 & Eca).
  destruct (update_step _ _ _ _ E2) as ((B2 & _ & _ & B5 & _) & _).
  cbn [conn_of flip_side] in *.
  rewrite B2, Eca. split; [reflexivity|]. split; [reflexivity|]. split; [reflexivity|].
  split; [reflexivity|]. split; [congruence|].
  apply (update_all_due (ra s) dt ru1 sent1 (tick_inv_conn _ _ _ SA Hinv)).
  destruct Hinv as (_ & _ & _ & Hrinv & _). eapply resend_bound; eauto.
Qed.

Lemma budget_run cfg_ab cfg_ba ops s s' : sys_inv cfg_ab cfg_ba s -> sys_run s ops = Ok s' ->
  c_budget (ra s') = c_budget (ra s).
Proof.
  intros Hs. apply (steps_inv_under sys_step (sys_inv cfg_ab cfg_ba) (fun x => c_budget (ra x) = c_budget (ra s))
                      (sys_inv_step cfg_ab cfg_ba)); [|exact Hs|reflexivity].
  intros s0 o s1 (Hb & _) H E. rewrite <- H. now destruct (sys_step_cfg s0 o s1 Hb E SA) as [(_ & B & _) _].
Qed.

(* P = the parts A transmits in this tick; av = the budget left after A's flush *)
Theorem good_tick_effect cfg_ab cfg_ba s dt s' :
  tick_inv cfg_ab cfg_ba s -> good_tick s dt = Ok s' -> alive s' = true -> cfg_resend_le cfg_ab dt = true ->
  exists (P : list cpart) (av : N),
    NoDup P /\ (forall y, In y P -> pend (ra s) y) /\
    (forall y, pend (ra s') y -> pend (ra s) y /\ ~ In y P) /\
    (SLICE_SIZE <= av -> forall y, pend (ra s) y -> In y P) /\
    c_budget (ra s) <= av + pending_bytes (ra s) /\
    (unrel_queued (ra s) = false -> c_budget (ra s) <= av + SLICE_SIZE * len P) /\
    tick_inv cfg_ab cfg_ba s' /\ drained (rb s') /\ sent_a s' = sent_a s /\
    unrel_queued (ra s') = false /\ c_budget (ra s') = c_budget (ra s).
Proof.
  intros Hinv E Halive Hres.
  destruct (good_tick_ok _ _ _ E) as (s1 & s2 & s3 & s4 & s5 & E1 & E2 & E3 & E4 & E5 & E6).
  (* the invariant forwards along the phases, the liveness of both sides backwards *)
  pose proof (tick_inv_step _ _ _ _ _ Hinv E1) as Hinv1.
  pose proof (tick_inv_step _ _ _ _ _ Hinv1 E2) as Hinv2.
  pose proof (run_tick_inv _ _ _ _ (flush_deliver_is_run _ _ _ E3) Hinv2) as Hinv3.
  pose proof (run_tick_inv _ _ _ _ (drain_is_run _ _ _ E4) Hinv3) as Hinv4.
  pose proof (run_tick_inv _ _ _ _ (flush_deliver_is_run _ _ _ E5) Hinv4) as Hinv5.
  pose proof (run_tick_inv _ _ _ _ (drain_is_run _ _ _ E6) Hinv5) as Hinv6.
  pose proof (run_alive _ _ (drain_is_run _ _ _ E6) Halive) as Hal5.
  pose proof (run_alive _ _ (flush_deliver_is_run _ _ _ E5) Hal5) as Hal4.
  pose proof (run_alive _ _ (drain_is_run _ _ _ E4) Hal4) as Hal3.
  destruct (tick_clocks _ _ _ _ _ _ Hinv E1 E2 Hres) as (Hsr2 & Hsu2 & Hord2 & Hbud2 & Hsent2 & Hdue).
  destruct (phase_a_to_b cfg_ab cfg_ba s2 s3 E3 Hinv2 Hal3) as (pk & av & Htx & P11 & P12).
  destruct (drain_run SB s3 s4 E4) as ((D2 & _ & _ & D5 & _) & Dfr & D8).
  cbn [conn_of flip_side] in *.
  apply alive_split in Hal4. destruct Hal4 as [Hal4a Hal4b]. specialize (D8 Hal4b).
  destruct (phase_b_to_a cfg_ab cfg_ba pk (c_now (ra s2)) s4 s5 E5 Hinv4 Hal5)
    as (Q2 & Q4 & Q5su & Q6 & Q7).
  { intros p Hp. rewrite (fr_acks Dfr). auto. }
  { intros p Hp. rewrite D2. exact (tx_sent Htx p Hp). }
  destruct (drain_run SA s5 s' E6) as ((G2 & _ & _ & G5 & _) & Gfr & _).
  cbn [conn_of flip_side] in *.
  assert (Hpend2 : forall y, pend (ra s2) y <-> pend (ra s) y) by (intros y; now apply pend_ext).
  exists (cparts pk), av.
  split; [exact (tx_nodup Htx)|]. split; [intros y Hy; apply Hpend2; exact (tx_pend Htx y Hy)|].
  split.
  { intros y Hy. apply (pend_ext (ra s5) (ra s') y (fr_sr Gfr)) in Hy. split; [|intros Hin; exact (Q7 y Hin Hy)].
    apply Hpend2. apply (pend_static (ra s2) (ra s3) y (tx_static Htx)). rewrite <- D2. auto. }
  split; [intros Hge y Hy; apply (tx_all Htx); auto; now apply Hpend2|].
  split.
  { rewrite <- Hbud2. unfold pending_bytes in *. rewrite <- Hord2.
    replace (map (chan_bytes (ra s)) (c_order (ra s2))) with (map (chan_bytes (ra s2)) (c_order (ra s2)));
      [exact (tx_bytes Htx)|].
    apply map_ext. intros e. unfold chan_bytes. now rewrite Hsr2, Hsu2. }
  split.
  { intros Hq. rewrite <- Hbud2. apply (tx_parts Htx). unfold unrel_queued in *. now rewrite Hsu2. }
  split; [exact Hinv6|]. split; [intros ch r Hr; rewrite G2, Q2 in Hr; eapply D8; eauto|].
  split; [congruence|].
  split.
  { apply (unrel_queued_iff (ra s') (tick_inv_conn _ _ _ SA Hinv6)).
    intros ch q Hq. rewrite (fr_su Gfr), Q5su, D2 in Hq. exact (tx_su Htx ch Hq). }
  destruct (good_tick_is_run _ _ _ E) as (ops & Hrun). exact (budget_run cfg_ab cfg_ba ops s s' (proj1 Hinv) Hrun).
Qed.

Print Assumptions good_tick_effect.

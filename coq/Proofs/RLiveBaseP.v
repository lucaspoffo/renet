(* RLiveBaseP.v - building blocks of the liveness proofs (Spec/RLiveSpec.v):
   1. pending acknowledgements: a run of fresh consecutive sequence numbers is kept;
   2. the parts still to be acknowledged as a duplicate-free list whose length is [outstanding];
   3. the channel send order lists every send channel exactly once; order, budget and resend
      times are fixed by the configuration (cfg_fixed);
   4. a reachable reliable receive channel is the state of an honest execution. *)
From RenetV Require Import Base Consts Varint Packet Channels Conn Server.
From RenetV Require Import CodecSpec RecvSpec SendSpec ConnSpec ConnInvSpec RSysSpec RSysInvSpec RLiveSpec.
From RenetV Require Import SMapP ConnBaseP ConnProcP ConnFlushP ConnP RSysBaseP RSysStepP RSysInvP.
From RenetV Require Import BaseP RunP.
From RenetV Require AcksP RecvRelP SMapSendP SendRelP SliceP DisconnectP.
Require Import Lia ZifyBool ZifyN ZifyNat.
Open Scope N_scope.
Local Opaque SLICE_SIZE MAX_ACK_RANGES SER_BUFFER NC_MAX_PAYLOAD_BYTES DISCARD_PACKET_SECS VARINT_MAX MAX_NUM_SLICES.

Import SendRelP(st_of, static_of, pkt_ok, entry_ok, packed, part_acked).

(* the packets lo, ..., hi-1 have arrived and nothing above them: [lo, hi) is the top block of the
   pending acks, and once hi arrives [lo, hi + 1) is, whatever the limit drops *)
Lemma add_ack_next l lo hi :
  ranges_wf 0 l -> lo <= hi -> AcksP.top_block l lo hi -> AcksP.top_block (add_pending_ack l hi) lo (hi + 1).
Proof.
  intros Hwf Hle [R1 R2]. apply AcksP.top_block_add; [exact Hwf | lia | |].
  - intros x Hx. destruct (N.eq_dec x hi) as [E|E]; [left; exact E | right; apply R1; lia].
  - intros x [->|Hx]; [lia|]. specialize (R2 x Hx). lia.
Qed.

Definition cpart := (N * (N * option N))%type.      (* channel, (message id, part) *)

(* part p of message id of channel ch is waiting for its acknowledgement *)
Definition pend (c : conn) (x : cpart) : Prop :=
  let '(ch, (id, p)) := x in
  exists s, sm_find ch (c_sr c) = Some s /\ packed s id p = Some false.

Definition idxs_false (acked : list bool) : list N :=
  filter (fun i => negb (nth (N.to_nat i) acked true)) (iota (len acked)).

Definition parts_left (u : unacked) : list (option N) :=
  match u with
  | USmall _ _ => [None]
  | USliced _ _ _ _ acked _ => map Some (idxs_false acked)
  end.

Definition sr_parts (s : send_rel) : list (N * option N) :=
  flat_map (fun iu => map (pair (fst iu)) (parts_left (snd iu))) (sr_unacked s).

Definition pending_list (c : conn) : list cpart :=
  flat_map (fun e => map (pair (fst e)) (sr_parts (snd e))) (c_sr c).

Lemma nth_opt_nth (l : list bool) i b : nth_opt l i = Some b -> nth i l true = b.
Proof. intros H. exact (proj2 (proj1 (nth_opt_nth_iff l i b true) H)). Qed.

Lemma in_parts_left u p : In p (parts_left u) <-> part_acked u p = Some false.
Proof.
  destruct u as [m l|m num na nx ak ls]; cbn [parts_left part_acked].
  - destruct p; cbn [In]; split; intros H; try discriminate; auto; destruct H as [H|[]]; discriminate.
  - destruct p as [i|].
    + rewrite in_map_iff. unfold idxs_false. split.
      * intros (j & [= ->] & Hj). apply filter_In in Hj. destruct Hj as [Hj Hn]. apply in_iota in Hj.
        apply (nth_opt_nth_iff _ _ _ true). unfold len in Hj. split; [lia|]. now apply negb_true_iff in Hn.
      * intros H. apply (nth_opt_nth_iff _ _ _ true) in H. destruct H as [H1 H2]. exists i. split; [reflexivity|].
        apply filter_In. split; [apply in_iota; unfold len; lia|]. now rewrite H2.
    + split; [|discriminate]. intros H. apply in_map_iff in H. destruct H as (j & Hj & _). discriminate.
Qed.

Lemma NoDup_parts_left u : NoDup (parts_left u).
Proof.
  destruct u; cbn [parts_left].
  - constructor; [intros []|constructor].
  - apply FinFun.Injective_map_NoDup; [intros x y E; now inversion E|]. apply NoDup_filter, NoDup_iota.
Qed.

Lemma in_sr_parts now s id p : sr_inv now s -> In (id, p) (sr_parts s) <-> packed s id p = Some false.
Proof.
  intros (H1 & _). unfold sr_parts, packed. rewrite (in_flat_map_keys parts_left). split.
  - intros (u & Hin & Hp). rewrite (sm_in_find _ _ _ (proj2 (SMapSendP.keys_asc_asc _ _ H1)) Hin). now apply in_parts_left.
  - destruct (sm_find id (sr_unacked s)) as [u|] eqn:E; [|discriminate].
    intros Hp. exists u. split; [now apply SMapP.sm_find_in|now apply in_parts_left].
Qed.

Lemma NoDup_sr_parts now s : sr_inv now s -> NoDup (sr_parts s).
Proof.
  intros (H1 & _). apply (NoDup_flat_map_keys parts_left).
  - eapply SMapSendP.keys_asc_nodup. exact H1.
  - intros k v _. apply NoDup_parts_left.
Qed.

Lemma in_pending_list c x : conn_inv c -> In x (pending_list c) <-> pend c x.
Proof.
  intros Hi. destruct x as [ch [id p]]. unfold pending_list, pend.
  rewrite (in_flat_map_keys sr_parts). split.
  - intros (s & Hin & Hp). pose proof (sm_in_find _ _ _ (ci_sr_sorted c Hi) Hin) as Hf.
    exists s. split; [exact Hf|]. destruct (inv_find_sr _ _ _ Hi Hf) as [Hsi _].
    now apply (in_sr_parts (c_now c)).
  - intros (s & Hf & Hp). exists s. split; [now apply sm_find_in|].
    destruct (inv_find_sr _ _ _ Hi Hf) as [Hsi _]. now apply (in_sr_parts (c_now c)).
Qed.

Lemma NoDup_pending_list c : conn_inv c -> NoDup (pending_list c).
Proof.
  intros Hi. unfold pending_list.
  apply (NoDup_flat_map_keys sr_parts).
  - apply asc_NoDup. exact (ci_sr_sorted c Hi).
  - intros k v Hin. pose proof (sm_in_find _ _ _ (ci_sr_sorted c Hi) Hin) as Hf.
    destruct (inv_find_sr _ _ _ Hi Hf) as [Hsi _]. eapply NoDup_sr_parts; eauto.
Qed.

Lemma len_idxs_false acked : len (idxs_false acked) = len (filter negb acked).
Proof.
  unfold idxs_false. now rewrite <- (len_filter_map (fun i => nth (N.to_nat i) acked true) negb), map_nth_iota.
Qed.

Lemma len_parts_left u : len (parts_left u) = unacked_left u.
Proof.
  destruct u; cbn [parts_left unacked_left]; [reflexivity|].
  rewrite len_map. apply len_idxs_false.
Qed.

Lemma len_sr_parts s : len (sr_parts s) = sr_outstanding s.
Proof.
  unfold sr_parts, sr_outstanding. rewrite len_flat_map. f_equal. apply map_ext.
  intros [id u]. cbn [fst snd]. rewrite len_map. apply len_parts_left.
Qed.

Lemma len_pending_list c : len (pending_list c) = conn_outstanding c.
Proof.
  unfold pending_list, conn_outstanding. rewrite len_flat_map. f_equal. apply map_ext.
  intros [ch s]. cbn [fst snd]. rewrite len_map. apply len_sr_parts.
Qed.

Definition order_inv (c : conn) : Prop :=
  NoDup (c_order c) /\
  (forall ch, In (true, ch) (c_order c) <-> sm_mem ch (c_sr c) = true) /\
  (forall ch, In (false, ch) (c_order c) <-> sm_mem ch (c_su c) = true).

Lemma build_send_order cfgs : forall su sr ord su' sr' ord',
  build_send cfgs su sr ord = Ok (su', sr', ord') ->
  NoDup ord -> (forall ch, In (true, ch) ord <-> sm_mem ch sr = true) ->
  (forall ch, In (false, ch) ord <-> sm_mem ch su = true) ->
  NoDup ord' /\ (forall ch, In (true, ch) ord' <-> sm_mem ch sr' = true) /\
  (forall ch, In (false, ch) ord' <-> sm_mem ch su' = true).
Proof.
  induction cfgs as [|cfg t IH]; intros su sr ord su' sr' ord' E Hnd Hr Hu.
  - cbn [build_send] in E. injection E as <- <- <-. auto.
  - rewrite build_send_cons in E. destruct (cc_rel cfg) as [rt|].
    + destruct (sm_mem (cc_id cfg) sr) eqn:Hm; [discriminate|]. eapply IH; [exact E| | |].
      * apply NoDup_snoc; [exact Hnd|]. intros Hin. apply Hr in Hin. congruence.
      * intros ch. rewrite in_app_iff, sm_mem_insert, Hr. cbn [In].
        destruct (N.eqb_spec ch (cc_id cfg)) as [->|Hne]; cbn [orb]; [tauto|].
        split; [intros [H|[H|[]]]; [exact H|inversion H; congruence]|tauto].
      * intros ch. rewrite in_app_iff, Hu. cbn [In]. split; [intros [H|[H|[]]]; [exact H|discriminate]|tauto].
    + destruct (sm_mem (cc_id cfg) su) eqn:Hm; [discriminate|]. eapply IH; [exact E| | |].
      * apply NoDup_snoc; [exact Hnd|]. intros Hin. apply Hu in Hin. congruence.
      * intros ch. rewrite in_app_iff, Hr. cbn [In]. split; [intros [H|[H|[]]]; [exact H|discriminate]|tauto].
      * intros ch. rewrite in_app_iff, sm_mem_insert, Hu. cbn [In].
        destruct (N.eqb_spec ch (cc_id cfg)) as [->|Hne]; cbn [orb]; [tauto|].
        split; [intros [H|[H|[]]]; [exact H|inversion H; congruence]|tauto].
Qed.

Lemma conn_new_order_inv budget scfg rcfg c : conn_new budget scfg rcfg = Ok c -> order_inv c.
Proof.
  intros E. apply conn_new_send in E.
  eapply build_send_order; [exact E|constructor| |]; intros ch; cbn [In]; split; (contradiction || discriminate).
Qed.

Definition same_resend : list (N * send_rel) -> list (N * send_rel) -> Prop :=
  sm_rel (fun _ s s' => sr_resend s' = sr_resend s).

Definition cfg_fixed (c c' : conn) : Prop :=
  c_order c' = c_order c /\ c_budget c' = c_budget c /\ same_resend (c_sr c) (c_sr c').

Lemma cfg_fixed_eq c c' : c_order c' = c_order c -> c_budget c' = c_budget c -> c_sr c' = c_sr c -> cfg_fixed c c'.
Proof. intros Ho Hb Hs. split; [exact Ho|]. split; [exact Hb|]. rewrite Hs. now apply sm_rel_refl. Qed.

Lemma cfg_fixed_refl c : cfg_fixed c c.
Proof. apply cfg_fixed_eq; reflexivity. Qed.

Lemma cfg_fixed_trans a b c : cfg_fixed a b -> cfg_fixed b c -> cfg_fixed a c.
Proof.
  intros (A1 & A2 & A3) (B1 & B2 & B3). split; [congruence|]. split; [congruence|].
  eapply sm_rel_trans; [|exact A3|exact B3]. cbv beta. intros k x y z E1 E2. congruence.
Qed.

Lemma cfg_fixed_sr c c' ch s s' :
  c_order c' = c_order c -> c_budget c' = c_budget c -> c_sr c' = sm_insert ch s' (c_sr c) ->
  sm_find ch (c_sr c) = Some s -> sr_resend s' = sr_resend s -> cfg_fixed c c'.
Proof. intros Ho Hb Es Hs E. split; [exact Ho|]. split; [exact Hb|]. rewrite Es. now apply (sm_rel_insert _ _ s). Qed.

Lemma order_inv_keep c c' : cfg_fixed c c' -> same_channels c c' -> order_inv c -> order_inv c'.
Proof.
  intros (Eo & _) Hsc (H1 & H2 & H3). unfold order_inv. rewrite Eo. split; [exact H1|].
  split; intros ch; destruct (Hsc ch) as (A1 & A2 & _); [rewrite A1|rewrite A2]; auto.
Qed.

Lemma ack_ids_config ids s s' : ack_ids s ids = Ok s' -> sr_resend s' = sr_resend s.
Proof.
  apply (steps_inv sr_ack_message (fun x => sr_resend x = sr_resend s)); [|reflexivity].
  intros s0 id s1 H E. destruct (SendRelP.sr_ack_message_config _ _ _ E) as (_ & R & _). congruence.
Qed.

Lemma ack_step_cfg c x info c' : ack_step c x info c' -> cfg_fixed c c'.
Proof.
  intros [|ch ids s s' Hs Ea|ch id idx s s' Hs Ea|lg]; try (apply cfg_fixed_eq; reflexivity).
  - apply (cfg_fixed_sr _ _ ch s s'); try reflexivity; [exact Hs|now apply (ack_ids_config ids)].
  - apply (cfg_fixed_sr _ _ ch s s'); try reflexivity; [exact Hs|].
    now destruct (SendRelP.sr_ack_slice_config _ _ _ _ Ea) as (_ & R & _).
Qed.

Lemma apply_acks_cfg seqs c c' : apply_acks c seqs = Ok c' -> cfg_fixed c c'.
Proof.
  apply (steps_inv apply_ack (cfg_fixed c)); [|apply cfg_fixed_refl].
  intros c0 x c1 H E. apply apply_ack_inv in E as (t & info & _ & A).
  exact (cfg_fixed_trans _ _ _ H (ack_step_cfg _ _ _ _ A)).
Qed.

Lemma parsed_step_cfg c1 p c' : parsed_step c1 p c' -> cfg_fixed c1 c'.
Proof.
  intros [p0 r _| | | | |sq rs l c2 _ Ea]; try (apply cfg_fixed_eq; reflexivity).
  exact (apply_acks_cfg l _ _ Ea).
Qed.

Lemma gather_cfg ord c avail c1 av pk : gather_rel ord c avail c1 av pk -> conn_inv c -> cfg_fixed c c1.
Proof.
  revert ord c avail c1 av pk. apply (gather_rel_inv_ind (fun _ c _ c1 _ _ => cfg_fixed c c1)).
  - intros c _ _. apply cfg_fixed_refl.
  - intros ch t c av s s' pk seq' av1 c2 av2 pk2 Hs Hsi _ Eg _ IH.
    refine (cfg_fixed_trans _ _ _ _ IH). apply (cfg_fixed_sr _ _ ch s s'); auto.
    apply (SendRelP.sr_get_packets_config (c_now c) _ _ _ _ _ _ _ Hsi Eg).
  - intros ch t c av s s' pk seq' av1 c2 av2 pk2 _ _ _ _ _ IH.
    refine (cfg_fixed_trans _ _ _ _ IH). apply cfg_fixed_eq; reflexivity.
Qed.

Lemma flush_cfg c c' bytes :
  conn_inv c -> is_disconnected c = false -> get_packets_to_send c = Ok (c', bytes) -> cfg_fixed c c'.
Proof.
  intros Hi Hd Eg. destruct (flush_spec c c' bytes Hi Hd Eg) as (c2 & av & pk & pkts & _ & Hrel & -> & _).
  split; [reflexivity|]. split; [reflexivity|]. apply (gather_cfg _ _ _ _ _ _ Hrel Hi).
Qed.

Lemma cstep_cfg c o c' out : conn_inv c -> cstep c o = Ok (c', out) -> cfg_fixed c c'.
Proof.
  intros Hi E.
  destruct (cstep_inv c o c' out E) as [op st _|ch m s s' _ Hs Es| | | | |c' bytes Hd Eg|b p c' _ _ Hp];
    try (apply cfg_fixed_eq; reflexivity).
  - apply (cfg_fixed_sr _ _ ch s s'); try reflexivity; [exact Hs|].
    now destruct (SendRelP.sr_send_config _ _ _ Es) as (_ & R & _).
  - exact (flush_cfg c c' bytes Hi Hd Eg).
  - apply (cfg_fixed_trans c (note_seq c (packet_seq p))); [apply cfg_fixed_eq; reflexivity|].
    exact (parsed_step_cfg _ p _ Hp).
Qed.

(* a step changes a connection by at most one call (a packet handed over is a call of process_packet) *)
Definition one_call (c c' : conn) : Prop := c' = c \/ exists op out, cstep c op = Ok (c', out).

Lemma one_call_cfg c c' : conn_inv c -> one_call c c' -> cfg_fixed c c' /\ same_channels c c'.
Proof.
  intros Hi [->|(op & out & E)]; [split; [apply cfg_fixed_refl|apply same_channels_refl]|].
  split; [exact (cstep_cfg _ _ _ _ Hi E)|exact (cstep_channels _ _ _ _ Hi E)].
Qed.

Lemma one_call_dead c c' : one_call c c' -> is_disconnected c = true -> is_disconnected c' = true.
Proof. intros [->|(op & out & E)]; [auto|exact (DisconnectP.cstep_dead_mono _ _ _ _ E)]. Qed.

Lemma dstep_calls d d' : dstep d d' -> one_call (d_snd d) (d_snd d') /\ one_call (d_rcv d) (d_rcv d').
Proof.
  assert (Hp : forall c b c', process_packet c b = Ok c' -> one_call c c').
  { intros c b c' E. right. exists (CProcess b), ONone. cbn [cstep]. now rewrite E. }
  intros [|op c' out _ Ec|op c' out _ Ec|i b c' _ Ep|i b c' _ Ep]; cbn [with_snd with_rcv d_snd d_rcv].
  - split; now left.
  - split; [right; eauto|now left].
  - split; [now left|right; eauto].
  - split; [now left|exact (Hp _ _ _ Ep)].
  - split; [exact (Hp _ _ _ Ep)|now left].
Qed.

Lemma sys_step_side s o s' x : sys_step s o = Ok s' -> one_call (conn_of s x) (conn_of s' x).
Proof. intros E. destruct (dstep_calls _ _ (proj1 (sys_step_dir s o s' E))) as [A B]. now destruct x. Qed.

Lemma sys_step_cfg s o s' : base_inv s -> sys_step s o = Ok s' ->
  forall x, cfg_fixed (conn_of s x) (conn_of s' x) /\ same_channels (conn_of s x) (conn_of s' x).
Proof.
  intros [Ha Hb _ _ _ _] E x. apply one_call_cfg; [destruct x; assumption|exact (sys_step_side s o s' x E)].
Qed.

(* the same predicate as RecvRelP.ev_done (see there) *)
Definition ev_done (r : recv_rel) (e : rev) : Prop :=
  match e with
  | RSmall id => rr_seen r id = true
  | RSlice id idx => rr_seen r id = true \/ exists c, sm_find id (rr_slices r) = Some c /\ SliceP.has c idx
  | RRecv => True
  end.

Lemma rr_refines_hcore sent got o r : rr_refines sent got o r ->
  exists outs, RecvRelP.hcore sent r outs /\ map snd outs = got /\ RecvRelP.mode r = o.
Proof.
  intros (max & evs & outs & F & E & G).
  destruct (RecvRelP.exec_from_init sent max o evs r outs false F E) as (H & M & _).
  exists outs. auto.
Qed.
